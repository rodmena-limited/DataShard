(* Model/ManifestPrim.v -- vocabulary for the manifest-level round trip of column bounds
   (file_manager.FileManager.create_manifest_file -> read_manifest_file), used by the regenerated
   Gen/GenManifest13.v.  Definitions only.

   A DataFile carries two Optional[Dict[int, Any]] (lower_bounds / upper_bounds: field id -> bound).
   A manifest is an Avro file with one record per entry; the bounds travel in two map<string> fields
   whose keys are str(field id) and whose values are the JSON text _encode_bound returns (modelled as
   the (tag, payload) pair of Model/BoundPrim.v).  fastavro writes and reads a list of records and
   their string maps exactly (assumption Avro-exact, validated by the harness on real manifests).

   The field ids here are INTS: what Schema.__post_init__ accepts (Proofs/SchemaIdsProofs.v, over the regenerated
   guards).  Their keys are the real strings: Model/FieldKey.v str_of_Z (Python str(int)) and kdec (Python int(str));
   that the two are inverse is PROVED (Proofs/FieldKeyProofs.v kdec_str_of_Z), not built into the key type.  What the
   two dict comprehensions do to ids that are NOT ints (1 and "1" meet) is Model/FieldKey.v key_trip. *)
From Coq Require Import ZArith List Bool String.
Require Import DS.Model.Value DS.Model.BoundPrim DS.Model.FieldKey.
Import ListNotations.
Open Scope Z_scope.

Definition bmap := list (Z * value).                  (* Dict[int, Any] *)
Definition ebound := (string * jpayload)%type.        (* json.dumps({"t": tag, "v": payload}) *)
Definition akey := list Z.                            (* str(field id), an Avro map key: a string (code points) *)
Definition amap := list (akey * ebound).              (* Avro map<string> *)

(* the bounds fields of a DataFile, and of a manifest entry record *)
Record dfb := { df_lower : option bmap; df_upper : option bmap }.
Record mrec := { r_status : Z; r_lower : option amap; r_upper : option amap }.

(* str(k) on an int field id; int(k) on a key.  (A key int() refuses makes read_manifest_file raise: not reached for the keys
   the writer produces from int ids -- Proofs/FieldKeyProofs.v int_or_0_str_of_Z -- and rendered as 0 here.) *)
Definition py_str_of_id (k : Z) : akey := str_of_Z k.
Definition py_int_of_key (k : akey) : Z := match kdec k with IntOk z => z | _ => 0 end.

(* truthiness of an Optional[dict]: None and {} are falsy *)
Definition truthy {A} (m : option (list A)) : bool :=
  match m with Some (_ :: _) => true | _ => false end.
(* d.items() of a dict known to be truthy (the empty list otherwise; never reached) *)
Definition items {A} (m : option (list A)) : list A :=
  match m with Some l => l | None => [] end.
(* a falsy Optional[dict] (None or {}) that is passed on unchanged, seen at the other element type *)
Definition keep_falsy {A B} (m : option (list A)) : option (list B) :=
  match m with None => None | Some _ => Some [] end.
