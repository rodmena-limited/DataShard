(* Model/Tail.v -- what can happen between the pointer flip and the return of the commit call.

   Model/Fault.v lets a transaction delete its files only if it never flipped (`can_rollback`).  In the code that guard
   is not a test: Transaction.commit's `except Exception` / conflict arms run `_rollback()` -- which deletes every file the
   transaction wrote -- whenever such an exception reaches them, flipped or not.  That no such exception CAN reach them
   after the flip is a fact about the TAIL of the call: the statements still executed inside Transaction.commit's `try`
   once the version-hint write has landed.  Gen/GenTail.v regenerates that tail from the source on every run (as a
   regular expression `tre` over storage / lock calls, each marked `guarded` iff an Exception it raises is swallowed
   before reaching Transaction.commit's handlers); Gen/GenCommit.v regenerates the handler table gen_tx_on.

   Here the machine of Fault.v gets the event the guard used to exclude:

     TEscape a e last   an exception of class e leaves the tail of a's commit call (a is past its flip) and is handled by
                        Transaction.commit's arm  txon e last  -- deleting a's files if the arm says so, WITHOUT any
                        test of whether a flipped.

   The event is enabled only if the tail has a call that lets e escape (an asynchronous interrupt escapes anywhere).
   Proofs/TailProofs.v: if every escaping class is handled by the keep-files arm (tail_safe), every run of this machine is a
   run of Fault.v's (safe_trun_is_frun), so every file referenced by a committed version stays present, for every event
   list (Props/C04.v C04_post_flip_no_damage); and if some escaping class is handled by a deleting arm, a damaging run
   exists (unguarded_tail_damages).  Definitions only. *)
From Coq Require Import ZArith List Bool Arith.
Require Import DS.Model.CommitBase DS.Model.TailBase DS.Model.Commit DS.Model.Fault.
Import ListNotations.

(* ---- the tail as a language (used by the harness: the calls a real commit issues after its flip must be a word) *)
Definition tail_kind_eqb (a b : tail_kind) : bool :=
  match a, b with
  | TKRelease, TKRelease | TKLock, TKLock | TKDelete, TKDelete | TKExists, TKExists | TKRead, TKRead
  | TKWrite, TKWrite | TKList, TKList | TKRaise, TKRaise | TKOther, TKOther | TKCompute, TKCompute => true
  | _, _ => false
  end.

Fixpoint nullable (r : tre) : bool :=
  match r with
  | TEmpty => false | TEps => true | TCall _ _ => false
  | TSeq a b => nullable a && nullable b
  | TAlt a b => nullable a || nullable b
  | TStar _ => true
  end.

(* Brzozowski derivative by one observed call *)
Fixpoint deriv (k : tail_kind) (r : tre) : tre :=
  match r with
  | TEmpty | TEps => TEmpty
  | TCall k' _ => if tail_kind_eqb k k' then TEps else TEmpty
  | TSeq a b => if nullable a then TAlt (TSeq (deriv k a) b) (deriv k b) else TSeq (deriv k a) b
  | TAlt a b => TAlt (deriv k a) (deriv k b)
  | TStar a => TSeq (deriv k a) (TStar a)
  end.

(* what of a tail can be observed at the storage / lock interface: TKCompute steps leave no call behind *)
Fixpoint observable (r : tre) : tre :=
  match r with
  | TCall TKCompute _ => TEps
  | TSeq a b => TSeq (observable a) (observable b)
  | TAlt a b => TAlt (observable a) (observable b)
  | TStar a => TStar (observable a)
  | _ => r
  end.

Definition tail_accepts (r : tre) (obs : list tail_kind) : bool := nullable (fold_left (fun r k => deriv k r) obs r).
(* a prefix of a word (a call cut short by a failure or an interrupt): some continuation is still possible *)
Fixpoint nonempty (r : tre) : bool :=
  match r with
  | TEmpty => false | TEps => true | TCall _ _ => true
  | TSeq a b => nonempty a && nonempty b
  | TAlt a b => nonempty a || nonempty b
  | TStar _ => true
  end.
Definition tail_accepts_prefix (r : tre) (obs : list tail_kind) : bool := nonempty (fold_left (fun r k => deriv k r) obs r).

(* ---- which exception classes can leave the tail *)
Fixpoint unguarded (r : tre) : bool :=
  match r with
  | TCall _ g => negb g
  | TSeq a b | TAlt a b => unguarded a || unguarded b
  | TStar a => unguarded a
  | TEmpty | TEps => false
  end.

(* is there a call of kind k whose Exception is / is not swallowed? (fault-injection correspondence) *)
Fixpoint has_call (k : tail_kind) (g : bool) (r : tre) : bool :=
  match r with
  | TCall k' g' => tail_kind_eqb k k' && Bool.eqb g g'
  | TSeq a b | TAlt a b => has_call k g a || has_call k g b
  | TStar a => has_call k g a
  | TEmpty | TEps => false
  end.

(* KeyboardInterrupt / SystemExit are asynchronous: they surface between any two instructions, and no `except Exception`
   stops them.  Every other class needs a call (or raise) that no handler of the tail swallows. *)
Definition tail_escapes (r : tre) (e : exn_class) : bool :=
  match e with XInterrupt => true | _ => unguarded r end.

Definition all_classes : list exn_class := [XConflict; XAmbiguous; XOther; XInterrupt].
Definition keeps (a : tx_action) : bool := match a with TxRollbackKeep => true | _ => false end.

(* every class that can leave the tail is handled by the arm that keeps the files and finishes the transaction *)
Definition tail_safe (txon : exn_class -> bool -> tx_action) (r : tre) : bool :=
  forallb (fun e => negb (tail_escapes r e) || (keeps (txon e true) && keeps (txon e false))) all_classes.

(* ---- the machine *)
Inductive tevent :=
| TF (e : fevent)                                   (* an event of Model/Fault.v *)
| TEscape (a : aid) (e : exn_class) (last : bool).  (* class e leaves the tail of a's commit call; `last`: final attempt *)

Definition in_tail (p : pc) : bool := match p with PFlipped | PDone Success => true | _ => false end.

(* `_rollback(delete_files=True)` as the code runs it: no test of the protocol state *)
Definition delete_written (x : fworld) (a : aid) : fworld :=
  {| fw := fw x; f_present := remove_all (f_written x a) (f_present x); f_refs := f_refs x;
     f_written := updw a [] (f_written x); f_next := f_next x; f_owner := f_owner x;
     f_dead := fun b => if Nat.eqb b a then true else f_dead x b |}.     (* ghost: a has run the deleting rollback *)

Definition tstep (r : tre) (txon : exn_class -> bool -> tx_action) (c : cfg) (x : fworld) (ev : tevent) : option fworld :=
  match ev with
  | TF e => fstep c x e
  | TEscape a e last =>
    if in_tail (a_pc (w_actors (fw x) a)) && tail_escapes r e then
      (* MetadataManager.commit's `finally`: between flip and release the lock is released on the way out *)
      let x1 := match fstep c x (FProto {| e_actor := a; e_kind := EAbort |}) with Some x' => x' | None => x end in
      match txon e last with
      | TxRollbackKeep => Some x1
      | TxRollbackDelete => Some (delete_written x1 a)
      | TxPropagate => Some (delete_written x1 a)   (* nobody finished the transaction: a context manager's __exit__ rolls back *)
      | TxRetry => None                             (* re-running a committed operation is outside the file plane; excluded by tail_safe *)
      end
    else None
  end.

Definition tstep_skip r txon (c : cfg) (x : fworld) (ev : tevent) : fworld :=
  match tstep r txon c x ev with Some x' => x' | None => x end.
Definition trun r txon (c : cfg) (x : fworld) (evs : list tevent) : fworld := fold_left (tstep_skip r txon c) evs x.

Fixpoint trun_strict r txon (c : cfg) (x : fworld) (evs : list tevent) (i : nat) : fworld + nat :=
  match evs with
  | [] => inl x
  | e :: evs' => match tstep r txon c x e with Some x' => trun_strict r txon c x' evs' (S i) | None => inr i end
  end.

(* SnapshotManager.delete_snapshot calls MetadataManager.commit outside any Transaction: nothing handles anything *)
Definition no_handlers (_ : exn_class) (_ : bool) : tx_action := TxPropagate.
