(* Model/ProcFork.v -- fork(2) as the kernel performs it: the WHOLE descriptor table of the forking process.

   Model/ProcLock.v's `LFork h h'` copies ONE handle object and the descriptors of that one handle.  A real fork()
   copies the memory of the process -- every handle object -- and every open descriptor of the process, each inherited
   descriptor referring to the SAME open file description as the parent's.  A process with two handles, one idle and
   one holding, cannot fork "just the idle one": the child gets a descriptor of the owning description too, the lock
   then survives the parent's death (flock: the lock goes away with the LAST descriptor of the description) and an
   outsider stays refused until the child exits.  This file puts the process-level event on top of ProcLock.lstep
   (same state, same kernel, same handle program):

       PEv e                a non-fork event of ProcLock.v (handle primitive, process death); `PEv (LFork _ _)` is NOT
                            an event of this machine (never enabled): there is no single-handle fork
       PFork p p' tw        process p forks process p'.  `tw` names the copies: (k, k') = handle k' of p' is the copy
                            of handle object k of p.  ENABLED only when tw covers EVERY reference to an open
                            description held by a handle of p (`covers`): the kernel copies the whole table, the
                            schedule cannot leave a descriptor out.  The child's table: one reference (d, twin k) for
                            every reference (d, k) of p (`inherited_all`); the copies' program states are what the
                            copied object fields say (ProcLock.twin_state); handle objects of p that are not listed
                            in tw are idle objects without a descriptor (their copy is an idle object without a
                            descriptor: nothing to record).

   A fork is QUIESCENT when NO handle of the forking process is inside an acquisition -- attempt in progress, holding,
   or inside release() (`pfork_quiescent`: every handle of p is idle; the application forks its workers between
   commits of ALL its table handles, not from inside one).  Then p has no descriptor of the lock file at all and the
   child inherits nothing; Proofs/ProcForkProofs.v proves, under that hypothesis, the invariant of every reachable state
   (preach_inv) and the per-state lemmas from which Props/C19.v derives the C19 statements; without it the statements
   (the `_full` Definitions there) are refuted in Props/C19.v (fork while ANOTHER handle of the process holds included).

   Definitions only. *)
From Coq Require Import List Bool Arith.
Require Import DS.Model.ProcLockBase DS.Model.ProcLock.
Import ListNotations.

Inductive pevent := PEv (e : levent) | PFork (p p' : pid) (tw : list (hid * hid)).

Fixpoint twin_of (tw : list (hid * hid)) (k : hid) : option hid :=
  match tw with [] => None | (a, b) :: r => if Nat.eqb a k then Some b else twin_of r k end.
Fixpoint orig_of (tw : list (hid * hid)) (k' : hid) : option hid :=
  match tw with [] => None | (a, b) :: r => if Nat.eqb b k' then Some a else orig_of r k' end.

(* the child's descriptor table: every reference of a handle of p, owned by that handle's copy *)
Definition inherit_ref (proc : hid -> pid) (p : pid) (tw : list (hid * hid)) (x : fdn * hid) : list (fdn * hid) :=
  if in_proc proc p (snd x) then match twin_of tw (snd x) with Some k' => [(fst x, k')] | None => [] end else [].
Definition inherited_all (proc : hid -> pid) (p : pid) (tw : list (hid * hid)) (l : list (fdn * hid)) : list (fdn * hid) :=
  flat_map (inherit_ref proc p tw) l.

Definition is_idle (x : hstate) : bool := match x with HIdle => true | _ => false end.
Definition is_dead (x : hstate) : bool := match x with HDead => true | _ => false end.
Fixpoint nodupb (l : list nat) : bool :=
  match l with [] => true | x :: r => negb (existsb (Nat.eqb x) r) && nodupb r end.

(* (k, k'): k is a handle object of the (live) forking process, k' a NEW handle of the child process *)
Definition twin_ok (proc : hid -> pid) (s : lstate) (p p' : pid) (ab : hid * hid) : bool :=
  Nat.eqb (proc (fst ab)) p && Nat.eqb (proc (snd ab)) p' && negb (is_dead (l_h s (fst ab)))
  && is_idle (l_h s (snd ab)) && negb (has_refs (l_open s) (snd ab)).

(* the whole table: every reference held in process p has a copy *)
Definition covers (proc : hid -> pid) (p : pid) (tw : list (hid * hid)) (l : list (fdn * hid)) : bool :=
  forallb (fun x => negb (in_proc proc p (snd x)) || existsb (Nat.eqb (snd x)) (map fst tw)) l.

Definition pfork_enabled (proc : hid -> pid) (s : lstate) (p p' : pid) (tw : list (hid * hid)) : bool :=
  negb (Nat.eqb p p') && forallb (twin_ok proc s p p') tw && nodupb (map fst tw) && nodupb (map snd tw)
  && covers proc p tw (l_open s).

Definition pstep (dc : disc) (proc : hid -> pid) (s : lstate) (e : pevent) : option lstate :=
  match e with
  | PEv (LFork _ _) => None
  | PEv e0 => lstep dc proc s e0
  | PFork p p' tw =>
    if pfork_enabled proc s p p' tw then
      Some {| l_open := l_open s ++ inherited_all proc p tw (l_open s); l_next := l_next s; l_owner := l_owner s;
              l_h := fun k => match orig_of tw k with Some k0 => twin_state (l_h s k0) | None => l_h s k end |}
    else None
  end.

(* no handle of the forking process is inside an acquisition *)
Definition pfork_quiescent (proc : hid -> pid) (s : lstate) (e : pevent) : Prop :=
  match e with PFork p _ _ => forall k, proc k = p -> l_h s k = HIdle | PEv _ => True end.

Definition pstep_skip (dc : disc) (proc : hid -> pid) (s : lstate) (e : pevent) : lstate :=
  match pstep dc proc s e with Some s' => s' | None => s end.
Definition prun (dc : disc) (proc : hid -> pid) (s : lstate) (evs : list pevent) : lstate :=
  fold_left (pstep_skip dc proc) evs s.

Fixpoint pforks_quiescent (dc : disc) (proc : hid -> pid) (s : lstate) (evs : list pevent) : Prop :=
  match evs with
  | [] => True
  | e :: evs' => pfork_quiescent proc s e /\ pforks_quiescent dc proc (pstep_skip dc proc s e) evs'
  end.

(* trace validation: the first event that is not enabled is reported by its index *)
Fixpoint prun_strict (dc : disc) (proc : hid -> pid) (s : lstate) (evs : list pevent) (i : nat) : lstate + nat :=
  match evs with
  | [] => inl s
  | e :: evs' => match pstep dc proc s e with Some s' => prun_strict dc proc s' evs' (S i) | None => inr i end
  end.

(* what is_held() returns: the handle's `_locked` flag.  It is set by a granted attempt and cleared at the END of
   release(), after the unlock and the close: in HUnlocked the flag is still True and the kernel lock is gone. *)
Definition lflag (s : lstate) (h : hid) : Prop := exists d, l_h s h = HHeld d \/ l_h s h = HUnlocked d.
Definition in_release (s : lstate) (h : hid) : Prop := exists d, l_h s h = HUnlocked d.
