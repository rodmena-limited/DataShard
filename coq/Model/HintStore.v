(* Model/HintStore.v -- the metadata directory and the version pointer as a small sequential machine.

   State: the pointer content, the metadata files directly in metadata/ (in LISTING order), and two
   ghost fields the code does not have: which file was last published by a successful commit point
   (`glatest`) and which snapshots were acknowledged to callers (`gacked`); every file also carries the
   ghost flag `fcom` (its commit point succeeded).

   Operations.  The version of a new file is numbered from _current_version_info() on both kinds of backend
   (plain pointer writes; conditional pointer writes, where since fix a9fa40b the parsed pointer is used only
   when its target exists -- which is what _current_version_info() returns in that case).  A precondition
   failure of a conditional pointer write is a FailCommitPoint like a failed fence or a failed local write:
     ECreate   Table(path, create_if_not_exists=True) / create_table          transaction.py:755-783,
               -> refresh() is None ? initialize_table : nothing              metadata_manager.py:67-118
     ECommit   Transaction.commit -> MetadataManager.commit                   transaction.py:346-448,
               base := refresh(); version := _current_version_info();         metadata_manager.py:137-260
               write v<version+1>-<id>.metadata.json; fence; write pointer
     EDamage   anything at all happens to the pointer file (deleted, overwritten with arbitrary bytes)
   An operation carries its outcome:
     Ok                     the commit point (pointer write) succeeded
     FailEarly              lock timeout / validation conflict / the metadata write itself failed: nothing written
     FailCommitPoint c      the metadata file was written and the commit point was not reached or failed:
                            c = true   the fence or the pointer write failed cleanly (an Exception other than
                                       AmbiguousCommitError): commit()/initialize_table() remove the file again;
                            c = false  the file STAYS BEHIND, never published.  The code as it is does this when the
                                       process dies between the two writes, when a KeyboardInterrupt / SystemExit
                                       arrives there (not an Exception: the removal arm does not run), when the pointer
                                       PUT of a conditional-write backend fails ambiguously without landing
                                       (AmbiguousCommitError: kept on purpose), and when the best-effort removal fails
                                       (harness/props/c10.py LEFTOVER_OPS drives each of them on the real code)
   The machine is SEQUENTIAL: one operation at a time.  A commit in progress seen by a concurrent opener is the
   state after `FailCommitPoint false` (file written, pointer not yet flipped); nothing else of concurrency is here.
   File ids (the 8 random hex digits), mtimes, the position at which the backend lists a new file, table
   uuids and snapshot ids are supplied by the event: the theorems quantify over all of them.

   Definitions only; proofs are in Proofs/HintStoreProofs.v. *)
From Coq Require Import ZArith NArith List Bool.
Require Import DS.Model.HintPrim DS.Gen.GenHint DS.Model.Hint.
Import ListNotations.
Open Scope N_scope.

Record mfile := { fver : N; fid : list N; fmt : Z; fcom : bool; fuuid : N; fsnaps : list N }.

Definition fname (f : mfile) : list cp := render_name (fver f) (fid f).
Definition entry_of (f : mfile) : entry := {| epath := render_path (fver f) (fid f); emt := Some (fmt f) |}.

Record store := {
  ptr : option (option (list cp));     (* see Model/Hint.v: None = no pointer file *)
  files : list mfile;
  glatest : option mfile;
  gacked : list N }.

Definition empty_store : store := {| ptr := None; files := []; glatest := None; gacked := [] |}.
Definition listing (st : store) : list entry := map entry_of (files st).

Definition name_eqb (a b : list cp) : bool := codes_eqb (codes a) (codes b).
Definition find_file (name : list cp) (fs : list mfile) : option mfile :=
  find (fun f => name_eqb (fname f) name) fs.

(* MetadataManager.refresh(): resolve, then read the named file *)
Inductive rfr := RfRaise | RfNone | RfMeta (v : N) (f : mfile).
Definition refresh_of (p : option (option (list cp))) (fs : list mfile) : rfr :=
  match resolve p (map entry_of fs) with
  | RRaise => RfRaise
  | RRet None => RfNone
  | RRet (Some (v, name)) =>
    match find_file name fs with
    | Some f => RfMeta v f
    | None => RfRaise                       (* the named file cannot be read *)
    end
  end.
Definition refresh (st : store) : rfr := refresh_of (ptr st) (files st).

Inductive outcome := Ok | FailEarly | FailCommitPoint (cleaned : bool).

Inductive event :=
| ECreate (id : list N) (t : Z) (pos : nat) (uuid : N) (o : outcome)
| ECommit (id : list N) (t : Z) (pos : nat) (sid : N) (o : outcome)
| EDamage (p : option (option (list cp))).

Definition insert_at {A} (pos : nat) (x : A) (l : list A) : list A := firstn pos l ++ x :: skipn pos l.
Definition published (f : mfile) : mfile :=
  {| fver := fver f; fid := fid f; fmt := fmt f; fcom := true; fuuid := fuuid f; fsnaps := fsnaps f |}.

(* writing the metadata file, then the commit point *)
Definition publish (st : store) (f : mfile) (pos : nat) (o : outcome) (acked : list N) : store :=
  match o with
  | Ok => {| ptr := Some (Some (fname f)); files := insert_at pos (published f) (files st);
             glatest := Some (published f); gacked := acked |}
  | FailEarly => st
  | FailCommitPoint true => st
  | FailCommitPoint false =>
    {| ptr := ptr st; files := insert_at pos f (files st); glatest := glatest st; gacked := gacked st |}
  end.

Definition step (st : store) (e : event) : store :=
  match e with
  | ECreate id t pos uuid o =>
    match refresh st with
    | RfNone =>
      publish st {| fver := 0; fid := id; fmt := t; fcom := false; fuuid := uuid; fsnaps := [] |} pos o (gacked st)
    | _ => st                               (* an existing table is never initialised again *)
    end
  | ECommit id t pos sid o =>
    match refresh st with
    | RfMeta v base =>
      let next := v + 1 in
      if printable next then                (* f"v{version}-..." raises ValueError otherwise: nothing written *)
        publish st {| fver := next; fid := id; fmt := t; fcom := false; fuuid := fuuid base;
                      fsnaps := fsnaps base ++ [sid] |} pos o (gacked st ++ [sid])
      else st
    | _ => st                               (* "No current metadata" / refresh raised *)
    end
  | EDamage p => {| ptr := p; files := files st; glatest := glatest st; gacked := gacked st |}
  end.

Definition run (st : store) (h : list event) : store := fold_left step h st.

(* ---- which histories the theorems speak about ---- *)

(* A pointer content is STALE in st when it parses and names an existing file that is not the latest
   published one.  Missing, empty, undecodable, unparseable contents, names of missing files and the
   name of the latest file are all not stale. *)
Definition stale (p : option (option (list cp))) (st : store) : Prop :=
  exists v name f, read_hint p = PRet (Some (v, name)) /\ In f (files st)
                   /\ name_eqb (fname f) name = true /\ glatest st <> Some f.

(* The pointer cannot be used and _current_version_info falls back to the scan: there is no pointer file, or its content
   is undecodable / blank / matches neither form (read_hint = PRet None), or it PARSES but names a file that is not stored
   (storage.exists(f"{metadata_path}/{filename}") is False: a pointer restored from elsewhere, a name of a collected
   version, a truncated or edited name that still matches the pattern, a legacy number of a missing legacy file). *)
Definition unusable (p : option (option (list cp))) (fs : list mfile) : Prop :=
  read_hint p = PRet None
  \/ exists v name, read_hint p = PRet (Some (v, name)) /\ exists_meta name (map entry_of fs) = false.

(* Text as Python classifies it: every ASCII character carries the classification `acp` gives it
   (re-checked against the real interpreter on every run).  Nothing is assumed about other characters. *)
Definition ascii_classified (p : option (option (list cp))) : Prop :=
  match p with
  | Some (Some text) => forall c, In c text -> code c < 128 -> c = acp (code c)
  | _ => True
  end.

(* What "not stale" gives the proofs (Proofs/HintStoreProofs.v not_stale_of_classified): a pointer that
   names an existing file names the latest one AND parses to that file's version. *)
Definition not_stale (p : option (option (list cp))) (st : store) : Prop :=
  match read_hint p with
  | PRet (Some (v, name)) =>
    forall f, In f (files st) -> name_eqb (fname f) name = true -> glatest st = Some f /\ v = fver f
  | _ => True
  end.

(* ---- CLEAN histories: no operation leaves a never-published metadata file behind.  In every store they reach
        every file is published (Proofs/HintStoreProofs.v reachable_clean_lv: all_published), so they say nothing about leftovers. ---- *)
Definition clean_outcome (o : outcome) : Prop := o <> FailCommitPoint false.

Definition ok_event (st : store) (e : event) : Prop :=
  match e with
  | ECreate id _ _ _ o => wf_id id = true /\ clean_outcome o
  | ECommit id _ _ _ o => wf_id id = true /\ clean_outcome o
  | EDamage p => ascii_classified p /\ ~ stale p st
  end.

Fixpoint ok_history (st : store) (h : list event) : Prop :=
  match h with
  | [] => True
  | e :: h' => ok_event st e /\ ok_history (step st e) h'
  end.

(* stores reachable from the empty directory by such a history *)
Definition reachable_clean (st : store) : Prop := exists h, ok_history empty_store h /\ st = run empty_store h.

(* ---- histories WITH leftovers: any outcome, `FailCommitPoint false` included ---- *)

(* recovery's order: f ranks below L (lower version, or the same version and a strictly older mtime); f does not
   outrank x (mtime <=); f outranks L *)
Definition below (f L : mfile) : Prop := fver f < fver L \/ (fver f = fver L /\ (fmt f < fmt L)%Z).
Definition not_above (f x : mfile) : Prop := fver f < fver x \/ (fver f = fver x /\ (fmt f <= fmt x)%Z).
Definition above (f L : mfile) : Prop := fver L < fver f \/ (fver f = fver L /\ (fmt L < fmt f)%Z).

(* no two stored files have the same name *)
Definition names_unique (fs : list mfile) : Prop :=
  forall f g, In f fs -> In g fs -> name_eqb (fname f) (fname g) = true -> f = g.
(* every other file ranks below L *)
Definition others_below (fs : list mfile) (L : mfile) : Prop := forall f, In f fs -> f <> L -> below f L.

(* the metadata file an operation writes before its commit point, if it gets that far *)
Definition written (st : store) (e : event) : option mfile :=
  match e with
  | ECreate id t _ uuid _ =>
    match refresh st with
    | RfNone => Some {| fver := 0; fid := id; fmt := t; fcom := false; fuuid := uuid; fsnaps := [] |}
    | _ => None
    end
  | ECommit id t _ sid _ =>
    match refresh st with
    | RfMeta v base =>
      if printable (v + 1)
      then Some {| fver := v + 1; fid := id; fmt := t; fcom := false; fuuid := fuuid base; fsnaps := fsnaps base ++ [sid] |}
      else None
    | _ => None
    end
  | EDamage _ => None
  end.

(* outcomes after which the written file is still there *)
Definition writes (o : outcome) : Prop := o = Ok \/ o = FailCommitPoint false.

(* the random suffix did not collide: no stored file has the new file's name ... *)
Definition fresh_name (fs : list mfile) (n : mfile) : Prop := forall f, In f fs -> name_eqb (fname f) (fname n) = false.
(* ... and a damaged pointer does not happen to hold it *)
Definition unnamed (p : option (option (list cp))) (n : mfile) : Prop :=
  match read_hint p with PRet (Some (_, name)) => name_eqb (fname n) name = false | _ => True end.

(* the pointer content parses and names L *)
Definition hint_names (p : option (option (list cp))) (L : mfile) : Prop :=
  match read_hint p with PRet (Some (_, name)) => name_eqb (fname L) name = true | _ => False end.

(* every never-published file ranks below the latest published one (and there is a published one) *)
Definition leftovers_below (st : store) : Prop :=
  forall f, In f (files st) -> fcom f = false -> match glatest st with Some L => below f L | None => False end.

(* THE extra hypothesis of the leftover theorems.  A resolution with pointer content p is SAFE in st when p names the
   latest published file (recovery does not run) or no leftover can win the recovery scan.  It fails exactly when the
   pointer is unusable while a never-published file has a higher version than the latest published one, or the same
   version and an mtime that is not older (Proofs/HintStoreProofs.v recovery_safe_iff). *)
Definition safe_use (p : option (option (list cp))) (st : store) : Prop :=
  (exists L, glatest st = Some L /\ hint_names p L) \/ leftovers_below st.

Definition ok_event_lv (st : store) (e : event) : Prop :=
  match e with
  | ECreate id _ _ _ o =>
    wf_id id = true
    /\ (forall n, written st e = Some n ->
          (writes o -> fresh_name (files st) n) /\ (o = FailCommitPoint false -> unnamed (ptr st) n))
  | ECommit id _ _ _ o =>
    wf_id id = true
    /\ (forall n, written st e = Some n ->
          (writes o -> fresh_name (files st) n) /\ (o = FailCommitPoint false -> unnamed (ptr st) n))
    /\ (writes o -> safe_use (ptr st) st)          (* no commit is built on a never-published version *)
  | EDamage p => ascii_classified p /\ ~ stale p st
  end.

Fixpoint ok_history_lv (st : store) (h : list event) : Prop :=
  match h with
  | [] => True
  | e :: h' => ok_event_lv st e /\ ok_history_lv (step st e) h'
  end.

Definition reachable_lv (st : store) : Prop := exists h, ok_history_lv empty_store h /\ st = run empty_store h.

(* the same histories with NO restriction on what happens to the pointer, and with failed commits whose
   metadata file could not be removed: used to state what does not hold *)
Definition any_event_wf (e : event) : Prop :=
  match e with
  | ECreate id _ _ _ _ => wf_id id = true
  | ECommit id _ _ _ _ => wf_id id = true
  | EDamage p => ascii_classified p
  end.
