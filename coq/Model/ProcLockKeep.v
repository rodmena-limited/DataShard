(* Model/ProcLockKeep.v -- the handle program FileLock does NOT perform: a descriptor kept across acquisitions.

   Model/ProcLock.v's handle opens the lock file for every attempt and closes it on refusal and in release(); an idle
   handle therefore holds no descriptor, and a worker forked while its parent's handle is idle inherits nothing
   (ProcLockProofs.quiescent_fork_inherits_nothing, Props/C01.v C01_fork_inherits_nothing_partial).  The variant below keeps the descriptor: the lock file is opened
   once, every later attempt / unlock goes through that one descriptor, nothing closes it.  Two more program steps and
   the fork of such a handle, on top of ProcLock.lstep (same kernel, same states -- `HOpened d` is exactly "descriptor
   open, no attempt in progress"):

       KUnlockKeep h     release() without the close:        HHeld d    -> HOpened d   (kernel: unlock through d)
       KRefusedKeep h    a refused attempt without the close: HRefused d -> HOpened d
       KForkKeep h h'    fork between acquisitions: the object field `_lock_fd = d` is copied, the descriptor is
                         inherited: h' = HOpened d, SHARING description d with h

   Props/C01.v C01_kept_descriptor_not_exclusive_after_fork: with the regenerated (description-owned) discipline, a
   parent that has used its lock once and a worker forked afterwards -- both idle at the fork -- both hold, and the
   worker's unlock drops the parent's lock so that a third, independent handle is granted too.  The harness produces the
   shape on the real code (process families, harness/lib/procsched.py).

   Definitions only. *)
From Coq Require Import List Bool Arith.
Require Import DS.Model.ProcLockBase DS.Model.ProcLock.
Import ListNotations.

Inductive kevent := KEv (e : levent) | KUnlockKeep (h : hid) | KRefusedKeep (h : hid) | KForkKeep (h h' : hid).

Definition kstep (dc : disc) (proc : hid -> pid) (s : lstate) (ke : kevent) : option lstate :=
  match ke with
  | KEv e => lstep dc proc s e
  | KUnlockKeep h =>
    match l_h s h with
    | HHeld d => Some {| l_open := l_open s; l_next := l_next s; l_owner := release_by dc proc (l_owner s) d h;
                         l_h := lupd (l_h s) h (HOpened d) |}
    | _ => None
    end
  | KRefusedKeep h =>
    match l_h s h with
    | HRefused d => Some {| l_open := l_open s; l_next := l_next s; l_owner := l_owner s; l_h := lupd (l_h s) h (HOpened d) |}
    | _ => None
    end
  | KForkKeep h h' =>
    match l_h s h', l_h s h with
    | HIdle, HOpened d =>
      if negb (Nat.eqb (proc h) (proc h')) && negb (has_refs (l_open s) h') then
        Some {| l_open := l_open s ++ inherited (l_open s) h h'; l_next := l_next s; l_owner := l_owner s;
                l_h := lupd (l_h s) h' (HOpened d) |}
      else None
    | _, _ => None
    end
  end.

Fixpoint krun_strict (dc : disc) (proc : hid -> pid) (s : lstate) (evs : list kevent) (i : nat) : lstate + nat :=
  match evs with
  | [] => inl s
  | e :: evs' => match kstep dc proc s e with Some s' => krun_strict dc proc s' evs' (S i) | None => inr i end
  end.
