(* Model/CommitMeta.v -- what the abstract table content of Model/Commit.v MEANS (C01 composed with C15).

   Commit.v abstracts the content of a metadata version to the list of operation ids applied to the initial table
   (`m_ops`); a committer builds its new version from its BASE by appending its own operation
   (`new_meta`: m_ops base ++ [opid]) -- the protocol never looks inside the content, only at the OCC stamp.
   Model/Meta.v (C15) is the executable mirror of the mutators themselves: `Meta.step : state -> op -> state`
   (transactions with appends / file deletes / expiries, delete_snapshot, property changes), sequence numbers
   stamped `last_seq base + 1`, parents, snapshot log.

   The interpretation: every operation id a (= committer) stands for ONE Meta operation `op_of a` -- the mutator the
   committer's successful attempt applied, with the snapshot id, timestamps and metadata-file name that attempt
   drew (an attempt that lost a conflict is re-derived from the freshly read base: transaction.py's retry loop;
   only the attempt that flipped the pointer is in the table).  `op_of` is universally quantified in the theorems.
   A version's table is the initial table with the version's operations applied by Meta.step, one after another.
   What stays abstracted: that the bytes of the metadata file a committer writes ARE Meta.step of the bytes of its
   base (C15's correspondence and regenerated kernels: C15_step_regenerated), and the equality of the event's clock
   reading with the `tu` carried by `op_of a` (the stamp the PROTOCOL relies on is Commit.v's m_lu, proved strictly
   increasing along the version chain independently of the interpretation).

   Definitions only; proofs in Proofs/CommitMetaProofs.v (chain_prefix_ops) and under C01_serializable_tables /
   C01_snapshot_chain in Props/C01.v. *)
From Coq Require Import ZArith List.
Require Import DS.Model.CommitBase DS.Gen.GenCommit DS.Model.Commit.
Require DS.Model.Meta.
Import ListNotations.

(* the table a metadata version holds, given the table T0 that the empty operation list stands for *)
Definition table_of (T0 : Meta.state) (op_of : aid -> Meta.op) (m : meta) : Meta.state :=
  Meta.run T0 (map op_of (m_ops m)).

(* the operations behind the pointer flips, in the order the pointer advanced *)
Definition flip_ops (op_of : aid -> Meta.op) (w : world) : list Meta.op := map op_of (map snd (w_hist w)).
