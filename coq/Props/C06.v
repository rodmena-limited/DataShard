(* Props/C06.v -- Garbage collection is safe against concurrently committing transactions.
   The invariants are in Proofs/GCRaceProofs.v (collector x transactions) and Proofs/TxMarkersProofs.v (the marker ledger).

   Event lists interleave arbitrarily: clock ticks (any non-negative amounts, anywhere -- in particular
   between a marker and its file: a slow write; and between a file and its commit: a data file may be far
   older than the grace period when its transaction commits), the steps of any number of transactions on
   any number of marker-protected files (marker write, file write, pointer flip, marker removal; rollback;
   abandoning the files of a lost commit attempt; staging a PRE-BUILT file of any age and adopting it:
   marker, then a look for an announced collection run) and the steps of collection runs (announcement,
   marker load with the run's abandonment timeout, deletion of markers the REGENERATED kernel of _load_inflight_protection
   classifies as abandoned, metadata read, listings, deletions guarded by the REGENERATED guard of
   _gc_prefix; several runs in sequence, each with its own grace period and timeout).  A listing is enabled
   only while the run has lasted less than its grace period -- the property's proviso. *)
From Coq Require Import ZArith List.
Require Import DS.Model.GCRaceBase DS.Gen.GenGCRace DS.Model.GCRace DS.Proofs.GCRaceProofs.
Require Import DS.Model.TxMarkers DS.Proofs.TxMarkersProofs.
Require Import DS.Model.GCRaceDrop.
Require Import DS.Gen.GenNorm DS.Model.GC DS.Proofs.GCHistProofs DS.Proofs.MarkerKeyProofs.
Import ListNotations.
Open Scope Z_scope.

Theorem C06_gc_race_safe : forall orph evs,
  let w := grun (ginit orph) evs in
  forall f, g_swept w f = false ->                               (* f's marker was never treated as abandoned *)
    (g_ref w f = true -> g_present w f = true)                   (* referenced by the committed table: exists *)
    /\ (g_tpc w f = TWritten -> g_present w f = true)            (* of a transaction still in flight: exists *)
    /\ (In f (g_deleted w) ->                                    (* deleted by the collector: neither of the two, for good *)
          g_present w f = false /\ g_ref w f = false /\ g_tpc w f <> TWritten).
Proof.
  intros orph evs w f SW. pose proof (run_inv orph evs : GInv w) as Hi.
  split; [|split].
  - intros R. rewrite (GI_ref w Hi f) in R. exact (GI_pres w Hi f (committed_live _ R) SW).
  - intros P. apply (GI_pres w Hi f); [rewrite P; reflexivity | exact SW].
  - (* gone, so not live (GI_pres): neither committed nor written *)
    intros D. destruct (GI_del w Hi f D) as [DP _]. split; [exact DP|].
    assert (NL : live (g_tpc w f) = false).
    { destruct (live (g_tpc w f)) eqn:L; [|reflexivity]. rewrite (GI_pres w Hi f L SW) in DP. discriminate. }
    split.
    + rewrite (GI_ref w Hi f). destruct (committed (g_tpc w f)) eqn:C; [|reflexivity]. apply committed_live in C. congruence.
    + intro E. rewrite E in NL. discriminate.
Qed.
Print Assumptions C06_gc_race_safe.

(* A marker is treated as abandoned only if it is older than the abandonment timeout: in every interleaving
   whose runs use a timeout of at least T, a swept marker was written more than T ago -- whatever the grace
   period, however slow the write of the file, whether or not the file exists yet. *)
Theorem C06_swept_only_abandoned : forall orph evs T,
  Forall (timeout_ok T) evs ->
  let w := grun (ginit orph) evs in
  forall f, g_swept w f = true -> g_mkmtime w f + T < g_now w.
Proof. intros orph evs T F w. exact (SI_old T w (run_sinv T orph evs F)). Qed.
Print Assumptions C06_swept_only_abandoned.

(* ... and until then the marker of a file in flight stays in place through every collection run. *)
Theorem C06_unswept_marker_kept : forall orph evs,
  let w := grun (ginit orph) evs in
  forall f, g_swept w f = false ->
    (g_tpc w f = TMarked \/ g_tpc w f = TWritten \/ g_tpc w f = TFlipped \/ g_tpc w f = TAdoptM) -> g_marker w f = true.
Proof.
  intros orph evs w f SW P. apply (GI_mark w (run_inv orph evs) f); [|exact SW].
  destruct P as [P|[P|[P|P]]]; rewrite P; reflexivity.
Qed.
Print Assumptions C06_unswept_marker_kept.

(* Adoption of a pre-built file as Transaction.append_files did it BEFORE the repair (no marker, no look at
   running collections; `gstep_unrepaired`) refutes the safety statement: a staged file older than the grace
   period, adopted and committed between a run's metadata read and its listing, is deleted although the
   committed table references it (the run lasted 4 ms against a grace period of 1 h).  The repaired adoption
   (`TAdoptMark`; `TAdopt` only while no run is announced) is part of the machine C06_gc_race_safe is about. *)
Theorem C06_unmarked_adoption_refuted :
  exists evs w, grun_strict_unrepaired (ginit []) evs = Some w
    /\ g_swept w 0%nat = false /\ g_ref w 0%nat = true /\ g_present w 0%nat = false.
Proof.
  exists unrepaired_counterexample. apply some_witness. vm_compute. repeat split; reflexivity.
Qed.
Print Assumptions C06_unmarked_adoption_refuted.

(* The TRANSACTION's side of the contract C06_gc_race_safe rests on (a file is published only while its marker is in
   place): the marker ledger of one transaction (Model/TxMarkers.v) over the kernels REGENERATED from transaction.py
   (Gen/GenTxMarkers.v: append_data registers before it writes, append_files protects before it queues, an attempt
   registers its manifests, and nothing reachable from the RETRY arm of commit's conflict handler drops markers).  In
   every history -- any number of written files and of ADOPTED pre-built files (of any age), any number of commit
   attempts that LOSE the OCC race and are retried, refused adoptions, rollback -- the transaction holds a marker for
   every file it is going to publish at every step up to and including the pointer flip (`x_bare` collects every file
   that was ever payload without a marker: it stays empty).  So a collection run scheduled at ANY step of a retry
   finds the markers of the adopted and the written files.  Stated for whatever kernels the code has, as long as they
   protect and the retry arm drops nothing (kernels_ok), then for the regenerated ones. *)
Theorem C06_tx_markers_cover_payload_kernels : forall k, kernels_ok k -> forall evs,
  let s := xrun k xinit evs in
  x_bare s = [] /\ (x_phase s = XOpen \/ x_phase s = XFlipped -> forall f, In f (x_payload s) -> In f (x_markers s)).
Proof. intros k Hk evs. exact (xrun_inv k Hk evs xinit xinv_init). Qed.
Print Assumptions C06_tx_markers_cover_payload_kernels.

(* ... and the kernels regenerated from transaction.py are such (TxMarkersProofs.gen_kernels_ok). *)
Theorem C06_tx_markers_cover_payload : forall evs,
  let s := xrun gen_xkernels xinit evs in
  x_bare s = [] /\ (x_phase s = XOpen \/ x_phase s = XFlipped -> forall f, In f (x_payload s) -> In f (x_markers s)).
Proof. exact (C06_tx_markers_cover_payload_kernels gen_xkernels gen_kernels_ok). Qed.
Print Assumptions C06_tx_markers_cover_payload.

(* The condition on the retry arm cannot be dropped: with ANY kernels whose retry arm drops markers, every file
   adopted before a lost attempt is unmarked payload from the conflict on and is published unmarked -- between the
   conflict and the flip nothing protects it from a collection run if it is older than the grace period (GCRace: an
   unmarked, unreferenced, old file is an orphan; C06_dropped_marker_loses_file, below, is that run). *)
Theorem C06_dropping_retry_refuted : forall k f, k_retry_drops k = true ->
  let s := xrun k xinit [XAdopt f; XConflict; XCommit] in
  x_phase s = XFlipped /\ In f (x_published s) /\ In f (x_bare s) /\ ~ In f (x_markers s).
Proof.
  intros k f Hr s. subst s. unfold xrun, xstep_skip, xstep, xinit, mk, x_payload. cbn. rewrite Hr. cbn.
  split; [reflexivity|]. split; [left; reflexivity|]. split.
  - apply in_or_app. left. apply in_or_app. right. left. reflexivity.
  - intros H. exact H.
Qed.
Print Assumptions C06_dropping_retry_refuted.

(* What a bare file costs, on the collector x transactions machine: with a transaction step that drops the marker of a
   file it still publishes (Model/GCRaceDrop.v: `gstep` otherwise), a pre-built file ten hours old, adopted, whose
   marker the lost attempt drops, is deleted by a collection run of 4 ms (grace period 1 h) between the conflict and
   the retry's flip, and the committed table references a deleted file.  No marker was treated as abandoned. *)
Theorem C06_dropped_marker_loses_file :
  exists evs w, grun_strict_dropping (ginit []) evs = Some w
    /\ g_swept w 0%nat = false /\ g_ref w 0%nat = true /\ g_present w 0%nat = false /\ g_deleted w = [0%nat]
    /\ g_now w - g_start w < 3600000.
Proof.
  exists dropping_counterexample. apply some_witness. vm_compute. repeat split; reflexivity.
Qed.
Print Assumptions C06_dropped_marker_loses_file.

(* MARKER IDENTITY.  Model/GCRace.v and Model/TxMarkers.v give every file its OWN marker (`g_marker : tid -> bool`, `hold f`):
   what one transaction does to the marker of its file touches no other file's.  That is true of the code iff the key
   _register_inflight writes is an injective function of the file's table-relative path.  This is
   Proofs/GCHistProofs.v register_marker_path_injective, about the function REGENERATED from transaction.py (Gen/GenNorm.v
   register_marker_path): two registrations write the same key only for the same
   file (paths that differ in leading slashes only).  With the key made from the file's basename -- the unchanged library --
   this is unprovable, and false: C06_basename_marker_collision_refuted. *)
Theorem C06_marker_key_injective : forall (f g : String.string),
  register_marker_path f = register_marker_path g -> resolve f = resolve g.
Proof. exact register_marker_path_injective. Qed.
Print Assumptions C06_marker_key_injective.

(* The naming of the unchanged library (Proofs/MarkerKeyProofs.v basename_marker_path, by hand): two DIFFERENT files that
   append_files accepts (the regenerated guard) share one marker.  The second registration finds the key held and writes
   nothing, so the second file is adopted UNMARKED -- the step TAdoptBare of gstep_unrepaired, for which the property fails
   (C06_unmarked_adoption_refuted); and either transaction's cleanup removes the marker of the other's file. *)
Theorem C06_basename_marker_collision_refuted :
  exists f g : String.string, resolve f <> resolve g
    /\ append_accepts_path (fun s => s) f = true /\ append_accepts_path (fun s => s) g = true
    /\ basename_marker_path f = basename_marker_path g.
Proof. exact basename_marker_collides. Qed.
Print Assumptions C06_basename_marker_collision_refuted.

(* The regenerated decision kernels, as the invariant uses them (for all inputs). *)
Theorem C06_marker_kernel : forall now timeout mt,
  (gen_marker_action (gen_marker_age_ok (gen_marker_cutoff now timeout) (Some mt)) = MSweep -> mt + timeout < now)
  /\ gen_marker_action (gen_marker_age_ok (gen_marker_cutoff now timeout) None) = MProtect
  /\ gen_sweep_failure_protects = true.
Proof.
  intros now timeout mt. split; [|split; [apply marker_unstatable_protects | apply marker_sweep_failure_protects]].
  intro H. apply Z.lt_add_lt_sub_r. exact (Z.lt_le_trans _ _ _ (marker_sweep_old _ _ H) (marker_cutoff_le now timeout)).
Qed.
Print Assumptions C06_marker_kernel.

Theorem C06_delete_kernel : forall now grace covered mt,
  gen_delete_guard covered mt (gen_sweep_cutoff now grace) = true -> covered = false /\ mt + grace < now.
Proof.
  intros now grace covered mt H. apply delete_guard_spec in H. destruct H as [C M].
  split; [exact C|]. apply Z.lt_add_lt_sub_r. exact (Z.lt_le_trans _ _ _ M (sweep_cutoff_le now grace)).
Qed.
Print Assumptions C06_delete_kernel.

(* Non-vacuity: file 0's marker is written at time 0 and the file lands only 5000 ms later (a slow write,
   far longer than the 1000 ms grace period); a first collection runs inside that gap: the marker is young
   against the 24 h abandonment timeout, GSweep 0 is rejected; the file is written; another 5000 ms pass
   (the file is now far older than the grace period); a second collection starts: it loads the markers,
   then reads the metadata; the transaction commits and removes its marker; the collector lists: the file
   is unreferenced in its snapshot and old, but protected by the marker snapshot -> GDel 0 is rejected; an
   old orphan IS deleted. *)
Example C06_nonvacuous :
  let evs := [TMarkW 0; Tick 5000; GAnnounce; GMarks 86400000; GMeta; GList 1000; GEnd; TDataW 0; Tick 5000;
              GAnnounce; GMarks 86400000; GMeta; TFlip 0; TMarkD 0; Tick 10; GList 1000; GDelOrphan 7; GEnd]%nat in
  let w := grun (ginit [(7%nat, 0)]) evs in
  grun_strict (ginit [(7%nat, 0)]) evs 0 = inl w
  /\ g_ref w 0%nat = true /\ g_present w 0%nat = true /\ g_orphans w = [] /\ g_swept w 0%nat = false
  /\ gstep (grun (ginit [(7%nat, 0)]) (firstn 4 evs)) (GSweep 0%nat) = None
  /\ gstep (grun (ginit [(7%nat, 0)]) (firstn 16 evs)) (GDel 0%nat) = None
  /\ g_mtime w 0%nat < g_cutoff w.
Proof. vm_compute. repeat split; try reflexivity. Qed.

(* The hypothesis `g_swept w f = false` cannot be dropped, and it is the ONLY way protection is lost: with
   an abandonment timeout shorter than the slow write (here 1000 ms against a 5000 ms write), the first run
   deletes the live transaction's marker; the file lands unprotected; once it is older than the grace
   period a second run, concurrent with the commit, deletes it; the commit publishes a snapshot that
   references a deleted file. *)
Example C06_swept_marker_loses_file :
  let evs := [TMarkW 0; Tick 5000; GAnnounce; GMarks 1000; GSweep 0; GMeta; GList 1000; GEnd; TDataW 0; Tick 5000;
              GAnnounce; GMarks 1000; GMeta; GList 1000; GDel 0; TFlip 0; GEnd]%nat in
  let w := grun (ginit []) evs in
  grun_strict (ginit []) evs 0 = inl w
  /\ g_swept w 0%nat = true /\ g_ref w 0%nat = true /\ g_present w 0%nat = false /\ g_deleted w = [0%nat].
Proof. vm_compute. repeat split; reflexivity. Qed.

(* Non-vacuity of the adoption steps: a pre-built file ten hours old is staged and adopted (marker, no run
   announced, file in place); a collection run (grace 1 h) starts afterwards and sees the marker; the
   transaction commits inside the run; the run lists: GDel 0 is rejected; the file survives.  A second
   pre-built file is staged while a run is announced: its adoption is refused (TAdopt is not enabled). *)
Example C06_adoption_nonvacuous :
  let evs := [TStage 0 (-36000000); Tick 1; TAdoptMark 0; TAdopt 0; Tick 1; GAnnounce; GMarks 86400000; GMeta;
              TFlip 0; TMarkD 0; Tick 1; TStage 1 (-36000000); TAdoptMark 1; GList 3600000]%nat in
  let w := grun (ginit []) evs in
  grun_strict (ginit []) evs 0 = inl w
  /\ g_ref w 0%nat = true /\ g_present w 0%nat = true
  /\ gstep w (GDel 0%nat) = None /\ gstep w (TAdopt 1%nat) = None /\ g_mtime w 0%nat < g_cutoff w.
Proof. vm_compute. repeat split; reflexivity. Qed.

(* Non-vacuity of the ledger: a transaction writes file 0 and adopts the pre-built file 1; two commit attempts lose the
   race (manifests 2,3 and 4,5), the third (6,7) goes through.  Every event is enabled; at the flip the transaction
   holds the markers of 0, 1, 6, 7 (and still those of the lost attempts' manifests); nothing was ever bare. *)
Example C06_ledger_nonvacuous :
  let evs := [XWrite 0; XAdopt 1; XRefuse 9; XAttempt 2; XAttempt 3; XConflict; XAttempt 4; XAttempt 5; XConflict;
              XAttempt 6; XAttempt 7; XCommit]%nat in
  let s := xrun gen_xkernels xinit evs in
  xrun_strict gen_xkernels xinit evs 0 = inl s
  /\ x_phase s = XFlipped /\ x_lost s = 2%nat /\ x_published s = [1; 0; 7; 6]%nat /\ x_bare s = []
  /\ x_markers s = [7; 6; 5; 4; 3; 2; 1; 0]%nat
  /\ x_markers (xrun gen_xkernels s [XFinish]) = [].
Proof. vm_compute. repeat split; reflexivity. Qed.

(* Non-vacuity of C06_marker_key_injective: two files with one basename get two keys; one file spelled two ways gets one. *)
Import String.
Local Open Scope string_scope.
Example C06_marker_key_nonvacuous :
  register_marker_path "data/p1/x.parquet" = "metadata/inflight/data/p1/x.parquet.inflight"
  /\ register_marker_path "data/p2/x.parquet" = "metadata/inflight/data/p2/x.parquet.inflight"
  /\ register_marker_path "/data/p1/x.parquet" = register_marker_path "data/p1/x.parquet"
  /\ basename_marker_path "data/p1/x.parquet" = basename_marker_path "data/p2/x.parquet".
Proof. repeat split. Qed.
