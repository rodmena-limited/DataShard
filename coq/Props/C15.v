(* Props/C15.v -- Table metadata stays well-formed through every history.
   Theorem statements with their last step, Print Assumptions beneath; what they rest on is in Proofs/.

   Vocabulary: Model/Meta.v (the executable mirror of the mutators; `step_full`, `run`, `grun` with the ghost
   history), Model/MetaSpec.v (WF, anc, entries_ok, mlog_ok, fresh_ops), Gen/GenRepoint.v (the repointing walk,
   REGENERATED from snapshot_manager.repoint_parents_to_surviving_ancestors), Proofs/RepointProofs.v for the graph
   vocabulary (pstep/reach/acyclic/nsa/walk_post).

   Hypothesis of the history theorems: `fresh_ops f0 ops` -- snapshot ids are positive and never repeat, metadata
   file names never repeat (what uuid4 provides).  Timestamps are arbitrary (equal, decreasing). *)
From Coq Require Import ZArith List Bool Sorted Lia.
Require Import DS.Model.MetaBase DS.Gen.GenRepoint DS.Model.Meta DS.Model.MetaSpec.
Require Import DS.Proofs.RepointProofs DS.Proofs.MetaProofs.
Require Import DS.Model.MetaPy DS.Gen.GenMeta DS.Gen.GenFileOps DS.Proofs.FileOpsGenProofs.
Require Import DS.Gen.GenCommit DS.Proofs.StepGenProofs.
Require Import DS.Model.ManifestCodec DS.Gen.GenEntryCodec DS.Proofs.EntryCodecProofs.
Require Import DS.Proofs.CurEmptyProofs.
Import ListNotations.
Open Scope Z_scope.

(* After ANY sequence of operations (transactions with any mix of appends / deletes / expiries, delete_snapshot,
   retention and metadata-log-bound property changes; no bound on length; arbitrary timestamps):
   the current snapshot is retained or there is none; every parent link is nothing or a retained TRUE ancestor in
   the ghost history; retained snapshots are committed ones, unchanged but for the parent, with unique ids;
   sequence numbers strictly increase in commit order and never exceed last_sequence_number; the snapshot log is
   exactly the retained snapshots in commit order. *)
Theorem C15_wf_invariant : forall (t0 f0 : Z) (ops : list op),
  fresh_ops f0 ops -> WF (hist_of t0 f0 ops) (md (replay t0 f0 ops)).
Proof. exact wf_invariant. Qed.
Print Assumptions C15_wf_invariant.

(* ... and "or the table is empty" is meant literally: WF's first conjunct allows a table without a current snapshot;
   after any history such a table (current_snapshot_id null or the -1 sentinel) retains NO snapshot at all -- deleting the
   current snapshot repoints to a survivor whenever there is one, expiry and retention never drop the current one. *)
Theorem C15_no_current_means_empty : forall (t0 f0 : Z) (ops : list op), fresh_ops f0 ops ->
  nil_link (cur (md (replay t0 f0 ops))) -> snaps (md (replay t0 f0 ops)) = [].
Proof.
  intros t0 f0 ops Hf. apply (replay_inv cur_nil_empty); try exact Hf.
  - intros t1 f1 _. reflexivity.
  - exact cne_ext.
  - exact cne_pruned.
  - intros H m id t ml _ _. apply add_cne.
Qed.
Print Assumptions C15_no_current_means_empty.

(* ... in particular, read in snapshot-log order the retained snapshots' sequence numbers strictly increase *)
Theorem C15_seq_in_log_order : forall (H : list snap) (m : meta), WF H m ->
  StronglySorted Z.lt (map seq (retained_in_commit_order H m)) /\
  map snd (slog m) = map sid (retained_in_commit_order H m) /\
  (forall s, In s (snaps m) -> exists h, In h (retained_in_commit_order H m) /\ sid h = sid s /\ seq h = seq s).
Proof. exact wf_seq_in_log_order. Qed.
Print Assumptions C15_seq_in_log_order.

(* last_sequence_number never decreases -- for every state and operation, no hypothesis *)
Theorem C15_last_seq_mono : forall (st : state) (o : op), last_seq (md st) <= last_seq (md (step st o)).
Proof.
  intros st o. unfold step. destruct (step_full_commit_shape st o) as [[_ [new [-> [_ Hle]]]]|[_ ->]]; [exact Hle|lia].
Qed.
Print Assumptions C15_last_seq_mono.

(* no operation of any history takes one of the code's "metadata is inconsistent" exits
   (dangling current_snapshot_id in _commit_file_ops; mutator removed the snapshot being committed) *)
Theorem C15_no_abort : forall (t0 f0 : Z) (ops : list op) (o : op),
  fresh_ops f0 (ops ++ [o]) -> snd (fst (step_full (replay t0 f0 ops) o)) <> Aborted.
Proof.
  intros t0 f0 ops o Hf. apply (gstep_inv (fun _ => True)) with (g := ghost_of t0 f0 ops); auto.
  - apply replay_Inv. apply (fresh_ops_snoc _ _ _ Hf).
  - apply fresh_next. exact Hf.
Qed.
Print Assumptions C15_no_abort.

(* Repointing, all forests: on EVERY acyclic parent map (any number of snapshots, dangling links, -1 / None roots,
   duplicated ids with last-binding-wins), every kept set and every link, the regenerated walk returns r exactly
   when r is the nearest surviving ancestor. *)
Theorem C15_repoint_nearest : forall (po : list (Z * option Z)) (kept : list Z) (start r : option Z),
  acyclic po -> (gen_repoint_one po kept start = Some r <-> nsa po kept start r).
Proof. exact gen_repoint_one_nearest. Qed.
Print Assumptions C15_repoint_nearest.

(* ... and `nsa` is what it says: nothing / -1, or a kept id reached through removed snapshots only *)
Theorem C15_nearest_is_ancestor : forall (po : list (Z * option Z)) (kept : list Z) (start r : option Z),
  nsa po kept start r ->
  nil_id r \/ exists k, r = Some k /\ In k kept /\
     (start = Some k \/ exists p, start = Some p /\ ~ In p kept /\ p <> -1 /\ chain_removed po kept p k).
Proof. exact nsa_sound. Qed.
Print Assumptions C15_nearest_is_ancestor.

(* Repointing, corrupt metadata: on EVERY parent map, cyclic or not, the walk terminates within the fuel the model
   gives it and yields nothing, -1, or a kept id reachable by parent links (never an invented link). *)
Theorem C15_repoint_cycle : forall (po : list (Z * option Z)) (kept : list Z) (start : option Z),
  exists r, gen_repoint_one po kept start = Some r /\ walk_post po kept start r.
Proof. exact gen_repoint_one_total. Qed.
Print Assumptions C15_repoint_cycle.

(* The whole function (dict comprehension + per-survivor loop + write-back) as Model/Meta.v frames the generated
   walk: on an acyclic snapshot list every survivor keeps id / timestamp / sequence number / manifests and receives
   the nearest surviving ancestor of its old link; on ANY list it receives nothing or a kept, reachable id. *)
Theorem C15_repoint_all : forall (all kept : list snap) (s' : snap), In s' (repoint_all all kept) ->
  (exists s, In s kept /\ sid s' = sid s /\ walk_post (parent_map all) (map sid kept) (parent s) (parent s')) /\
  (acyclic (parent_map all) ->
   exists s, In s kept /\ sid s' = sid s /\ ts s' = ts s /\ seq s' = seq s /\ mlist s' = mlist s /\
             nsa (parent_map all) (map sid kept) (parent s) (parent s')).
Proof.
  intros all kept s' Hin. apply repoint_all_In in Hin. destruct Hin as [s [Hs ->]].
  destruct (repoint_one_spec (parent_map all) (map sid kept) (parent s)) as [Hw Hn].
  split.
  - exists s. split; [exact Hs|]. split; [reflexivity|exact Hw].
  - intro Hac. exists s. split; [exact Hs|]. repeat (split; [reflexivity|]). exact (Hn Hac).
Qed.
Print Assumptions C15_repoint_all.

(* the current snapshot is never expired, neither by expire_snapshots nor by the retention property *)
Theorem C15_current_kept : forall (m : meta) (x : Z), cur m = Some x -> In x (sids m) ->
  (forall cutoff, cur (expire cutoff m) = Some x /\ In x (sids (expire cutoff m))) /\
  (cur (apply_retention m) = Some x /\ In x (sids (apply_retention m))).
Proof.
  intros m x Hc Hx. split.
  - intro cutoff. split; [exact Hc|]. rewrite expire_sids. apply expire_current_kept; assumption.
  - rewrite apply_retention_cur. split; [exact Hc|].
    destruct (apply_retention_cases m) as [->|[n ->]]; [exact Hx|].
    apply prune_sids_In; [apply (proj1 (sort_ts_stable _))|]. split; [exact Hx|]. apply memZ_In. apply ret_current_kept; assumption.
Qed.
Print Assumptions C15_current_kept.

(* a file delete removes exactly the named files (either spelling); survivors keep path, adding snapshot and
   sequence number; rewritten manifests hold EXISTING entries only and are never empty *)
Theorem C15_delete_exact : forall (ps : list path) (mfs : list manifest),
  map ekey (entries (apply_deletes ps mfs)) = map ekey (filter (fun e => negb (named ps e)) (entries mfs))
  /\ (forall mf', In mf' (apply_deletes ps mfs) -> In mf' mfs \/ (mf' <> [] /\ Forall (fun e => estatus e = ST_EXISTING) mf'))
  /\ (forall e, named ps e = true <-> exists p, In p ps /\ lstrip p = lstrip (epath e)).
Proof.
  intros ps mfs. split; [apply apply_deletes_keys|]. split; [apply apply_deletes_shape|apply named_spec].
Qed.
Print Assumptions C15_delete_exact.

(* ... and this is what every committing transaction does with it: the new snapshot lists exactly the base
   snapshot's entries that no queued delete names (path / adding snapshot / sequence number unchanged, order kept),
   followed by the appended files stamped with the new snapshot's id and sequence number. No hypothesis. *)
Theorem C15_txn_files : forall (st : state) (ops : list txop) (id t tu f : Z) (st' : state) (s : snap),
  step_full st (Txn ops id t tu f) = (st', Committed, Some s) ->
  exists base, base_manifests (md st) = Some base /\
    sid s = id /\ seq s = last_seq (md st) + 1 /\
    map ekey (entries (mlist s)) =
      map ekey (filter (fun e => negb (named (tx_dels ops) e)) (entries base))
      ++ map (fun p => (p, id, last_seq (md st) + 1)) (tx_adds ops).
Proof.
  intros st ops id t tu f st' s H. destruct (txn_committed_snap _ _ _ _ _ _ _ (f_equal snd H)) as [base [Hb ->]].
  exists base. split; [exact Hb|]. split; [reflexivity|]. split; [reflexivity|].
  change (mlist (new_snap (md st) id t ?ml)) with ml.
  rewrite entries_app, map_app, apply_deletes_keys, append_manifest_entries, map_map. reflexivity.
Qed.
Print Assumptions C15_txn_files.

(* A path can be registered more than once (append_files accepts a file that is already listed; a re-run ingestion
   job does exactly that): in several manifests, or several times in one.  A delete reaches EVERY registration: no
   entry that survives is named, wherever it sat in the manifest list and however many registrations of the same
   path preceded it; in the snapshot a transaction commits, an entry named by a queued delete can only be one of the
   transaction's own appends. *)
Theorem C15_delete_complete : forall (ps : list path) (mfs : list manifest) (e : entry),
  In e (entries (apply_deletes ps mfs)) -> named ps e = false.
Proof. exact delete_complete. Qed.
Print Assumptions C15_delete_complete.

Theorem C15_txn_delete_complete : forall (st : state) (ops : list txop) (id t tu f : Z) (st' : state) (s : snap) (e : entry),
  step_full st (Txn ops id t tu f) = (st', Committed, Some s) ->
  In e (entries (mlist s)) -> named (tx_dels ops) e = true ->
  estatus e = ST_ADDED /\ eadded e = id /\ eseq e = seq s /\ In (epath e) (tx_adds ops).
Proof.
  intros st ops id t tu f st' s e H Hin Hn. destruct (txn_committed_snap _ _ _ _ _ _ _ (f_equal snd H)) as [base [_ ->]].
  simpl in Hin. rewrite entries_app, append_manifest_entries in Hin. apply in_app_or in Hin. destruct Hin as [Hin|Hin].
  - apply delete_complete in Hin. congruence.
  - apply in_map_iff in Hin. destruct Hin as [p [<- Hp]]. simpl. repeat split; try reflexivity. exact Hp.
Qed.
Print Assumptions C15_txn_delete_complete.

(* non-vacuity for the two statements above: file 1 registered by snapshots 1 and 3 (second time under the other
   spelling) and twice more by snapshot 4 inside one manifest, file 2 in between; deleting file 1 leaves file 2 only *)
Example C15_delete_complete_nonvacuous :
  let e p a := {| epath := p; estatus := ST_ADDED; eadded := a; eseq := a |} in
  map (map ekey) (apply_deletes [(1, 1)] [[e (1, 1) 1]; [e (1, 2) 2]; [e (0, 1) 3]; [e (1, 1) 4; e (1, 2) 4; e (0, 1) 4]])
  = [[((1, 2), 2, 2)]; [((1, 2), 4, 4)]].
Proof. vm_compute. reflexivity. Qed.

(* through every history, every manifest entry of every committed snapshot carries the id and the sequence number
   of the snapshot that added the file (where it appears as an ADDED entry), and that number is <= the snapshot's *)
Theorem C15_entries_provenance : forall (t0 f0 : Z) (ops : list op),
  fresh_ops f0 ops -> entries_ok (hist_of t0 f0 ops).
Proof. intros t0 f0 ops Hf. apply (i_ent _ _ (replay_Inv t0 f0 ops Hf)). Qed.
Print Assumptions C15_entries_provenance.

(* through every history the metadata log is a suffix of the superseded versions (oldest first, each with the
   last_updated_ms that version carried), the current version is the last one committed, and the log respects
   write.metadata.previous-versions-max whenever that bound is >= 1 (unset / invalid = 100) *)
Theorem C15_mlog_ok : forall (t0 f0 : Z) (ops : list op),
  fresh_ops f0 ops -> mlog_ok (versions_of t0 f0 ops) (replay t0 f0 ops).
Proof. intros t0 f0 ops Hf. eapply minv_mlog_ok. apply replay_minv. exact Hf. Qed.
Print Assumptions C15_mlog_ok.

(* Every metadata-log entry is one of the versions committed BEFORE the current one (file and the last_updated_ms it
   carried) and never the current file itself.  The model builds the entry from the current version as resolved
   (`curfile`), not from the bytes of the version pointer: the harness ties this to the code with histories whose
   pointer is legacy / padded / dangling / ahead / missing / unreadable at the moment of the commit, and with the
   newest version file lost while the pointer naming it survives, judging the log against the files on disk. *)
Theorem C15_mlog_names_superseded : forall (t0 f0 : Z) (ops : list op) (e : Z * Z),
  fresh_ops f0 ops -> In e (mlog (md (replay t0 f0 ops))) ->
  In e (removelast (versions_of t0 f0 ops)) /\ snd e <> curfile (replay t0 f0 ops).
Proof.
  intros t0 f0 ops e Hf Hin. pose proof (replay_minv t0 f0 ops Hf) as M.
  assert (Hsup : In e (removelast (versions_of t0 f0 ops))).
  { destruct M as [[older ->] _ _ _]. rewrite removelast_last. apply in_or_app. right. exact Hin. }
  split; [exact Hsup|]. intro Heq. apply (minv_curfile _ _ _ M). rewrite <- Heq. apply in_map. exact Hsup.
Qed.
Print Assumptions C15_mlog_names_superseded.

(* The mutators the theorems above reason about are the functions of the SOURCE: Model/Meta.v's expire,
   apply_retention, most_recent, by_timestamp and append_mlog are equal, for ALL inputs, to the definitions the
   translator regenerates on every run from Transaction._make_expire_mutator, SnapshotManager._apply_retention,
   _most_recent_snapshot_id, get_snapshot_by_timestamp, delete_snapshot (between its refresh and its commit) and
   MetadataManager._append_metadata_log (Gen/GenMeta.v;
   statement-by-statement translation over the Python primitives of Model/MetaPy.v).  A change to one of those
   functions changes the generated term, and this theorem -- and with it the tie of every history theorem of this
   file to the code -- is re-checked against it.  (_most_recent_snapshot_id never raises: PyOk.) *)
Theorem C15_mutators_regenerated :
  (forall cutoff m, gen_expire cutoff m = expire cutoff m)
  /\ (forall m, gen_apply_retention m = apply_retention m)
  /\ (forall m, gen_most_recent m = PyOk (most_recent m))
  /\ (forall m t, gen_by_timestamp (snaps m) t = by_timestamp m t)
  /\ (forall p log bu pf, gen_append_mlog p log bu pf = append_mlog p log bu pf)
  /\ (forall m id, gen_delete_snapshot m id = PyOk (delete_snapshot m id)).
Proof.
  split; [exact gen_expire_agrees|]. split; [exact gen_apply_retention_agrees|]. split; [exact gen_most_recent_agrees|].
  split; [exact gen_by_timestamp_agrees|]. split; [exact gen_append_mlog_agrees | exact gen_delete_snapshot_agrees].
Qed.
Print Assumptions C15_mutators_regenerated.

(* ... and so are the steps of a file transaction: the partitioning of the queued operations and the file / metadata-only
   dispatch (Transaction.commit), the base snapshot's manifests (PyRaise = dangling current_snapshot_id: the commit
   aborts), the delete rewrite that carries manifests into the new snapshot -- untouched manifests as they are, partially
   deleted ones rewritten with the survivors as EXISTING entries keeping their adding snapshot and sequence number,
   fully deleted ones dropped --, the ADDED manifest of the appended files after them, and the sequence number / parent
   stamped into the new snapshot (Transaction._commit_file_ops; Gen/GenFileOps.v).  The file manager's contract
   (reading a manifest returns its entries; create_manifest_file's EXISTING / ADDED entries) is the model's, tied by
   the correspondence. *)
Theorem C15_file_ops_regenerated :
  (forall ops, gen_partition ops = (tx_adds ops, tx_dels ops, tx_expire ops))
  /\ (forall adds dels : list path, gen_is_file_txn adds dels = false <-> (adds = [] /\ dels = []))
  /\ (forall m, gen_base_manifests m = match base_manifests m with Some l => PyOk l | None => PyRaise end)
  /\ (forall ps mfs, gen_final_manifests ps mfs = apply_deletes ps mfs)
  /\ (forall id sq adds fin, gen_append_manifests id sq adds fin = fin ++ append_manifest id sq adds)
  /\ (forall m id t ml, seq (new_snap m id t ml) = gen_seq m /\ parent (new_snap m id t ml) = gen_parent m).
Proof.
  split; [exact gen_partition_agrees|]. split; [exact gen_is_file_txn_spec|]. split; [exact gen_base_manifests_agrees|].
  split; [exact gen_final_manifests_agrees|]. split; [exact gen_append_manifests_agrees|]. intros m id t ml. split; reflexivity.
Qed.
Print Assumptions C15_file_ops_regenerated.

(* Put together: ONE STEP of the sequential machine over which every history theorem of this file is proved is, for every
   state and operation, the composition of the regenerated kernels -- a transaction (partitioning, dispatch, base manifests,
   delete rewrite, append manifest, create_snapshot with the expiry folded in, retention) and a snapshot deletion, each
   followed by MetadataManager.commit's stamp rule (Gen/GenCommit.v gen_new_lu) and metadata log.  create_snapshot (statement
   shape checked one by one, metadata update emitted) included.  The GLUE between the kernels (StepGenProofs.gen_txn_meta: no commit
   for an empty queue, the metadata-only branch, which kernel feeds which; gen_md_commit: which fields the stamp and the log
   use) is HAND-WRITTEN there, despite the gen_ prefix, after the call structure that translator/gen_fileops.py pins: so `replay`
   is the fold of regenerated kernels composed by hand-written glue; the glue, the file manager's contract and the I/O around
   the kernels are what the `histories` correspondence compares with the code. *)
Theorem C15_step_regenerated :
  (forall st ops id t tu f,
     step_full st (Txn ops id t tu f) =
     match gen_txn_meta (md st) ops id t with
     | PyOk None => (st, NoCommit, None)
     | PyRaise => (st, Aborted, None)
     | PyOk (Some m') =>
         (gen_md_commit st m' tu f, Committed,
          if gen_is_file_txn (tx_adds ops) (tx_dels ops)
          then match base_manifests (md st) with
               | Some base => Some (new_snap (md st) id t (apply_deletes (tx_dels ops) base ++ append_manifest id (last_seq (md st) + 1) (tx_adds ops)))
               | None => None
               end
          else None)
     end)
  /\ (forall st id tu f,
     step_full st (DeleteSnap id tu f) =
     match gen_delete_snapshot (md st) id with
     | PyOk None => (st, NoCommit, None)
     | PyOk (Some m') => (gen_md_commit st m' tu f, Committed, None)
     | PyRaise => (st, Aborted, None)
     end)
  /\ (forall m id t ml cut,
     gen_create_snapshot m id t ml (gen_parent m) (gen_seq m) cut
     = match create_snapshot m id t ml cut with Some m' => PyOk m' | None => PyRaise end).
Proof.
  split; [|split; [|exact gen_create_snapshot_agrees]].
  - intros st ops id t tu f. unfold step_full, gen_txn_meta. destruct ops as [|o ops]; [reflexivity|]. cbv zeta.
    rewrite gen_partition_agrees, file_txn_dispatch. set (OPS := o :: ops).
    destruct (gen_is_file_txn (tx_adds OPS) (tx_dels OPS)).
    + rewrite gen_base_manifests_agrees. destruct (base_manifests (md st)) as [base|] eqn:E; [|reflexivity].
      rewrite (gen_txn_manifests_agree _ id _ _ _ E). unfold gen_parent, gen_seq.
      rewrite gen_create_snapshot_agrees. destruct (create_snapshot _ _ _ _ _); rewrite ?gen_md_commit_agrees; reflexivity.
    + destruct (tx_expire OPS); rewrite ?gen_expire_agrees, gen_md_commit_agrees; reflexivity.
  - intros st id tu f. unfold step_full. rewrite gen_delete_snapshot_agrees.
    destruct (delete_snapshot (md st) id); rewrite ?gen_md_commit_agrees; reflexivity.
Qed.
Print Assumptions C15_step_regenerated.

(* The file manager's side of "files carried through manifest rewrites keep their original adding snapshot and sequence
   number": the manifest ENTRY codec, regenerated field by field from FileManager.create_manifest_file (the `record`
   literal and the stamp of an entry) and read_manifest_file (Gen/GenEntryCodec.v), loses nothing.  For every DataFile:
   an entry written as ADDED and read back carries the committing snapshot's id and sequence number; carried through a
   later rewrite as EXISTING it still carries THOSE, and its path, size, row count, checksum and column bounds are
   what they were (an empty bounds / statistics map reads back as none).  Hypotheses: the inverse laws of the
   primitive codecs -- int(str(k)) = k, _safe_int(n) = n on ints, and _decode_bound(_encode_bound(v)) = v on the
   values a bound can take (that law, for the regenerated bound codec, is C13_bound_roundtrip). *)
Theorem C15_entry_codec_preserves :
  forall (bval ebound skey : Type) (enc : bval -> ebound) (dec : ebound -> bval) (str_of : Z -> skey) (int_of : skey -> Z)
         (safe_int pstr : Z -> Z),
  (forall k, int_of (str_of k) = k) ->
  forall okb : bval -> bool, (forall v, okb v = true -> dec (enc v) = v) -> (forall z, safe_int z = z) ->
  forall (id : Z) (sq : option Z) (id' : Z) (sq' : option Z) (df : datafile bval), bounds_ok bval okb df ->
  let once := gen_read_entry bval ebound skey dec int_of
                (gen_write_entry bval ebound skey enc str_of safe_int pstr gen_status_added id sq df) in
  let twice := gen_read_entry bval ebound skey dec int_of
                (gen_write_entry bval ebound skey enc str_of safe_int pstr gen_status_existing id' sq' once) in
  df_checksum twice = df_checksum df /\ df_lower twice = norm_map (df_lower df) /\ df_upper twice = norm_map (df_upper df)
  /\ df_path twice = df_path df /\ df_count twice = df_count df /\ df_size twice = df_size df
  /\ df_added twice = Some id /\ df_seq twice = sq.
Proof. exact rewrite_preserves. Qed.
Print Assumptions C15_entry_codec_preserves.

(* C09 over the same model: lookups by timestamp / by id, and deleting the current snapshot.  Props/C09.v states the same
   three theorems; here and there each is the one lemma of Proofs/C09MetaProofs.v. *)
Require DS.Proofs.C09MetaProofs.

(* With non-decreasing commit timestamps (equal ones allowed; the sort in get_snapshot_by_timestamp is stable),
   lookup by timestamp returns the MOST RECENTLY COMMITTED retained snapshot not newer than t -- or nothing when
   there is none -- after any history. *)
Theorem C09_by_timestamp : forall (t0 f0 : Z) (ops : list op) (t : Z),
  fresh_ops f0 ops -> nondecreasing_ts ops ->
  option_map sid (by_timestamp (md (replay t0 f0 ops)) t) =
  option_map sid (last_opt (filter (fun h => memZ (sid h) (sids (md (replay t0 f0 ops))) && (ts h <=? t))
                                   (hist_of t0 f0 ops))).
Proof. exact C09MetaProofs.by_timestamp_most_recent. Qed.
Print Assumptions C09_by_timestamp.

(* Deleting the current snapshot succeeds and repoints the table to the most recently committed survivor
   (nothing when no snapshot is left), whatever the timestamps. *)
Theorem C09_delete_current : forall (t0 f0 : Z) (ops : list op) (id : Z),
  fresh_ops f0 ops ->
  cur (md (replay t0 f0 ops)) = Some id -> In id (sids (md (replay t0 f0 ops))) ->
  exists m', delete_snapshot (md (replay t0 f0 ops)) id = Some m' /\
    cur m' = option_map sid (last_opt (filter (fun h => memZ (sid h) (sids (md (replay t0 f0 ops))) && negb (sid h =? id))
                                              (hist_of t0 f0 ops))).
Proof. exact C09MetaProofs.delete_current_most_recent. Qed.
Print Assumptions C09_delete_current.

(* Lookup by id returns the retained snapshot with that id: a committed snapshot, unchanged but for its parent. *)
Theorem C09_by_id : forall (t0 f0 : Z) (ops : list op) (id : Z) (s : snap),
  fresh_ops f0 ops -> by_id (md (replay t0 f0 ops)) id = Some s ->
  In s (snaps (md (replay t0 f0 ops))) /\ sid s = id /\ exists h, In h (hist_of t0 f0 ops) /\ same_but_parent h s.
Proof. exact C09MetaProofs.by_id_retained. Qed.
Print Assumptions C09_by_id.

(* A concrete history meets `fresh_ops`, and drives the model through every mutator: three appends (one with a
   delete), delete_snapshot of the middle snapshot, both properties, then a transaction mixing append / expire /
   delete whose expiry removes the new snapshot's parent: the survivor is repointed to its grandparent's parent. *)
Definition ops_ex : list op :=
  [ Txn [TAppend [(1, 1)]] 1 1000 1000 1;
    Txn [TAppend [(1, 2)]] 2 1000 1001 2;
    Txn [TAppend [(1, 3)]; TDelete [(0, 1)]] 3 999 1001 3;
    DeleteSnap 2 1002 4;
    SetPrevMax (PInt 2) 1000 5;
    SetRetention (PInt 2) 1000 6;
    Txn [TAppend [(0, 4)]; TExpire 1000; TDelete [(1, 2); (2, 4)]] 4 1001 1000 7 ].

Example C15_nonvacuous :
  fresh_ops 0 ops_ex
  /\ map (fun s => (sid s, parent s)) (hist_of 1000 0 ops_ex) = [(1, Some (-1)); (2, Some 1); (3, Some 2); (4, Some 3)]
  /\ map (fun s => (sid s, parent s, seq s)) (snaps (md (replay 1000 0 ops_ex))) = [(1, Some (-1), 1); (4, Some 1, 4)]
  /\ slog (md (replay 1000 0 ops_ex)) = [(1000, 1); (1001, 4)]
  /\ mlog (md (replay 1000 0 ops_ex)) = [(1005, 5); (1006, 6)]
  /\ map (map ekey) (match snaps (md (replay 1000 0 ops_ex)) with [_; s4] => mlist s4 | _ => [] end)
     = [[((1, 3), 3, 3)]; [((0, 4), 4, 4)]]
  /\ nondecreasing_ts (firstn 2 ops_ex) /\ ~ nondecreasing_ts ops_ex
  /\ option_map sid (by_timestamp (md (replay 1000 0 ops_ex)) 1000) = Some 1
  /\ option_map cur (delete_snapshot (md (replay 1000 0 ops_ex)) 4) = Some (Some 1)
  /\ (* a cyclic parent map: 1 -> 2 -> 3 -> 1, nothing kept but 9: the link is dropped *)
     gen_repoint_one [(1, Some 2); (2, Some 3); (3, Some 1)] [9] (Some 1) = Some None
  /\ (* an acyclic chain 4 -> 3 -> 2 -> 1 -> -1 with {1} kept: nearest surviving ancestor of 4's parent 3 is 1 *)
     acyclic [(1, Some (-1)); (2, Some 1); (3, Some 2); (4, Some 3)]
  /\ gen_repoint_one [(1, Some (-1)); (2, Some 1); (3, Some 2); (4, Some 3)] [1] (Some 3) = Some (Some 1).
Proof.
  assert (Hfresh : fresh_ops 0 ops_ex).
  { unfold fresh_ops, ops_ex. simpl. split; [|split].
    - repeat constructor; simpl; intuition discriminate.
    - repeat constructor.
    - repeat constructor; simpl; intuition discriminate. }
  assert (Hnd : nondecreasing_ts (firstn 2 ops_ex)) by (unfold nondecreasing_ts; simpl; repeat constructor; lia).
  assert (Hnnd : ~ nondecreasing_ts ops_ex).
  { unfold nondecreasing_ts. simpl. intro Hs. inversion Hs as [|? ? ? Hall]; subst.
    inversion Hall as [|? ? ? Hall2]; subst. inversion Hall2 as [|? ? Hbad ?]; subst. lia. }
  assert (Hac : acyclic [(1, Some (-1)); (2, Some 1); (3, Some 2); (4, Some 3)]).
  { (* every link strictly decreases the id *)
    apply decreasing_acyclic. intros a b Hs. simpl in Hs. destruct Hs as [Hs|[Hs|[Hs|[Hs|[]]]]]; inversion Hs; subst; lia. }
  (* the four facts above as they stand; every other conjunct is an equation between closed terms *)
  repeat (first [assumption | apply conj]); vm_compute; reflexivity.
Qed.
