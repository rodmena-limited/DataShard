(* Props/C01.v -- Concurrent commits are serializable: no acknowledged write lost or duplicated.
   Each theorem is read off a lemma of Proofs/CommitProofs.v (`reach_linear`: every reachable world of the commit machine
   is `Linear`; `linear_no_lost_update`, `Inv_acked`: what that says), MetaProofs.v (C15's invariant of replayed histories),
   FlipFaultProofs.v and TxSettleProofs.v (the machines with failing and refused-although-applied pointer writes; the
   statements and the witness of the latter are in C01ResentProofs.v) and, for the lock layer, Proofs/ProcLockProofs.v.

   WHAT IS ABSTRACTED.  Model/Commit.v holds a table's content as the list of operation ids applied to the initial
   table (`m_ops`): the protocol only looks at the OCC stamp.  What the operations MEAN is Model/Meta.v (C15, tied to
   the source by C15_step_regenerated); C01_serializable_tables and C01_snapshot_chain read the result through that
   meaning (Model/CommitMeta.v `table_of`: every committer a stands for the Meta operation `op_of a` its successful
   attempt applied; `op_of` is universally quantified). *)
From Coq Require Import ZArith List Sorted Lia FinFun.
Require Import DS.Model.CommitBase DS.Gen.GenCommit DS.Model.Commit DS.Proofs.CommitGenProofs DS.Proofs.CommitProofs.
Require Import DS.Model.CommitMeta.
Require DS.Proofs.MetaProofs DS.Proofs.ListFacts.
Require Import DS.Model.ProcLockBase DS.Gen.GenFileLock DS.Model.ProcLock DS.Model.ProcLockKeep.
Require DS.Proofs.ProcLockProofs.
Require DS.Model.Meta DS.Model.MetaSpec.
Require Import DS.Model.FlipFault DS.Model.TxSettle.
Require DS.Proofs.TxSettleProofs DS.Proofs.FlipFaultProofs DS.Proofs.C01ResentProofs.
Import ListNotations.
Open Scope Z_scope.

(* `sound c`: storage with real mutual exclusion -- an exclusive lock (local flock) or conditional
   pointer writes (CAS S3).  Quantified over: any number of committers (actor ids are arbitrary
   naturals), any operation kinds (data commits, metadata-only commits, deleting the current
   snapshot), any retry budgets, EVERY event list (= every interleaving at protocol-step granularity;
   events that are not enabled are skipped) and EVERY clock reading carried by the events (frozen,
   coarse or decreasing clocks included). *)

(* The version the pointer names holds the initial content with exactly the flipped commits applied, one
   after another, in the order the pointer advanced (content = list of applied operations). *)
Theorem C01_serializable : forall c m0 kind mr evs, sound c ->
  let w := run c (init_world m0 kind mr) evs in
  m_ops (file w (w_ptr w)) = m_ops m0 ++ map snd (w_hist w).
Proof. intros c m0 kind mr evs Snd. exact (proj1 (linear_no_lost_update c m0 _ (reach_linear c m0 kind mr evs Snd))). Qed.
Print Assumptions C01_serializable.

(* ... read through Model/Meta.v: the TABLE the pointer names (snapshots, parents, sequence numbers, snapshot log,
   manifests) equals the initial table with the mutators of exactly the flipped commits applied by Meta.step, one after
   another, in the order the pointer advanced -- for every interpretation of the committers as Meta operations. *)
Theorem C01_serializable_tables : forall c m0 kind mr evs (T0 : Meta.state) (op_of : aid -> Meta.op), sound c ->
  let w := run c (init_world m0 kind mr) evs in
  table_of T0 op_of (file w (w_ptr w)) = Meta.run (table_of T0 op_of m0) (flip_ops op_of w).
Proof.
  intros c m0 kind mr evs T0 op_of S w. unfold table_of, flip_ops, w.
  rewrite (proj1 (linear_no_lost_update c m0 _ (reach_linear c m0 kind mr evs S))).
  rewrite map_app. apply fold_left_app.
Qed.
Print Assumptions C01_serializable_tables.

(* Every commit that reported success is reflected, and no commit is reflected twice. *)
Theorem C01_acked_exactly_once : forall c m0 kind mr evs, sound c ->
  let w := run c (init_world m0 kind mr) evs in
  NoDup (map snd (w_hist w))
  /\ forall a, a_pc (w_actors w a) = PDone Success -> In a (map snd (w_hist w)).
Proof.
  intros c m0 kind mr evs Snd w. destruct (linear_no_lost_update c m0 w (reach_linear c m0 kind mr evs Snd)) as [_ [ND [AK _]]].
  split; [exact ND|exact AK].
Qed.
Print Assumptions C01_acked_exactly_once.

(* A commit that raised -- a conflict after its retry budget, or an error / interrupt / process death
   before its pointer flip -- is not reflected at all; a reflected commit either reported success or
   was cut off AFTER its own pointer flip (asynchronous interrupt or crash, see C03/C04). *)
Theorem C01_raised_not_reflected : forall c m0 kind mr evs, sound c ->
  let w := run c (init_world m0 kind mr) evs in
  forall a, (a_pc (w_actors w a) = PDone Conflict \/ a_pc (w_actors w a) = PDone Aborted -> ~ In a (map snd (w_hist w)))
         /\ (In a (map snd (w_hist w)) ->
             a_pc (w_actors w a) = PFlipped \/ a_pc (w_actors w a) = PDone Success \/ a_pc (w_actors w a) = PDone AbortedPost).
Proof.
  intros c m0 kind mr evs Snd w a. pose proof (Inv_acked c w a (Lin_inv c m0 w (reach_linear c m0 kind mr evs Snd))) as F. split.
  - intros [H|H] Hin; apply F in Hin; rewrite H in Hin; discriminate.
  - intro Hin. apply flipped_cases, F, Hin.
Qed.
Print Assumptions C01_raised_not_reflected.

(* "A commit that reported a CONFLICT is not reflected" when the store's refusal (412) can be the answer to a write it APPLIED
   (an SDK that re-sends a conditional PUT whose first copy landed; Model/FlipFault.v XFlipResent).  The library reads the
   pointer back on a refusal before calling it a conflict (regenerated: gen_refused_reads_back = true, verdict
   gen_write_landed); FlipFault.v is the machine WITH that read-back (XReadBack, a step of its own), and the statement is
   made over it.  The full statement (every schedule: `forall prompt`) is a Definition and is FALSE (`_refuted`; witness by
   vm_compute, FlipFaultProofs.superseded_witness with committer 0's retry budget 1: committer 0's write is applied and
   refused, committer 1 commits on top of it BEFORE the read-back, the read-back sees committer 1's file name, committer 0
   reports the conflict -- and is in the version chain; that every event of it is enabled: C01ResentProofs.resent_witness_accepted).  It holds (`_partial`)
   under the exact extra hypothesis `prompt = true`: no pointer write lands between an applied-and-refused write and its
   read-back (FlipFault.may_land).  Schedules without refused-although-applied writes are not restricted by that
   hypothesis (FlipFaultProofs.prompt_irrelevant_without_pending), and for them this is C01_raised_not_reflected. *)
Definition C01_conflict_not_reflected_full : Prop := forall prompt, C01ResentProofs.conflict_not_reflected_for prompt.

Theorem C01_conflict_not_reflected_partial : forall c atomic m0 kind mr xs, cas c = true ->
  let X := xrun_p true c atomic (xinit (init_world m0 kind mr)) xs in
  forall a, a_pc (w_actors (xw X) a) = PDone Conflict -> ~ In a (map snd (w_hist (xw X))).
Proof.
  (* the prompt machine reaches only worlds the commit machine reaches: C01_raised_not_reflected at that schedule *)
  intros c atomic m0 kind mr xs CAS X a P. subst X. destruct (FlipFaultProofs.xreach_run c m0 atomic kind mr xs CAS) as [l E].
  rewrite E in *. exact (proj1 (C01_raised_not_reflected c m0 kind mr l (or_introl CAS) a) (or_introl P)).
Qed.
Print Assumptions C01_conflict_not_reflected_partial.

Theorem C01_conflict_not_reflected_refuted : ~ C01_conflict_not_reflected_full.
Proof.
  intro F.
  apply (F false C01ResentProofs.resent_cfg false C01ResentProofs.resent_m0 (fun _ => KKeep) C01ResentProofs.resent_budget
           FlipFaultProofs.superseded_witness eq_refl 0%nat).
  - vm_compute. reflexivity.
  - vm_compute. auto.
Qed.
Print Assumptions C01_conflict_not_reflected_refuted.

(* non-vacuity of both: the witness schedule is a STRICT run of the unrestricted machine (every event enabled) ending with
   committer 0 at PDone Conflict and in the chain; on the prompt machine the same schedule is refused at committer 1's
   pointer write (index 18), which is what the hypothesis excludes -- and a refused-although-applied write whose read-back
   is prompt ends in PDone Success, reflected once *)
Example C01_conflict_not_reflected_nonvacuous :
  match xrun_strict_p false C01ResentProofs.resent_cfg false
          (xinit (init_world C01ResentProofs.resent_m0 (fun _ => KKeep) C01ResentProofs.resent_budget)) FlipFaultProofs.superseded_witness 0 with
  | inl X => a_pc (w_actors (xw X) 0%nat) = PDone Conflict /\ map snd (w_hist (xw X)) = [0%nat; 1%nat] /\ x_misreported X = [0%nat]
  | inr _ => False
  end
  /\ xrun_strict_p true C01ResentProofs.resent_cfg false
        (xinit (init_world C01ResentProofs.resent_m0 (fun _ => KKeep) C01ResentProofs.resent_budget)) FlipFaultProofs.superseded_witness 0 = inr 18%nat
  /\ match xrun_strict_p true C01ResentProofs.resent_cfg false
            (xinit (init_world C01ResentProofs.resent_m0 (fun _ => KKeep) C01ResentProofs.resent_budget))
            (firstn 13 FlipFaultProofs.superseded_witness ++ [XReadBack 0; XE {| e_actor := 0; e_kind := ERelease |}])%nat 0 with
     | inl X => a_pc (w_actors (xw X) 0%nat) = PDone Success /\ map snd (w_hist (xw X)) = [0%nat] /\ x_misreported X = []
     | inr _ => False
     end.
Proof. vm_compute. repeat split; reflexivity. Qed.

(* The committed metadata VERSIONS form one linear chain: each extends its predecessor by exactly its
   committer's operation and carries a strictly larger last-updated stamp. *)
Theorem C01_version_chain_linear : forall c m0 kind mr evs, sound c ->
  let w := run c (init_world m0 kind mr) evs in
  chain_ok (w_files w) 0%nat (w_hist w) /\ w_ptr w = lastv 0%nat (w_hist w).
Proof. intros c m0 kind mr evs Snd w. destruct (reach_linear c m0 kind mr evs Snd) as [I _ _]. split; apply I. Qed.
Print Assumptions C01_version_chain_linear.

(* The surviving SNAPSHOT chain (property text: "linear with strictly increasing sequence numbers"), C01 composed
   with C15.  The initial version holds the table that the history ops0 built on a freshly created table; distinct
   committers draw distinct positive snapshot ids and distinct metadata-file names (what uuid4 provides -- a
   hypothesis on the interpretation alone, not on the run).  Then after EVERY schedule the table the pointer names is
   well-formed w.r.t. the ghost history H of everything committed in pointer order (MetaSpec.WF: current snapshot
   retained or none, every parent link nothing or a retained TRUE ancestor, retained snapshots unchanged but for the
   parent and unique, sequence numbers strictly increasing over H), and read in snapshot-log order -- which is the
   order the pointer advanced -- the retained snapshots' sequence numbers strictly increase. *)
Theorem C01_snapshot_chain : forall c m0 kind mr evs (t0 f0 : Z) (ops0 : list Meta.op) (op_of : aid -> Meta.op),
  sound c -> m_ops m0 = [] ->
  (forall l : list aid, NoDup l -> MetaSpec.fresh_ops f0 (ops0 ++ map op_of l)) ->
  let w := run c (init_world m0 kind mr) evs in
  let T := Meta.md (table_of (MetaSpec.replay t0 f0 ops0) op_of (file w (w_ptr w))) in
  let H := MetaSpec.hist_of t0 f0 (ops0 ++ flip_ops op_of w) in
  MetaSpec.WF H T
  /\ StronglySorted Z.lt (map Meta.seq (MetaSpec.retained_in_commit_order H T))
  /\ map snd (Meta.slog T) = map Meta.sid (MetaSpec.retained_in_commit_order H T)
  /\ (forall s, In s (Meta.snaps T) ->
        exists h, In h (MetaSpec.retained_in_commit_order H T) /\ Meta.sid h = Meta.sid s /\ Meta.seq h = Meta.seq s).
Proof.
  intros c m0 kind mr evs t0 f0 ops0 op_of Snd M0 Fresh w. cbv zeta.
  (* the table the pointer names is the replay of ops0 followed by the operations of the flipped commits, in flip order ... *)
  assert (E : table_of (MetaSpec.replay t0 f0 ops0) op_of (file w (w_ptr w)) = MetaSpec.replay t0 f0 (ops0 ++ flip_ops op_of w)).
  { unfold w. rewrite (C01_serializable_tables c m0 kind mr evs _ op_of Snd). unfold table_of. rewrite M0. simpl.
    unfold MetaSpec.replay, Meta.run. rewrite fold_left_app. reflexivity. }
  (* ... which are fresh, no committer flipping twice: C15's invariant of replayed histories applies *)
  assert (Fr : MetaSpec.fresh_ops f0 (ops0 ++ flip_ops op_of w)).
  { unfold flip_ops. apply Fresh. exact (proj1 (C01_acked_exactly_once c m0 kind mr evs Snd)). }
  rewrite E. pose proof (MetaProofs.wf_invariant t0 f0 _ Fr) as WFm.
  split; [exact WFm | exact (MetaProofs.wf_seq_in_log_order _ _ WFm)].
Qed.
Print Assumptions C01_snapshot_chain.

(* The machine the theorems above are about is the protocol the SOURCE performs: the success path of `step`
   (lock, validating read -- on conditional-write storage the read that also yields the ETag --, stamp + metadata
   write, fence, commit-point write, release in the `finally`) is, action for action, the skeleton the translator
   regenerates from MetadataManager.commit on every run, and that path is enabled and leads to an acknowledged
   commit from every state with an idle committer and a free lock.  The validation compares both stamp fields and
   the stamp strictly increases along the chain (the two facts C01_serializable's invariant rests on) -- as
   properties of the REGENERATED kernels gen_stamp_eqb / gen_new_lu. *)
Theorem C01_skeleton_regenerated :
  model_path true = gen_commit_path_cas /\ model_path false = gen_commit_path_plain
  /\ (forall cc cl bc bl, gen_stamp_eqb cc cl bc bl = true <-> (cc = bc /\ cl = bl))
  /\ (forall now cl, cl < gen_new_lu now cl)
  /\ (forall c w b (now : Z), a_pc (w_actors w b) = PIdle -> (lockkind c = GrantAll \/ w_lock w = None) ->
       exists evs w',
         flat_map (actions_of (cas c)) (map e_kind evs) = (if cas c then gen_commit_path_cas else gen_commit_path_plain)
         /\ Forall (fun e => e_actor e = b) evs
         /\ run_strict c w ({| e_actor := b; e_kind := EBegin (w_ptr w) |} :: evs) 0 = inl w'
         /\ a_pc (w_actors w' b) = PDone Success /\ w_ptr w' = length (w_files w)).
Proof.
  split; [exact model_path_cas_regenerated|]. split; [exact model_path_plain_regenerated|].
  split; [exact gen_stamp_eqb_spec|]. split; [exact gen_new_lu_gt|].
  intros c w b now PC LF. destruct (can_commit c w b now PC LF) as [w' [R [Ok [_ P]]]].
  exists (tl (commit_script b (w_ptr w) now)), w'. split; [destruct (cas c); reflexivity|].
  split; [repeat constructor|]. split; [exact R|]. split; assumption.
Qed.
Print Assumptions C01_skeleton_regenerated.

(* A conflict is retried against a freshly read base up to the regenerated attempt bound, then reported after a
   rollback; every exception class is handled (nothing leaves commit() with the transaction still active).  The
   machine's retry step IS that table (what `step` does on the release after a conflict is read off gen_tx_on with
   `last` = "this was the last attempt of the budget"), and in every run whose committers start with the REGENERATED
   budget gen_max_retries no attempt beyond the budget is started and a conflict is reported only after exactly
   gen_max_retries attempts. *)
Theorem C01_conflict_retried :
  gen_tx_on XConflict false = TxRetry /\ gen_tx_on XConflict true = TxRollbackDelete /\ (0 < gen_max_retries)%nat
  /\ (forall e last, gen_tx_on e last <> TxPropagate)
  /\ (forall c w e w', e_kind e = ERelease -> a_pc (w_actors w (e_actor e)) = PConflict -> step c w e = Some w' ->
        let s := w_actors w (e_actor e) in
        match gen_tx_on XConflict (negb (Nat.ltb (S (a_attempt s)) (a_maxr s))) with
        | TxRetry => a_pc (w_actors w' (e_actor e)) = PIdle /\ a_attempt (w_actors w' (e_actor e)) = S (a_attempt s)
        | TxRollbackDelete => a_pc (w_actors w' (e_actor e)) = PDone Conflict
        | _ => False
        end)
  /\ (forall c m0 kind evs a,
        let s := w_actors (run c (init_world m0 kind (fun _ => gen_max_retries)) evs) a in
        (a_attempt s < gen_max_retries)%nat /\ (a_pc s = PDone Conflict -> S (a_attempt s) = gen_max_retries)).
Proof.
  destruct conflict_retries as [A [B C]]. split; [exact A|]. split; [exact B|]. split; [exact C|].
  split; [exact every_class_finishes|]. split; [exact release_after_conflict_follows_table|].
  intros c m0 kind evs a. exact (conflict_reported_when_exhausted c m0 kind (fun _ => gen_max_retries) evs a C).
Qed.
Print Assumptions C01_conflict_retried.

(* "Storage with real mutual exclusion", local filesystem: the layer below `lockkind = Excl`.
   Writers are FileLock handles (one per Table handle) placed in OS processes by an ARBITRARY topology
   `proc : hid -> pid` -- threads of one process with separate handles, one process per handle, several handles in
   one process next to handles in other processes, and processes created by FORK: `LFork h h'` makes handle h' (in
   another process) the twin of h, copying the handle object and INHERITING its open descriptors (two handles sharing
   one open file description; Model/ProcLock.v).  Each handle runs FileLock's program on the lock file one kernel
   primitive per event (open; non-blocking attempt; close after a refusal; unlock; close), processes can be killed,
   and EVERY event list is a schedule.  The kernel's ownership discipline is `gen_lock_disc`, read off the primitive
   the source calls on every run (Gen/GenFileLock.v; flock = the lock belongs to the open file description).
   Hypothesis on the environment, spelled out: `forks_quiescent` -- every fork of the event list copies a handle that
   is idle at that moment (the application forks its workers between commits, not from inside one; why this cannot be
   dropped: C01_fork_while_holding_not_exclusive below -- that is fork(2), not FileLock).  Every theorem under that
   hypothesis carries `_partial` in its name; the statement WITHOUT it is the Definition C01_lock_exclusive_full, refuted
   (C01_lock_exclusive_refuted).  Not modelled: fork(2) copies EVERY handle of the forking process at once (LFork copies one
   handle per event; the harness emits one LFork per handle the parent has used), and FileLock.__del__ (release() on a
   garbage-collected handle; the translator refuses any primitive on the lock file there other than through release()). *)

(* At most one handle believes it holds the lock -- whatever the topology, forked workers included. *)
Theorem C01_lock_exclusive_any_topology_partial : forall (proc : hid -> pid) evs h1 h2,
  forks_quiescent gen_lock_disc proc linit evs ->
  let s := lrun gen_lock_disc proc linit evs in lholds s h1 -> lholds s h2 -> h1 = h2.
Proof.
  intros proc evs h1 h2. rewrite ProcLockProofs.gen_disc_is_by_description. intro Q.
  apply ProcLockProofs.inv_exclusive. apply (ProcLockProofs.reach_inv proc). exact Q.
Qed.
Print Assumptions C01_lock_exclusive_any_topology_partial.

(* ... and without the hypothesis it is false: a fork while the copied handle holds (fork(2) itself) *)
Definition C01_lock_exclusive_full : Prop := C01ResentProofs.lock_exclusive_any_events.
Theorem C01_lock_exclusive_refuted : ~ C01_lock_exclusive_full.
Proof.
  intro F.
  assert (E : 0%nat = 1%nat); [|discriminate E].
  apply (F (fun h => h) [LStep 0 KOpen; LStep 0 (KTry true); LFork 0 1]%nat 0%nat 1%nat); eexists; vm_compute; reflexivity.
Qed.
Print Assumptions C01_lock_exclusive_refuted.

(* The lock layer refines Commit.v's exclusive lock (a PER-STEP statement about `lock_view`; it is not composed into a
   simulation of Commit.run under Excl here -- the composition is the harness's trace validation of both layers on the same runs): the handle whose flag is set is exactly the kernel's owner
   (so the fence of the commit point, which reads the flag, tells the truth), and every enabled event moves that
   view the way `step` moves `w_lock`: a granted attempt only from a free lock, a refused one only while another
   handle holds, the holder's unlock frees it, a process death frees it iff the holder lived there, and nothing else
   -- no open, no close of a refused or released descriptor, in the holder's process or any other, no fork of an idle
   handle -- touches it. *)
Theorem C01_lock_refines_excl_partial : forall (proc : hid -> pid) evs,
  forks_quiescent gen_lock_disc proc linit evs ->
  let s := lrun gen_lock_disc proc linit evs in
  (forall h, lholds s h <-> lock_view s = Some h)
  /\ (forall e s', fork_quiescent s e -> lstep gen_lock_disc proc s e = Some s' -> view_effect proc s e s').
Proof.
  intros proc evs. rewrite ProcLockProofs.gen_disc_is_by_description. intros Q s.
  pose proof (ProcLockProofs.reach_inv proc evs Q) as I. fold s in I.
  split; [intro h; apply ProcLockProofs.inv_flag_iff_view; exact I
         |intros e s'; apply ProcLockProofs.step_view_effect; exact I].
Qed.
Print Assumptions C01_lock_refines_excl_partial.

(* A holder cannot lose the lock to anything but its own unlock or the death of its own process: what the other
   handles do -- those sharing its process and its forked twins included -- leaves its flag set AND its description
   the kernel's owner. *)
Theorem C01_lock_not_dropped_by_others_partial : forall (proc : hid -> pid) evs e s' h,
  forks_quiescent gen_lock_disc proc linit evs ->
  let s := lrun gen_lock_disc proc linit evs in
  fork_quiescent s e -> lstep gen_lock_disc proc s e = Some s' -> lholds s h -> e <> LStep h KUnlock -> e <> LKill (proc h) ->
  lholds s' h /\ lock_view s' = Some h.
Proof.
  intros proc evs e s' h. rewrite ProcLockProofs.gen_disc_is_by_description. intros Q s Qe St Hh N1 N2.
  assert (H' : lholds s' h) by (apply (ProcLockProofs.step_keeps_holder proc s e s' h St Hh N1 N2)).
  split; [exact H'|].
  apply (ProcLockProofs.inv_flag_iff_view s' h); [|exact H'].
  apply (ProcLockProofs.inv_step proc s e s'); [apply ProcLockProofs.reach_inv; exact Q | exact Qe | exact St].
Qed.
Print Assumptions C01_lock_not_dropped_by_others_partial.

(* WHY a forked worker is just another writer: the regenerated program opens the lock file per attempt and closes it on
   refusal and in release(), so an idle handle holds NO descriptor of the lock file; a worker forked while its parent's
   handle is idle inherits nothing -- the fork changes no descriptor table, no owner, no handle state. *)
Theorem C01_fork_inherits_nothing_partial : forall (proc : hid -> pid) evs,
  forks_quiescent gen_lock_disc proc linit evs ->
  let s := lrun gen_lock_disc proc linit evs in
  (forall h d, l_h s h = HIdle -> ~ In (d, h) (l_open s))
  /\ (forall h h' s', l_h s h = HIdle -> lstep gen_lock_disc proc s (LFork h h') = Some s' ->
        l_open s' = l_open s /\ l_next s' = l_next s /\ l_owner s' = l_owner s /\ forall k, l_h s' k = l_h s k).
Proof.
  intros proc evs. rewrite ProcLockProofs.gen_disc_is_by_description. intros Q s.
  pose proof (ProcLockProofs.reach_inv proc evs Q) as I. fold s in I. split.
  - intros h d. apply ProcLockProofs.idle_no_descriptor. exact I.
  - intros h h' s' Hi St. exact (ProcLockProofs.quiescent_fork_inherits_nothing proc s h h' s' I Hi St).
Qed.
Print Assumptions C01_fork_inherits_nothing_partial.

(* The handle program of the model is, primitive for primitive, the skeleton the translator regenerates from
   FileLock._try_acquire_once / FileLock.release; the discipline is the description-owned one; the fence is the
   flag; and the granted path is enabled, and ends holding, from every reachable state with a free lock. *)
Theorem C01_lock_skeleton_regenerated_partial :
  gen_lock_disc = ByDescription /\ gen_fence_is_flag = true
  /\ flat_map lactions_of attempt_granted_events = gen_attempt_granted
  /\ flat_map lactions_of attempt_refused_events = gen_attempt_refused
  /\ flat_map lactions_of release_events = gen_release
  /\ (forall (proc : hid -> pid) evs h, forks_quiescent gen_lock_disc proc linit evs ->
        let s := lrun gen_lock_disc proc linit evs in
        l_h s h = HIdle -> lock_view s = None ->
        exists s', lrun_strict gen_lock_disc proc s (map (LStep h) attempt_granted_events) 0 = inl s'
                   /\ lholds s' h /\ lock_view s' = Some h).
Proof.
  repeat (split; [reflexivity|]).
  intros proc evs h. rewrite ProcLockProofs.gen_disc_is_by_description. intro Q.
  apply ProcLockProofs.free_lock_is_granted. apply ProcLockProofs.reach_inv. exact Q.
Qed.
Print Assumptions C01_lock_skeleton_regenerated_partial.

(* Non-vacuity of the fork hypotheses: a parent (handle 0, process 0) uses its lock once, then forks two workers
   (handles 1, 2 in processes 1, 2); worker 1 takes the lock, the parent and worker 2 are refused, worker 1 releases,
   the parent takes it.  Every fork is quiescent, the strict run accepts every event, exactly handle 0 holds. *)
Definition own_proc (h : hid) : pid := h.
Definition ex_fork_sched : list levent :=
  [LStep 0 KOpen; LStep 0 (KTry true); LStep 0 KUnlock; LStep 0 KClose; LFork 0 1; LFork 0 2;
   LStep 1 KOpen; LStep 1 (KTry true); LStep 0 KOpen; LStep 0 (KTry false); LStep 0 KCloseRefused;
   LStep 2 KOpen; LStep 2 (KTry false); LStep 2 KCloseRefused; LStep 1 KUnlock; LStep 1 KClose;
   LStep 0 KOpen; LStep 0 (KTry true)]%nat.
Example C01_fork_nonvacuous :
  forks_quiescent gen_lock_disc own_proc linit ex_fork_sched
  /\ (exists s, lrun_strict gen_lock_disc own_proc linit ex_fork_sched 0 = inl s
                 /\ s = lrun gen_lock_disc own_proc linit ex_fork_sched /\ lock_view s = Some 0%nat /\ lholds s 0%nat).
Proof.
  split; [vm_compute; repeat split|]. eapply DS.Proofs.ListFacts.strict_witness; [reflexivity | reflexivity | vm_compute; reflexivity|].
  split; [reflexivity|]. split; [vm_compute; reflexivity|]. eexists. vm_compute. reflexivity.
Qed.

(* Why the discipline and the topology matter (refutation witnesses; the harness replays their shape on the real
   code: X holds, Y in X's process touches the lock file, Z in another process attempts).  With PROCESS-owned locks
   (POSIX record locks: fcntl F_SETLK, lockf) the same handle program is not exclusive as soon as one process has two
   handles: (1) the kernel grants the second handle of the process straight away; (2) even when the handles of a process
   take turns, the second handle's unlock / close of ITS descriptor drops the PROCESS's lock while the first still
   believes it holds, and a handle of another process is granted -- both strict (enabled) runs of the model. *)
Definition two_procs (h : hid) : pid := if Nat.ltb h 2 then 0%nat else 1%nat.
Example C01_process_owned_lock_not_exclusive :
  (exists s, lrun_strict ByProcess (fun _ => 0%nat) linit
               [LStep 0 KOpen; LStep 0 (KTry true); LStep 1 KOpen; LStep 1 (KTry true)]%nat 0 = inl s
             /\ lholds s 0%nat /\ lholds s 1%nat)
  /\ (exists s, lrun_strict ByProcess two_procs linit
               [LStep 0 KOpen; LStep 0 (KTry true);
                LStep 1 KOpen; LStep 1 (KTry true); LStep 1 KUnlock; LStep 1 KClose;
                LStep 2 KOpen; LStep 2 (KTry true)]%nat 0 = inl s
             /\ lholds s 0%nat /\ lholds s 2%nat /\ two_procs 0%nat <> two_procs 2%nat).
Proof.
  split; (eapply DS.Proofs.ListFacts.strict_witness; [reflexivity | reflexivity | vm_compute; reflexivity|]); repeat split; try (eexists; vm_compute; reflexivity).
  vm_compute. discriminate.
Qed.

(* ... while under the regenerated discipline the same two event lists are refused by the kernel at the second grant *)
Example C01_description_owned_lock_refuses_them :
  lrun_strict gen_lock_disc (fun _ => 0%nat) linit
    [LStep 0 KOpen; LStep 0 (KTry true); LStep 1 KOpen; LStep 1 (KTry true)]%nat 0 = inr 3%nat
  /\ (exists s, lrun_strict gen_lock_disc two_procs linit
               [LStep 0 KOpen; LStep 0 (KTry true); LStep 1 KOpen; LStep 1 (KTry false); LStep 1 KCloseRefused;
                LStep 2 KOpen; LStep 2 (KTry false); LStep 2 KCloseRefused]%nat 0 = inl s
             /\ lock_view s = Some 0%nat /\ lholds s 0%nat).
Proof.
  split; [vm_compute; reflexivity|]. eapply DS.Proofs.ListFacts.strict_witness; [reflexivity | reflexivity | vm_compute; reflexivity|]. split; [vm_compute; reflexivity|].
  eexists. vm_compute. reflexivity.
Qed.

(* Why the fork hypothesis cannot be dropped (fork(2), whatever the library does): a fork while the copied handle HOLDS
   gives the worker a twin whose flag says "held" and whose descriptor shares the parent's description -- two handles
   believe they hold; and the twin's release() unlocks the SHARED description: the parent's lock is gone while the
   parent still believes it holds, and an independent third handle is granted. *)
Example C01_fork_while_holding_not_exclusive :
  (exists s, lrun_strict gen_lock_disc own_proc linit [LStep 0 KOpen; LStep 0 (KTry true); LFork 0 1]%nat 0 = inl s
             /\ lholds s 0%nat /\ lholds s 1%nat)
  /\ (exists s, lrun_strict gen_lock_disc own_proc linit
               [LStep 0 KOpen; LStep 0 (KTry true); LFork 0 1; LStep 1 KUnlock; LStep 1 KClose;
                LStep 2 KOpen; LStep 2 (KTry true)]%nat 0 = inl s
             /\ lholds s 0%nat /\ lholds s 2%nat)
  /\ ~ forks_quiescent gen_lock_disc own_proc linit [LStep 0 KOpen; LStep 0 (KTry true); LFork 0 1]%nat.
Proof.
  split; [|split].
  - eapply DS.Proofs.ListFacts.strict_witness; [reflexivity | reflexivity | vm_compute; reflexivity|]. split; eexists; vm_compute; reflexivity.
  - eapply DS.Proofs.ListFacts.strict_witness; [reflexivity | reflexivity | vm_compute; reflexivity|]. split; eexists; vm_compute; reflexivity.
  - vm_compute. intros [_ [_ [H _]]]. discriminate.
Qed.

(* Why the per-attempt open / close of the regenerated program matters (Model/ProcLockKeep.v: the same kernel, a handle
   that KEEPS its descriptor across acquisitions): the parent uses its lock once, a worker is forked while the parent's
   handle is idle -- and inherits the kept descriptor --; then the parent takes the lock and the worker's attempt through
   the shared description is GRANTED as well (both hold, in two processes); the worker's unlock drops the parent's lock
   and an independent third handle is granted while the parent still believes it holds. *)
Example C01_kept_descriptor_not_exclusive_after_fork :
  (exists s, krun_strict gen_lock_disc own_proc linit
               [KEv (LStep 0 KOpen); KEv (LStep 0 (KTry true)); KUnlockKeep 0; KForkKeep 0 1;
                KEv (LStep 0 (KTry true)); KEv (LStep 1 (KTry true))]%nat 0 = inl s
             /\ lholds s 0%nat /\ lholds s 1%nat /\ own_proc 0%nat <> own_proc 1%nat)
  /\ (exists s, krun_strict gen_lock_disc own_proc linit
               [KEv (LStep 0 KOpen); KEv (LStep 0 (KTry true)); KUnlockKeep 0; KForkKeep 0 1;
                KEv (LStep 0 (KTry true)); KEv (LStep 1 (KTry true)); KUnlockKeep 1;
                KEv (LStep 2 KOpen); KEv (LStep 2 (KTry true))]%nat 0 = inl s
             /\ lholds s 0%nat /\ lholds s 2%nat).
Proof.
  split.
  - eapply DS.Proofs.ListFacts.strict_witness; [reflexivity | reflexivity | vm_compute; reflexivity|]. split; [eexists; vm_compute; reflexivity|].
    split; [eexists; vm_compute; reflexivity | vm_compute; discriminate].
  - eapply DS.Proofs.ListFacts.strict_witness; [reflexivity | reflexivity | vm_compute; reflexivity|]. split; eexists; vm_compute; reflexivity.
Qed.

(* Non-vacuity: a concrete schedule on the exclusive-lock configuration with a FROZEN clock in which
   a metadata-only commit (actor 1) lands between actor 0's base read and its validation: actor 0
   detects the conflict, retries and both commits are reflected in pointer order 1, 0. *)
Definition ex_cfg := {| cas := false; lockkind := Excl |}.
Definition ex_m0 := {| m_ops := []; m_cur := 1; m_lu := 100 |}.
Definition ev a k := {| e_actor := a; e_kind := k |}.
Definition ex_sched : list event :=
  [ ev 0 (EBegin 0); ev 1 (EBegin 0); ev 1 (ELockTry true); ev 1 (EValidate 0 true); ev 1 (EMetaW 100);
    ev 1 (EFence true); ev 1 (EFlip true); ev 1 ERelease;
    ev 0 (ELockTry true); ev 0 (EValidate 1 false); ev 0 ERelease;
    ev 0 (EBegin 1); ev 0 (ELockTry true); ev 0 (EValidate 1 true); ev 0 (EMetaW 100); ev 0 (EFence true);
    ev 0 (EFlip true); ev 0 ERelease ]%nat.
Example C01_nonvacuous :
  sound ex_cfg /\
  let w := run ex_cfg (init_world ex_m0 (fun a => match a with O => KFresh | _ => KKeep end) (fun _ => 50%nat)) ex_sched in
  map snd (w_hist w) = [1; 0]%nat /\ m_ops (file w (w_ptr w)) = [1; 0]%nat
  /\ a_pc (w_actors w 0%nat) = PDone Success /\ a_pc (w_actors w 1%nat) = PDone Success
  /\ run_strict ex_cfg (init_world ex_m0 (fun a => match a with O => KFresh | _ => KKeep end) (fun _ => 50%nat)) ex_sched 0 = inl w.
Proof.
  split; [right; reflexivity|]. intro w. do 4 (split; [vm_compute; reflexivity|]).
  eapply DS.Proofs.ListFacts.strict_accepted; [reflexivity | reflexivity | vm_compute; reflexivity].
Qed.

(* Non-vacuity of C01_serializable_tables / C01_snapshot_chain: the same schedule with both committers appending, read
   through Model/Meta.v with a concrete interpretation (committer a appends one file under snapshot id a+1 and writes
   metadata file a+1).  The interpretation satisfies the freshness hypothesis for EVERY duplicate-free list of
   committers, and the table the pointer names holds the two snapshots in pointer order 1, 0: ids 2 then 1, sequence
   numbers 1 then 2, the second's parent is the first. *)
Definition ex_op_of (a : aid) : Meta.op :=
  Meta.Txn [Meta.TAppend [(0, Z.of_nat a + 10)]] (Z.of_nat a + 1) 100 100 (Z.of_nat a + 1).
Example C01_snapshot_chain_hypothesis_satisfiable :
  forall l : list aid, NoDup l -> MetaSpec.fresh_ops 0 ([] ++ map ex_op_of l).
Proof.
  intros l ND. simpl.
  assert (E1 : flat_map MetaSpec.op_ids (map ex_op_of l) = map (fun a => Z.of_nat a + 1) l).
  { clear ND. induction l as [|a l IH]; simpl; [reflexivity|]. rewrite IH. reflexivity. }
  assert (E2 : map MetaSpec.op_file (map ex_op_of l) = map (fun a => Z.of_nat a + 1) l) by (rewrite map_map; reflexivity).
  assert (NDm : NoDup (map (fun a => Z.of_nat a + 1) l)) by (apply Injective_map_NoDup; [intros x y H; lia | exact ND]).
  unfold MetaSpec.fresh_ops. rewrite E1, E2. split; [exact NDm|]. split.
  - apply Forall_forall. intros x Hx. apply in_map_iff in Hx. destruct Hx as [a [<- _]]. lia.
  - constructor; [|exact NDm]. intro Hx. apply in_map_iff in Hx. destruct Hx as [a [E _]]. lia.
Qed.
Example C01_snapshot_chain_nonvacuous :
  let w := run ex_cfg (init_world ex_m0 (fun _ => KFresh) (fun _ => 50%nat)) ex_sched in
  let T := Meta.md (table_of (MetaSpec.replay 100 0 []) ex_op_of (file w (w_ptr w))) in
  map snd (w_hist w) = [1; 0]%nat
  /\ map (fun s => (Meta.sid s, Meta.seq s, Meta.parent s)) (Meta.snaps T) = [(2, 1, Some (-1)); (1, 2, Some 2)]
  /\ Meta.cur T = Some 1
  /\ table_of (MetaSpec.replay 100 0 []) ex_op_of (file w (w_ptr w)) = MetaSpec.replay 100 0 (map ex_op_of [1; 0]%nat).
Proof. vm_compute. repeat split. Qed.

(* Non-vacuity of C01_conflict_retried's budget statement: a committer with budget 1 (delete_snapshot) that loses one
   conflict reports it after exactly one attempt. *)
Example C01_budget_nonvacuous :
  let w := run ex_cfg (init_world ex_m0 (fun _ => KKeep) (fun _ => 1%nat))
             [ ev 0 (EBegin 0); ev 1 (EBegin 0); ev 1 (ELockTry true); ev 1 (EValidate 0 true); ev 1 (EMetaW 100);
               ev 1 (EFence true); ev 1 (EFlip true); ev 1 ERelease;
               ev 0 (ELockTry true); ev 0 (EValidate 1 false); ev 0 ERelease ]%nat in
  a_pc (w_actors w 0%nat) = PDone Conflict /\ a_attempt (w_actors w 0%nat) = 0%nat /\ map snd (w_hist w) = [1%nat].
Proof. vm_compute. repeat split. Qed.


(* The commit-point write FAILS (storage fault: not applied, or applied with the response lost) and the transaction decides,
   OUTSIDE the metadata lock, what to tell its caller (Model/TxSettle.v over Model/FlipFault.v; conditional-write storage).
   Every schedule of that machine (its two restrictions are spelled out below): any number of committers, faults at anybody's pointer write, other committers running to completion between
   the fault, the lock release and the transaction's decision (TSettle is a step of its own).

   STABILITY of a settle verdict.  `sound_policy pol` says the verdict agrees with the ghost `in_history` AT THE SETTLE STEP
   (a policy that looks only at the tip and is sound answers VUnknown always; the oracle policy `fun _ inh => if inh then VLanded
   else VNotLanded` is sound).  What is proved is that such a verdict STAYS true for the rest of the run: a commit reported as
   a definite failure is not reflected later either, one reported committed is, no data file of a reflected commit is deleted.
   `_partial`: TWO restrictions of the machine are hypotheses of this statement, not facts about the store:
     (1) PROMPT machine (tstep runs FlipFault.xstep_p true): no pointer write lands between an applied-and-refused write and
         its read-back;
     (2) NO LANDING AFTER UNWIND: a request that lands after its client gave up is XFlipErr placed BEFORE the sender's XUnwind;
         a PUT that lands after the transaction settled is not an event of Model/TxSettle.v.  With such an event every policy
         that ever answers VNotLanded on conditional-write storage would be unsafe (it deletes the files, then the write
         lands): the reason the source's arm answers VUnknown (next theorem).  Those landings are run against the real code only
         (harness: fault mode "inflight"). *)
Theorem C01_settle_stable_prompt_no_late_landing_partial : forall pol c atomic m0 kind mr ts, cas c = true -> sound_policy pol ->
  let T := trun pol c atomic (tinit (init_world m0 kind mr)) ts in
  forall a, let h := map snd (w_hist (xw (t_x T))) in
    (t_rep T a = Some RepFailed -> ~ In a h)
    /\ (t_rep T a = Some RepSuccess -> In a h)
    /\ (In a (t_deleted T) -> ~ In a h).
Proof. exact TxSettleProofs.settle_sound. Qed.
Print Assumptions C01_settle_stable_prompt_no_late_landing_partial.

(* The policy of the SOURCE is read off the regenerated handler table (gen_tx_on over gen_flip_exn): on conditional-write
   storage (cas = true; the local DirectorySyncError and non-CAS S3 arms have no settle statement) the arm for a failed
   commit-point write ASSERTS NOTHING: whatever the schedule, no caller of a failed commit-point write is ever told "committed"
   or "definitely failed" -- only "ambiguous" (or nothing yet) -- and no data file is deleted on this path.  (So
   `settle_consistent` holds of it trivially -- its premises never fire; that is what this theorem says, no more.) *)
Theorem C01_regenerated_settle_never_definite : forall c atomic last m0 kind mr ts, cas c = true ->
  let T := trun (gen_policy (cas c) atomic last) c atomic (tinit (init_world m0 kind mr)) ts in
  (forall a, t_rep T a = None \/ t_rep T a = Some RepAmbiguous) /\ t_deleted T = [].
Proof.
  intros c atomic last m0 kind mr ts CAS. rewrite CAS.
  apply TxSettleProofs.gen_trun_asserts_nothing, TxSettleProofs.tinit_asserts_nothing.
Qed.
Print Assumptions C01_regenerated_settle_never_definite.

(* "Is the CURRENT version ours?" is not such a policy: with it the statement is false.  Witness (a strict run, every event
   enabled): committer 0's conditional write is applied, the response lost, the lock released; committer 1 commits on top of the
   version committer 0 published; committer 0's read-back then sees committer 1's version, reports a definite failure and
   deletes its data files -- while its commit is in the chain (that every event is enabled: TxSettleProofs.tip_witness_accepted). *)
Theorem C01_tip_read_back_refuted :
  ~ (forall c atomic m0 kind mr ts, cas c = true -> settle_consistent (trun tip_policy c atomic (tinit (init_world m0 kind mr)) ts)).
Proof.
  intro F.
  specialize (F TxSettleProofs.tip_cfg false TxSettleProofs.tip_m0 (fun _ => KFresh) (fun _ => 50%nat) TxSettleProofs.tip_witness
                eq_refl 0%nat).
  cbv zeta in F. destruct F as [F _]. apply F; vm_compute; auto.
Qed.
Print Assumptions C01_tip_read_back_refuted.

(* non-vacuity: the same schedule under the regenerated policy -- accepted event by event, the settle step runs, the caller is
   told "ambiguous", nothing is deleted, the commit is in the chain *)
Example C01_settle_nonvacuous :
  match trun_strict (gen_policy true false false) TxSettleProofs.tip_cfg false
          (tinit (init_world TxSettleProofs.tip_m0 (fun _ => KFresh) (fun _ => 50%nat))) TxSettleProofs.tip_witness 0 with
  | inl T => t_rep T 0%nat = Some RepAmbiguous /\ t_deleted T = [] /\ map snd (w_hist (xw (t_x T))) = [0%nat; 1%nat]
  | inr _ => False
  end.
Proof. vm_compute. repeat split; reflexivity. Qed.
