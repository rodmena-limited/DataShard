(* Props/C20.v -- Both storage backends implement the same contract.
   Theorem statements with Print Assumptions beneath, each derived in a few lines from the general lemmas of
   Proofs/BackendProofs.v, RetryProofs.v and BackendFaultProofs.v, plus non-vacuity Examples.

   Backends  (Model/Backend.v; key mapping, listing Prefix, prefix stripping, constructor prefix and
             not-found codes are Gen/GenS3.v, regenerated from storage_backend.py on every run):
     for EVERY sequence of operations (write/read/exists/list/delete/size/mtime, open_file, read_file_with_etag, the CAS writer, and
     open_seekable followed by ANY seek/read program on its reader -- the S3RangeFile itself: the io.BufferedReader that
     open_seekable wraps around it returns the same bytes and positions but asks the store for other, larger ranges, which
     the model does not predict) over canonical keys --
     no bound on its length or on the number or shape of keys -- the S3 backend over a strongly
     consistent bucket and the local backend produce the observations of the abstract store:
     contents, existence of exact keys, table-relative listings confined to the named directory,
     sizes, not-found errors.  For S3: under EVERY configured prefix (as passed to the constructor) and
     in the presence of ANY other objects in the bucket outside the table's root.  For local: when no WRITTEN
     key is a directory of another written key (a file system cannot hold both "a" and "a/b" as files); the keys
     that are only probed (exists / read / size / mtime / delete / open) are unconstrained -- a directory of a
     written key, a path below one: both backends answer for EXACT keys only (exists false, not-found, delete no-op).
     open_seekable after ANY history answers from the key's CURRENT content (C20_open_after_history), and every
     ranged GET any open issues names an object that exists, within its size (C20_open_ranges_in_objects);
     open_seekable's wiring (which key the reader reads, whose size it is given) is Gen/GenRange.v.
   Range reader (Model/Range.v over Gen/GenRange.v: the seek / readinto / readall integer kernels are REGENERATED
     from S3RangeFile on every run): for EVERY content and EVERY seek/read program the reader returns the
     bytes and positions of a plain file, a negative target is an error, every Range it sends satisfies
     0 <= first <= last < size, at most as many requests as the program has operations (one per read: BackendProofs.rf_step_equiv).
   Retry (Model/Retry.v; budget and permanent codes from Gen/GenS3.v): transients within the budget are
     masked, a permanent / non-retryable error surfaces at once, max+1 transients raise after exactly
     max+1 attempts, a returned value or raised error is always the operation's own last outcome; every error on an
     INDEPENDENT list of definitive S3 answers (access / credentials / bucket / the request itself refused: taken from
     the S3 error-code reference, not a subset of the library's table as found) surfaces with the attempt that met it.
   Faults inside histories (Model/BackendFault.v: the retry loop composed with every backend method as the source
     wraps it; a fault plan per operation, one entry per request, injected BEFORE or AFTER the request took effect):
     C20_s3_faulty_masks_partial -- for every history, prefix, page size and foreign objects, transient faults (at most
     max_retries per operation, at any request: the PUT that landed and was answered with an error, any page of a
     listing, get_size's HEAD or any ranged GET of an open_seekable reader) change no result, PROVIDED the request that
     would be the operation's last attempt (index max_retries) is answered and CAS writes are fault-free.
     C20_s3_faulty_masks_full (the property's sentence: transient faults within the budget, NO proviso -- neither about
     which request fails nor about CAS writes) is FALSE of the code as it is, for two independent reasons:
     C20_s3_faulty_masks_refuted: a not-found answer is retried like a transient error (C20_not_found_retried;
     C20_not_found_immediate_refuted) and uses up the budget, so ONE transient error on the (max_retries+1)-th request
     of a read of a missing key surfaces instead of FileNotFoundError;  C20_s3_faulty_masks_refuted_by_cas: write_file_cas
     is not under the retry (C20_cas_put_fault_surfaces: an error on its conditional PUT surfaces with that request, and the
     object is written when the error came after the effect).  Each proviso of _partial is needed on its own:
     C20_s3_faulty_masks_modulo_cas_refuted (CAS fault-free only), C20_s3_faulty_masks_modulo_last_attempt_refuted (last
     attempt answered only). *)
From Coq Require Import List String QArith Lia.
Require Import DS.Model.Str DS.Gen.GenS3 DS.Gen.GenRange DS.Model.Backend DS.Model.BackendTrace DS.Model.Range DS.Model.Retry DS.Model.Paged DS.Model.BackendFault.
Require Import DS.Proofs.BackendProofs DS.Proofs.RetryProofs DS.Proofs.BackendFaultProofs.
Require DS.Proofs.StrProofs.
Import ListNotations.
Open Scope nat_scope.

Theorem C20_refine_s3 : forall (raw_prefix : str) (F : bucket) (ops : list (op key)),
  foreign_ok (gen_init_prefix raw_prefix) F -> Forall wf_op ops ->
  run_s3 raw_prefix F ops = run_spec ops.
Proof. exact refine_s3. Qed.
Print Assumptions C20_refine_s3.

(* only the WRITTEN keys are constrained; a probe may name a directory of a written key or a path below one *)
Theorem C20_refine_local : forall (ops : list (op key)),
  Forall wf_op ops -> prefix_free (written_keys ops) ->
  run_local ops = run_spec ops.
Proof. exact refine_local. Qed.
Print Assumptions C20_refine_local.

Theorem C20_backends_agree : forall (raw_prefix : str) (F : bucket) (ops : list (op key)),
  foreign_ok (gen_init_prefix raw_prefix) F -> Forall wf_op ops -> prefix_free (written_keys ops) ->
  run_s3 raw_prefix F ops = run_local ops.
Proof. intros. rewrite refine_s3, refine_local by assumption. reflexivity. Qed.
Print Assumptions C20_backends_agree.

(* the table-absolute spelling of a key ("/data/x", as manifests spell data files) names the same key in
   both backends, for every operation and any number of leading slashes *)
Theorem C20_leading_slash_same : forall (pfx : str) (b : bucket) (s : lstate) (n : nat) (o : op key),
  wf_op o ->
  s3_step pfx b (map_op (abs_join n) o) = s3_step pfx b (map_op join o)
  /\ local_step_str s (map_op (abs_join n) o) = local_step_str s (map_op join o).
Proof.
  intros pfx b s n o Hw. split; [exact (s3_step_abs pfx b n o Hw)|].
  rewrite (local_step_str_abs s n o Hw), (local_step_str_join s o Hw). reflexivity.
Qed.
Print Assumptions C20_leading_slash_same.

(* open_seekable(k) on the S3 backend after ANY history on it -- writes, overwrites, deletes, earlier opens of the
   same or other keys, in any order and number: the program sees exactly what it would see on a plain file holding
   the content k has NOW, and the call raises FileNotFoundError exactly when k holds nothing now *)
Theorem C20_open_after_history : forall (raw_prefix : str) (F : bucket) (ops : list (op key)) (k : key) (prog : list rop),
  foreign_ok (gen_init_prefix raw_prefix) F -> Forall wf_op ops -> wf_key k -> Forall wf_rop prog ->
  run_s3 raw_prefix F (ops ++ [Open k prog]) =
  run_spec ops ++ [match lookup key_eqb k (spec_store ops) with Some v => file_obs v prog | None => OErr NotFound end].
Proof.
  intros raw F ops k prog HF Hops Hk Hprog. rewrite refine_s3; [|exact HF|].
  - unfold run_spec, spec_store. rewrite run_app. reflexivity.
  - apply Forall_app. split; [exact Hops|]. constructor; [split; assumption|constructor].
Qed.
Print Assumptions C20_open_after_history.

(* "requesting only in-range bytes", inside histories: every ranged GET the model's reader (the S3RangeFile, driven directly)
   issues in any history names an object that exists in the bucket at that moment and lies within its size *)
Theorem C20_open_ranges_in_objects : forall (page : nat) (raw_prefix : str) (F : bucket) (ops : list (op key)),
  foreign_ok (gen_init_prefix raw_prefix) F -> Forall wf_op ops ->
  ranges_in_objects page (gen_init_prefix raw_prefix) F (map (map_op join) ops).
Proof.
  (* holds on every bucket: a reader is opened with the size of what its key holds at that moment *)
  intros page raw F ops _ Hops. exact (s3_ranges_run page (gen_init_prefix raw) ops F Hops).
Qed.
Print Assumptions C20_open_ranges_in_objects.

Theorem C20_range_equiv : forall (A : Type) (content : list A) (prog : list rop), Forall wf_rop prog ->
  let '(obs, final, ranges) := run_rf content 0 prog in
  run_file content 0 prog = (obs, final)
  /\ Forall (fun r => (0 <= fst r /\ fst r <= snd r /\ snd r < zlen content)%Z) ranges
  /\ List.length ranges <= List.length prog.
Proof. exact @range_equiv. Qed.
Print Assumptions C20_range_equiv.

Theorem C20_range_negative_seek : forall (A : Type) (content : list A) (pos off : Z) (w : whence) (new : Z),
  seek_target (zlen content) pos off w = Some new -> (new < 0)%Z ->
  rf_step content pos (Seek off w) = (pos, RErr, []).
Proof.
  intros A content pos off w new H Hneg. unfold rf_step. cbn [rf_step_on]. rewrite rf_seek_file. unfold do_seek. rewrite H.
  apply Z.ltb_lt in Hneg. rewrite Hneg. reflexivity.
Qed.
Print Assumptions C20_range_negative_seek.

(* a whence that is none of SEEK_SET / SEEK_CUR / SEEK_END is refused by the regenerated seek, whatever its value *)
Theorem C20_seek_invalid_whence : forall (pos size off c : Z), c <> 0%Z -> c <> 1%Z -> c <> 2%Z ->
  gen_rf_seek pos size off c = None.
Proof.
  intros pos size off c H0 H1 H2. unfold gen_rf_seek.
  apply Z.eqb_neq in H0. apply Z.eqb_neq in H1. apply Z.eqb_neq in H2. rewrite H0, H1, H2. reflexivity.
Qed.
Print Assumptions C20_seek_invalid_whence.

Theorem C20_retry_masks : forall (V E : Type) (max : nat) (es : list E) (v : V) (rest : list (outcome V E)),
  List.length es <= max ->
  retry max (map (@Transient V E) es ++ Good v :: rest) = (Returned v, S (List.length es)).
Proof. intros V E max es v rest H. rewrite (retry_skip es max) by exact H. reflexivity. Qed.
Print Assumptions C20_retry_masks.

Theorem C20_retry_permanent : forall (V E : Type) (max : nat) (es : list E) (e : E) (rest : list (outcome V E)),
  List.length es <= max ->
  retry max (map (@Transient V E) es ++ Permanent e :: rest) = (Raised e, S (List.length es)).
Proof. intros V E max es e rest H. rewrite (retry_skip es max) by exact H. reflexivity. Qed.
Print Assumptions C20_retry_permanent.

Theorem C20_retry_nonretryable : forall (V E : Type) (max : nat) (es : list E) (e : E) (rest : list (outcome V E)),
  List.length es <= max ->
  retry max (map (@Transient V E) es ++ NonRetryable e :: rest) = (Raised e, S (List.length es)).
Proof. intros V E max es e rest H. rewrite (retry_skip es max) by exact H. reflexivity. Qed.
Print Assumptions C20_retry_nonretryable.

Theorem C20_retry_exhaust : forall (V E : Type) (max : nat) (es : list E) (e : E) (rest : list (outcome V E)),
  List.length es = max ->
  retry max (map (@Transient V E) es ++ Transient e :: rest) = (Raised e, S max).
Proof.
  intros V E max es e rest H. rewrite (retry_skip es max) by lia. rewrite H, Nat.sub_diag. reflexivity.
Qed.
Print Assumptions C20_retry_exhaust.

(* never a swallowed or invented value / error, for EVERY outcome script *)
Theorem C20_retry_returns_own_value : forall (V E : Type) (max : nat) (outs : list (outcome V E)) (v : V) (n : nat),
  retry max outs = (Returned v, n) ->
  exists es rest, outs = map (@Transient V E) es ++ Good v :: rest /\ n = S (List.length es) /\ List.length es <= max.
Proof.
  intros V E max outs v n H. destruct (retry_spec max outs _ _ H) as [[Hr _]|[es [last [rest [Ho [Hn [Hb Hl]]]]]]]; [discriminate|].
  (* Permanent / NonRetryable: Hl equates Returned with Raised; Transient: Hl is a conjunction whose first half does *)
  destruct last as [v'|e|e|e]; try discriminate; try (destruct Hl; discriminate).
  injection Hl as <-. exists es, rest. auto.
Qed.
Print Assumptions C20_retry_returns_own_value.

Theorem C20_retry_raises_own_error : forall (V E : Type) (max : nat) (outs : list (outcome V E)) (e : E) (n : nat),
  retry max outs = (Raised e, n) ->
  exists es last rest, outs = map (@Transient V E) es ++ last :: rest /\ n = S (List.length es) /\
    (last = Permanent e \/ last = NonRetryable e \/ (last = Transient e /\ List.length es = max)).
Proof.
  intros V E max outs e n H. destruct (retry_spec max outs _ _ H) as [[Hr _]|[es [last [rest [Ho [Hn [Hb Hl]]]]]]]; [discriminate|].
  exists es, last, rest. split; [exact Ho|]. split; [exact Hn|].
  destruct last as [v'|e'|e'|e']; try discriminate.
  - destruct Hl as [Hl1 Hl2]. injection Hl1 as <-. auto.
  - injection Hl as <-. auto.
  - injection Hl as <-. auto.
Qed.
Print Assumptions C20_retry_raises_own_error.

(* the same for with_s3_retry: the source's max_retries and PERMANENT_S3_ERROR_CODES, real exception classes *)
Theorem C20_s3_retry_masks : forall (V : Type) (es : list exn) (v : V) (rest : list (V + exn)),
  Forall transient_exn es -> List.length es <= gen_max_retries ->
  with_s3_retry (map inr es ++ inl v :: rest) = (Returned v, S (List.length es)).
Proof.
  intros V es v rest Ht Hl. unfold with_s3_retry. rewrite map_app, (classify_transients es Ht). apply C20_retry_masks. exact Hl.
Qed.
Print Assumptions C20_s3_retry_masks.

Theorem C20_s3_retry_permanent : forall (V : Type) (es : list exn) (e : exn) (rest : list (V + exn)),
  Forall transient_exn es -> List.length es <= gen_max_retries -> permanent_exn e ->
  with_s3_retry (map inr es ++ inr e :: rest) = (Raised e, S (List.length es)).
Proof.
  intros V es e rest Ht Hl He. unfold with_s3_retry. rewrite map_app, (classify_transients es Ht). cbn [map].
  rewrite (classify_permanent e He). apply C20_retry_permanent. exact Hl.
Qed.
Print Assumptions C20_s3_retry_permanent.

Theorem C20_s3_retry_exhaust : forall (V : Type) (es : list exn) (e : exn) (rest : list (V + exn)),
  Forall transient_exn es -> List.length es = gen_max_retries -> transient_exn e ->
  with_s3_retry (map inr es ++ inr e :: rest) = (Raised e, S gen_max_retries).
Proof.
  intros V es e rest Ht Hl He. unfold with_s3_retry. rewrite map_app, (classify_transients es Ht). cbn [map].
  rewrite (classify_transient e He). apply C20_retry_exhaust. exact Hl.
Qed.
Print Assumptions C20_s3_retry_exhaust.

(* an error on the independent list of definitive S3 answers (Model/Retry.v definitive_codes, from the S3 error-code
   reference and not from the library's table: not authorised, wrong credentials, no such bucket, AND the request itself
   refused -- InvalidArgument, InvalidRequest, InvalidURI, KeyTooLongError, InvalidRange, MethodNotAllowed) surfaces with the
   attempt that met it, whatever transient errors preceded it.  The proof checks every code of the list against the
   REGENERATED table: it holds only of a library whose table contains them all *)
Theorem C20_s3_retry_definitive : forall (V : Type) (es : list exn) (e : exn) (rest : list (V + exn)),
  Forall transient_exn es -> List.length es <= gen_max_retries -> definitive e = true ->
  with_s3_retry (map inr es ++ inr e :: rest) = (Raised e, S (List.length es)).
Proof. intros V es e rest Ht Hl He. apply C20_s3_retry_permanent; [exact Ht|exact Hl|apply definitive_permanent; exact He]. Qed.
Print Assumptions C20_s3_retry_definitive.

Theorem C20_s3_faulty_masks_partial : forall (page : nat) (raw_prefix : str) (F : bucket) (ops : list (op key)) (plans : list fplan),
  foreign_ok (gen_init_prefix raw_prefix) F -> Forall wf_op ops -> plans_ok gen_max_retries ops plans ->
  run_s3_f page raw_prefix F ops plans = map inl (run_spec ops).
Proof.
  intros page raw F ops plans HF Hops Hpl. unfold run_s3_f. rewrite (run_f_masks _ _ _ ops F plans Hops Hpl).
  f_equal. exact (refine_s3 raw F ops HF Hops).
Qed.
Print Assumptions C20_s3_faulty_masks_partial.

(* the property's statement -- "transient S3 errors within the retry budget are masked without changing results": transient
   faults, at most max_retries per operation, whichever operation (the CAS writer too) and whichever request they hit --
   is false of the code as it is, for two independent reasons *)
Definition C20_s3_faulty_masks_full : Prop :=
  forall (page : nat) (raw_prefix : str) (F : bucket) (ops : list (op key)) (plans : list fplan),
  foreign_ok (gen_init_prefix raw_prefix) F -> Forall wf_op ops -> plans_budget gen_max_retries plans ->
  run_s3_f page raw_prefix F ops plans = map inl (run_spec ops).

(* reason 1: a not-found answer is retried and uses up the budget (read of a key that holds nothing, one transient error
   on request max_retries+1) *)
Theorem C20_s3_faulty_masks_refuted : ~ C20_s3_faulty_masks_full.
Proof.
  intro H. specialize (H 2 [] [] refute_ops refute_plans). rewrite refute_run in H.
  discriminate H; [intros k []|exact refute_wf|exact refute_budget].
Qed.
Print Assumptions C20_s3_faulty_masks_refuted.

(* reason 2: write_file_cas is not under the retry (one transient error on its conditional PUT surfaces) *)
Theorem C20_s3_faulty_masks_refuted_by_cas : ~ C20_s3_faulty_masks_full.
Proof.
  intro H. specialize (H 2 [] [] refute_cas_ops refute_cas_plans). rewrite refute_cas_run in H.
  discriminate H; [intros k []|exact refute_cas_wf|exact refute_cas_budget].
Qed.
Print Assumptions C20_s3_faulty_masks_refuted_by_cas.

(* C20_s3_faulty_masks_partial carries two provisos; with only ONE of them the statement is still false:
   (a) CAS writes fault-free, no proviso about which request fails *)
Definition C20_s3_faulty_masks_full_modulo_cas : Prop :=
  forall (page : nat) (raw_prefix : str) (F : bucket) (ops : list (op key)) (plans : list fplan),
  foreign_ok (gen_init_prefix raw_prefix) F -> Forall wf_op ops -> plans_within gen_max_retries ops plans ->
  run_s3_f page raw_prefix F ops plans = map inl (run_spec ops).

Theorem C20_s3_faulty_masks_modulo_cas_refuted : ~ C20_s3_faulty_masks_full_modulo_cas.
Proof.
  intro H. specialize (H 2 [] [] refute_ops refute_plans). rewrite refute_run in H.
  discriminate H; [intros k []|exact refute_wf|exact refute_within].
Qed.
Print Assumptions C20_s3_faulty_masks_modulo_cas_refuted.

(* (b) the request with index max_retries of every operation answered, CAS writes treated like every other operation *)
Definition C20_s3_faulty_masks_full_modulo_last_attempt : Prop :=
  forall (page : nat) (raw_prefix : str) (F : bucket) (ops : list (op key)) (plans : list fplan),
  foreign_ok (gen_init_prefix raw_prefix) F -> Forall wf_op ops -> plans_budget gen_max_retries plans ->
  Forall (fun pl => nth gen_max_retries pl None = None) plans ->
  run_s3_f page raw_prefix F ops plans = map inl (run_spec ops).

Theorem C20_s3_faulty_masks_modulo_last_attempt_refuted : ~ C20_s3_faulty_masks_full_modulo_last_attempt.
Proof.
  intro H. specialize (H 2 [] [] refute_cas_ops refute_cas_plans). rewrite refute_cas_run in H.
  discriminate H; [intros k []|exact refute_cas_wf|exact refute_cas_budget|repeat constructor].
Qed.
Print Assumptions C20_s3_faulty_masks_modulo_last_attempt_refuted.

Theorem C20_not_found_retried : forall (page : nat) (pfx : str) (b : bucket) (p : str),
  has str_eqb (gen_get_s3_key pfx p) b = false ->
  s3_trace page pfx b (Read p) = repeat (RGet (gen_get_s3_key pfx p)) (S gen_max_retries)
  /\ s3_trace page pfx b (Size p) = repeat (RHead (gen_get_s3_key pfx p)) (S gen_max_retries).
Proof. intros page pfx b p H. cbn [s3_trace]. rewrite H. split; reflexivity. Qed.
Print Assumptions C20_not_found_retried.

Definition C20_not_found_immediate_full : Prop :=
  forall (page : nat) (pfx : str) (b : bucket) (p : str),
  has str_eqb (gen_get_s3_key pfx p) b = false -> s3_trace page pfx b (Read p) = [RGet (gen_get_s3_key pfx p)].

Theorem C20_not_found_immediate_refuted : ~ C20_not_found_immediate_full.
Proof.
  intro H. specialize (H 2 [] [] (lit "x") eq_refl).
  rewrite (proj1 (C20_not_found_retried 2 [] [] (lit "x") eq_refl)) in H. discriminate H.
Qed.
Print Assumptions C20_not_found_immediate_refuted.

Theorem C20_cas_put_fault_surfaces : forall (budget page : nat) (pfx : str) (b : bucket) (p : str) (cur v : bytes) (w : fwhen) (e : exn) (rest : fplan),
  lookup str_eqb (gen_get_s3_key pfx p) b = Some cur ->
  (match e with ClientError c => member c gen_cas_conflict_codes = false | _ => True end) ->
  s3_step_f budget page pfx b (WriteCas p v) (None :: Some (w, e) :: rest)
  = (match w with FBefore => b | FAfter => s3_put_object b (gen_get_s3_key pfx p) v end, rest, inr e).
Proof.
  intros budget page pfx b p cur v w e rest El He. cbn [s3_step_f]. cbv zeta.
  assert (retry_f budget (att_get gen_code_readtag_notfound (gen_get_s3_key pfx p)) b (None :: Some (w, e) :: rest)
          = (inl cur, b, Some (w, e) :: rest)) as E.
  { destruct budget; cbn [retry_f att_get amap request]; unfold raw_get, s3_get_object; rewrite El; reflexivity. }
  rewrite E. cbn [request]. unfold s3_put_if. rewrite El. cbn [tag_matches]. rewrite StrProofs.str_eqb_refl.
  destruct w; destruct e; try reflexivity; rewrite He; reflexivity.
Qed.
Print Assumptions C20_cas_put_fault_surfaces.

(* faults inside a paginated listing:
   list_files = with_s3_retry around the WHOLE listing (fresh result list and paginator per attempt).
   For EVERY page structure, EVERY fault plan over the requests of all attempts (a fault may hit the
   first page or any later page of any attempt) with only transient faults, at most `budget` of them:
   the result is exactly the fault-free listing -- no page lost, none duplicated. *)
Theorem C20_paged_listing_masks : forall (A : Type) (budget : nat) (pages : list (list A)) (pl : list (option fault)),
  all_transient pl -> nfaults pl <= budget ->
  fst (paged_list budget pages pl) = Returned (List.concat pages).
Proof.
  intros A budget pages pl Ht Hn. unfold paged_list.
  destruct (script_shape (S budget) pages pl Ht) as [es [rest [Hl E]]]; [lia|].
  rewrite E, (retry_skip es budget) by lia. reflexivity.
Qed.
Print Assumptions C20_paged_listing_masks.

(* a permanent error on the request for page i surfaces with that very request (i+1 requests in all) *)
Theorem C20_paged_listing_permanent : forall (A : Type) (budget : nat) (pages : list (list A)) (i : nat) (rest : list (option fault)),
  i < List.length pages ->
  paged_list budget pages (repeat None i ++ Some FPermanent :: rest) = (Raised FPermanent, S i).
Proof.
  intros A budget pages i rest H. unfold paged_list. rewrite script_S, (attempt_clean_prefix i pages FPermanent rest [] H).
  cbn [map fst outcome_of retry firstn snd fold_right]. rewrite Nat.add_0_r. reflexivity.
Qed.
Print Assumptions C20_paged_listing_permanent.

(* A table under prefix "wh/t1/" in a bucket that also holds a sibling table "wh/t10" and a stray
   object "wh/t1" : sibling-prefix keys data/x, data2/x, database, metadata/..., a delete, and listings
   of "data", "metadata", "" and "dat".  The hypotheses hold, and the S3 run gives the listed
   observations: list("data") = [data/x] only. *)
Definition k (x : string) : key := components (lit x).
Definition ex_F : bucket := [(lit "wh/t10/data/y", lit "other"); (lit "wh/t1", lit "stray"); (lit "zz", [])].
Definition ex_ops : list (op key) :=
  [ Write (k "data/x") (lit "abc"); Write (k "data2/x") (lit "de"); Write (k "database") (lit "f");
    Write (k "metadata/v1.metadata.json") (lit "{}"); Write (k "metadata.version-hint.text") (lit "1");
    ListDir (k "data"); ListDir (k "metadata"); ListDir (k "dat"); Exists (k "data/x"); Exists (k "data/y");
    Size (k "data2/x"); Delete (k "data2/x"); Read (k "data2/x"); ListDir (k ""); Read (k "data/x");
    Open (k "data/x") [Seek (-2) SeekEnd; ReadInto 5; Seek (-9) SeekCur; Tell];
    Open (k "data2/x") [ReadAll];                                  (* deleted above *)
    Write (k "data/x") (lit "z"); Open (k "data/x") [Seek 0 SeekEnd; Seek 0 SeekSet; ReadAll]; Stream (k "database");
    (* probes of names that are not keys: a directory of written keys, a path below a written key *)
    Exists (k "data"); Size (k "data"); Delete (k "data"); Mtime (k "metadata"); Read (k "data"); Open (k "data") [ReadAll];
    Read (k "database/z"); Exists (k "database/z"); Exists (k "data/x") ].

Example C20_nonvacuous :
  foreign_ok (gen_init_prefix (lit "wh/t1/")) ex_F
  /\ Forall wf_op ex_ops
  /\ prefix_free (written_keys ex_ops) /\ ~ prefix_free (op_keys ex_ops)
  /\ run_s3 (lit "wh/t1/") ex_F ex_ops =
     [ OUnit; OUnit; OUnit; OUnit; OUnit;
       OList [lit "data/x"]; OList [lit "metadata/v1.metadata.json"]; OList []; OBool true; OBool false;
       OSize 2%Z; OUnit; OErr NotFound;
       OList [lit "data/x"; lit "database"; lit "metadata/v1.metadata.json"; lit "metadata.version-hint.text"];
       OBytes (lit "abc");
       OOpened [RPos 1; RData (lit "bc"); RErr; RPos 3] 3; OErr NotFound;
       OUnit; OOpened [RPos 1; RPos 0; RData (lit "z")] 1; OBytes (lit "f");
       OBool false; OErr NotFound; OUnit; OErr NotFound; OErr NotFound; OErr NotFound; OErr NotFound; OBool false; OBool true ]
  /\ run_local ex_ops = run_s3 (lit "wh/t1/") ex_F ex_ops.
Proof.
  assert (foreign_ok (gen_init_prefix (lit "wh/t1/")) ex_F) as HF by (apply foreign_okb_sound; vm_compute; reflexivity).
  assert (Forall wf_op ex_ops) as Hops by (apply wf_opsb_sound; vm_compute; reflexivity).
  assert (prefix_free (written_keys ex_ops)) as Hpf by (apply prefix_freeb_sound; vm_compute; reflexivity).
  split; [exact HF|]. split; [exact Hops|]. split; [exact Hpf|].
  split.
  - (* the probed name "data" is a directory of the written key "data/x" *)
    intro H. assert (under (k "data") (k "data/x") = false) as E by (apply H; apply kmem_In; vm_compute; reflexivity).
    vm_compute in E. discriminate E.
  - split; [vm_compute; reflexivity|]. symmetry. exact (C20_backends_agree _ _ _ HF Hops Hpf).
Qed.

(* faults: a history whose plans satisfy the theorem's hypothesis -- a PUT that landed and was answered with an error,
   then failed once more before the request; transient errors on a read, on exists, on the second page of a listing,
   on get_size's HEAD and on a ranged GET of a reader, on a delete after its effect; a read of a missing key with two
   faults among its first attempts -- and the run gives the contract's results *)
Definition exf_ops : list (op key) :=
  [ Write (k "data/x") (lit "abc"); Write (k "data/y") (lit "de"); Write (k "data/z") (lit "f");
    Read (k "data/x"); Exists (k "data/y"); ListDir (k "data");
    Open (k "data/x") [Seek (-2) SeekEnd; ReadInto 5; Tell]; Delete (k "data/y"); Read (k "data/y"); Size (k "data/x") ].
Definition slow : exn := ClientError (lit "SlowDown").
Definition exf_plans : list fplan :=
  [ [Some (FAfter, slow); Some (FBefore, OSErr)]; []; [Some (FAfter, BotoCoreErr)];
    [Some (FBefore, slow); Some (FAfter, ClientError (lit "InternalError"))]; [Some (FAfter, slow)]; [None; Some (FBefore, slow); None; Some (FAfter, OSErr)];
    [Some (FBefore, slow); None; Some (FAfter, slow); Some (FBefore, slow)]; [Some (FAfter, slow)];
    [None; Some (FBefore, slow); None; Some (FAfter, slow)]; [] ].

Example C20_nonvacuous_faults :
  plans_ok gen_max_retries exf_ops exf_plans
  /\ run_s3_f 2 (lit "wh/t1") ex_F exf_ops exf_plans =
     map inl [ OUnit; OUnit; OUnit; OBytes (lit "abc"); OBool true; OList [lit "data/x"; lit "data/y"; lit "data/z"];
               OOpened [RPos 1; RData (lit "bc"); RPos 3] 3; OUnit; OErr NotFound; OSize 3%Z ]
  /\ run_spec exf_ops = [ OUnit; OUnit; OUnit; OBytes (lit "abc"); OBool true; OList [lit "data/x"; lit "data/y"; lit "data/z"];
                          OOpened [RPos 1; RData (lit "bc"); RPos 3] 3; OUnit; OErr NotFound; OSize 3%Z ].
Proof. split; [apply plans_okb_sound; vm_compute; reflexivity|]. split; vm_compute; reflexivity. Qed.

(* the refutation's witness (BackendFaultProofs.refute_ops / refute_plans), spelled out: 5 answered requests, then one
   transient error *)
Example C20_nonvacuous_refutation :
  plans_within gen_max_retries [Read (k "x")] [[None; None; None; None; None; Some (FBefore, slow)]]
  /\ plans_budget gen_max_retries [[None; None; None; None; None; Some (FBefore, slow)]]
  /\ run_s3_f 2 [] [] [Read (k "x")] [[None; None; None; None; None; Some (FBefore, slow)]] = [inr slow]
  /\ run_spec [Read (k "x")] = [OErr NotFound]
  /\ definitive (ClientError (lit "AccessDenied")) = true /\ definitive (ClientError (lit "KeyTooLongError")) = true
  /\ definitive slow = false /\ definitive (ClientError (lit "RequestTimeout")) = false /\ definitive (ClientError (lit "NoSuchKey")) = false.
Proof.
  split; [exact refute_within|]. split; [exact refute_budget|]. split; [exact refute_run|].
  repeat split; vm_compute; reflexivity.
Qed.

(* the second witness (refute_cas_ops / refute_cas_plans): the CAS writer after a write of the same key, one transient
   error on the conditional PUT (plan within the budget, the request with index max_retries answered): the error surfaces
   where the contract says the write succeeds *)
Example C20_nonvacuous_refutation_cas :
  plans_budget gen_max_retries [[]; [None; Some (FBefore, slow)]]
  /\ Forall (fun pl => nth gen_max_retries pl None = None) [[]; [None; Some (FBefore, slow)]]
  /\ ~ plans_within gen_max_retries [Write (k "x") (lit "old"); WriteCas (k "x") (lit "new")] [[]; [None; Some (FBefore, slow)]]
  /\ run_s3_f 2 [] [] [Write (k "x") (lit "old"); WriteCas (k "x") (lit "new")] [[]; [None; Some (FBefore, slow)]] = [inl OUnit; inr slow]
  /\ run_spec [Write (k "x") (lit "old"); WriteCas (k "x") (lit "new")] = [OUnit; OUnit].
Proof.
  split; [exact refute_cas_budget|]. split; [repeat constructor|].
  split; [intros [_ [[_ [_ H]] _]]; vm_compute in H; discriminate H|]. split; [exact refute_cas_run|vm_compute; reflexivity].
Qed.

(* the requests of write -> open_seekable+program -> delete -> open_seekable under prefix "wh/t1": one HEAD and one
   ranged GET (bytes 1-2 of the 3-byte object) for the first open; for the open after the delete only get_size's
   HEADs (the FileNotFoundError is retried max_retries times) and NO ranged GET *)
Example C20_nonvacuous_open_requests :
  run_trace 2 (gen_init_prefix (lit "wh/t1")) ex_F
    (map (map_op join) [Write (k "data/x") (lit "abc"); Open (k "data/x") [Seek (-2) SeekEnd; ReadInto 5];
                        Delete (k "data/x"); Open (k "data/x") [ReadAll]])
  = [ [RPut (lit "wh/t1/data/x")]; [RHead (lit "wh/t1/data/x"); RGetR (lit "wh/t1/data/x") 1 2];
      [RDelete (lit "wh/t1/data/x")]; repeat (RHead (lit "wh/t1/data/x")) (S gen_max_retries) ].
Proof. vm_compute. reflexivity. Qed.

(* a range program and a retry script inside the theorems' domains, with their concrete results *)
Example C20_nonvacuous_range :
  Forall wf_rop [Seek (-2) SeekEnd; ReadInto 5; Seek (-9) SeekCur; ReadAll; Seek 1 SeekSet; ReadInto 2]
  /\ run_rf [10; 11; 12; 13]%Z 0 [Seek (-2) SeekEnd; ReadInto 5; Seek (-9) SeekCur; ReadAll; Seek 1 SeekSet; ReadInto 2]
     = ([RPos 2; RData [12; 13]; RErr; RData []; RPos 1; RData [11; 12]], 3, [(2, 3); (1, 2)])%Z.
Proof. split; [repeat constructor; simpl; lia|vm_compute; reflexivity]. Qed.

Example C20_nonvacuous_retry :
  Forall transient_exn [ClientError (lit "SlowDown"); OSErr; BotoCoreErr; ClientError (lit "NoSuchKey"); OSErr]
  /\ permanent_exn (ClientError (lit "AccessDenied"))
  /\ with_s3_retry (map inr [ClientError (lit "SlowDown"); OSErr; BotoCoreErr; ClientError (lit "NoSuchKey"); OSErr] ++ [inl 7%Z])
     = (Returned 7%Z, 6)
  /\ with_s3_retry (V := Z) [inr OSErr; inr (ClientError (lit "AccessDenied")); inl 7%Z] = (Raised (ClientError (lit "AccessDenied")), 2).
Proof. repeat split; try (vm_compute; reflexivity). repeat constructor. Qed.

(* three pages; the second page fails on the first attempt, the third page on the second attempt:
   the listing is still [1;2;3;4;5], after 2 + 3 + 3 requests *)
Example C20_nonvacuous_paged :
  all_transient [None; Some FTransient; None; None; Some FTransient]
  /\ nfaults [None; Some FTransient; None; None; Some FTransient] <= gen_max_retries
  /\ paged_list gen_max_retries [[1; 2]; [3; 4]; [5]]%Z [None; Some FTransient; None; None; Some FTransient]
     = (Returned [1; 2; 3; 4; 5]%Z, 8).
Proof.
  split; [intros f [H|[H|[H|[H|[H|[]]]]]]; congruence|]. split; vm_compute; [lia|reflexivity].
Qed.

(* write_file_cas on a key that holds "old", the tag read (one GET), then the conditional PUT answered with a transient
   error AFTER it landed: the error surfaces at once (no second PUT) and the object holds the new content *)
Example C20_nonvacuous_cas :
  s3_step_f gen_max_retries 2 (lit "p") [(lit "p/k", lit "old")] (WriteCas (lit "k") (lit "new")) [None; Some (FAfter, slow)]
  = ([(lit "p/k", lit "new")], [], inr slow)
  /\ s3_step_f gen_max_retries 2 (lit "p") [(lit "p/k", lit "old")] (WriteCas (lit "k") (lit "new")) [None; Some (FBefore, slow)]
  = ([(lit "p/k", lit "old")], [], inr slow).
Proof. split; vm_compute; reflexivity. Qed.
