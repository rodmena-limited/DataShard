(* Props/C04.v -- A failed, interrupted or ambiguous commit never damages committed data.
   The invariant of the file plane and its preservation are in Proofs/FaultProofs.v, the tail machine in Proofs/TailProofs.v.

   Event lists range over: protocol steps of any number of transactions (Commit.v), FWrite (a
   transaction writes a fresh data file / manifest / manifest list), EAbort (an exception or an
   asynchronous KeyboardInterrupt / SystemExit escapes at ANY step boundary -- before the base read,
   while preparing, under the lock, between the metadata write and the flip, after the flip during
   lock release or marker cleanup), ECrash, and FRollback (the code's _rollback(delete_files=True)).
   Every fault SEQUENCE (not only single faults) is an event list. *)
From Coq Require Import ZArith List.
Require Import DS.Model.CommitBase DS.Model.TailBase DS.Gen.GenCommit DS.Gen.GenTail DS.Model.Commit DS.Model.Fault DS.Model.Tail
               DS.Proofs.CommitGenProofs DS.Proofs.CommitProofs DS.Proofs.FaultProofs DS.Proofs.TailProofs.
Import ListNotations.

(* In every case each file referenced by any committed version (hence by any retained snapshot)
   is still present. *)
Theorem C04_no_damage : forall c m0 kind mr r0 next evs,
  sound c -> (forall f, In f r0 -> (f < next)%nat) ->
  let x := frun c (finit m0 kind mr r0 next) evs in
  forall v, In v (committed (fw x)) -> forall f, In f (refs x v) -> In f (f_present x).
Proof. intros c m0 kind mr r0 next evs Snd A x. apply (finv_present c), reach_finv; assumption. Qed.
Print Assumptions C04_no_damage.

(* The transaction's uncommitted files never become reachable. *)
Theorem C04_unreachable : forall c m0 kind mr r0 next evs,
  sound c -> (forall f, In f r0 -> (f < next)%nat) ->
  let x := frun c (finit m0 kind mr r0 next) evs in
  forall a, flipped (pcof x a) = false -> forall f, In f (f_written x a) ->
  forall v, In v (committed (fw x)) -> ~ In f (refs x v).
Proof. intros c m0 kind mr r0 next evs Snd A x. apply (finv_unreachable c), reach_finv; assumption. Qed.
Print Assumptions C04_unreachable.

(* The table stays writable: the commit invariant holds after any faulty run, so the
   serializability theorems (C01) apply to every continuation. *)
Theorem C04_liveness : forall c m0 kind mr r0 next evs,
  sound c -> (forall f, In f r0 -> (f < next)%nat) -> Inv c (fw (frun c (finit m0 kind mr r0 next) evs)).
Proof. intros c m0 kind mr r0 next evs Snd _. apply (Lin_inv c m0), frun_linear. exact Snd. Qed.
Print Assumptions C04_liveness.

(* Files are deleted only by a transaction that has ended without ever flipping the pointer
   (in particular never after an ambiguous or post-flip failure). *)
Theorem C04_delete_only_unflipped : forall c x a x',
  fstep c x (FRollback a) = Some x' -> flipped (pcof x a) = false /\ (exists o, pcof x a = PDone o).
Proof.
  intros c x a x'. simpl. unfold pcof.
  destruct (a_pc (w_actors (fw x) a)) as [| | | | | | | |[]]; simpl; intro H; try discriminate; split; eauto.
Qed.
Print Assumptions C04_delete_only_unflipped.

(* Pre- or post-state: a transaction's operation is part of the table iff its pointer flip
   happened, exactly once, whatever failed before or after. *)
Theorem C04_pre_or_post : forall c m0 kind mr r0 next evs,
  sound c -> (forall f, In f r0 -> (f < next)%nat) ->
  let w := fw (frun c (finit m0 kind mr r0 next) evs) in
  NoDup (map snd (w_hist w))
  /\ forall a, (In a (map snd (w_hist w)) <-> flipped (a_pc (w_actors w a)) = true).
Proof.
  intros c m0 kind mr r0 next evs Snd _ w. assert (I : Inv c w) by (apply (Lin_inv c m0), frun_linear; exact Snd).
  split; [apply I | intro a; symmetry; apply (Inv_acked c w a I)].
Qed.
Print Assumptions C04_pre_or_post.

(* The rollback guard of the model (`can_rollback`: files are deleted only by a transaction that never flipped) as a
   fact about the REGENERATED handler tables (Gen/GenCommit.v, read off Transaction.commit, MetadataManager.commit and
   _write_hint_at_commit_point on every run): (1) a failing commit-point write that may have taken effect -- any
   failure but the store's own refusal on conditional-write storage; any failure where failed writes are not
   guaranteed invisible -- is classified AMBIGUOUS; (2) the classes that can escape after the pointer may have moved
   (ambiguous, asynchronous interrupt) never make Transaction.commit delete the transaction's files nor the commit
   section discard the metadata file it wrote; (3) every class ends the transaction inside commit(), so a context
   manager's rollback afterwards is a no-op; (4) clean failures (conflict, other errors before the commit point)
   discard the unpublished metadata file. *)
Theorem C04_handlers_keep_after_possible_flip :
  (forall casb atomic, (casb = true \/ atomic = false) -> gen_flip_exn casb atomic FEError = XAmbiguous)
  /\ (forall e last, may_follow_flip e = true -> gen_tx_on e last <> TxRollbackDelete /\ gen_discard_on e = false)
  /\ (forall e last, gen_tx_on e last <> TxPropagate)
  /\ (gen_discard_on XConflict = true /\ gen_discard_on XOther = true).
Proof.
  split; [exact flip_error_possibly_applied_is_ambiguous|]. split; [exact handlers_keep_after_possible_flip|].
  split; [exact every_class_finishes | exact clean_failure_discards].
Qed.
Print Assumptions C04_handlers_keep_after_possible_flip.

(* Post-flip infallibility.  The theorems above are about Model/Fault.v, whose rollback is GUARDED by "never flipped".
   In the code nothing tests that: Transaction.commit's `except Exception` arm deletes the transaction's files whenever
   an Exception reaches it.  Model/Tail.v removes the guard: `TEscape a e last` lets an exception of class e leave the
   tail of a's commit call at any point after its flip and runs the arm the handler table names.  The tail of every
   commit path (what still executes inside Transaction.commit's `try` once the version-hint write has landed: the rest
   of MetadataManager.commit, create_snapshot, _commit_file_ops, _finish_committed, with every method they call inlined)
   is regenerated from the source by translator/gen_tail.py -- under every table configuration at once, since the
   regular expression keeps both sides of every `if`. *)

(* For every tail r and handler table txon such that every class that can leave r is handled by the keep-files arm:
   after ANY event list (failures before the flip, rollbacks, crashes, and exceptions of any class leaving the tail of
   any commit at any point after its flip) every file referenced by a committed version is present.
   WHAT THIS ADDS, HONESTLY: under the hypothesis tail_safe an enabled TEscape acts exactly as Fault.v's EAbort
   (C04_post_flip_escape_is_abort below), so the three C04_post_flip_* theorems are C04_no_damage / C04_unreachable /
   C04_liveness transported to the machine WITHOUT the rollback guard; everything they add is the hypothesis, which is
   a decidable fact about the regenerated tail and handler table (C04_tail_regenerated_safe: no call of the tail outside
   a swallowing `try` -- storage, lock, `raise`, or plain fallible computation) and whose necessity is
   C04_unguarded_tail_damages.  Like every theorem here they assume `sound c` (the lock / CAS assumptions of C01). *)
Theorem C04_post_flip_no_damage : forall r txon c m0 kind mr r0 next evs,
  sound c -> (forall f, In f r0 -> (f < next)%nat) -> tail_safe txon r = true ->
  let x := trun r txon c (finit m0 kind mr r0 next) evs in
  forall v, In v (committed (fw x)) -> forall f, In f (refs x v) -> In f (f_present x).
Proof.
  intros r txon c m0 kind mr r0 next evs Snd A Safe x. apply (finv_present c), safe_trun_finv; assumption.
Qed.
Print Assumptions C04_post_flip_no_damage.

(* ... uncommitted files stay unreachable and the commit invariant (C01) survives *)
Theorem C04_post_flip_unreachable : forall r txon c m0 kind mr r0 next evs,
  sound c -> (forall f, In f r0 -> (f < next)%nat) -> tail_safe txon r = true ->
  let x := trun r txon c (finit m0 kind mr r0 next) evs in
  forall a, flipped (pcof x a) = false -> forall f, In f (f_written x a) ->
  forall v, In v (committed (fw x)) -> ~ In f (refs x v).
Proof.
  intros r txon c m0 kind mr r0 next evs Snd A Safe x. apply (finv_unreachable c), safe_trun_finv; assumption.
Qed.
Print Assumptions C04_post_flip_unreachable.

Theorem C04_post_flip_liveness : forall r txon c m0 kind mr r0 next evs,
  sound c -> (forall f, In f r0 -> (f < next)%nat) -> tail_safe txon r = true ->
  Inv c (fw (trun r txon c (finit m0 kind mr r0 next) evs)).
Proof.
  intros r txon c m0 kind mr r0 next evs Snd A Safe. apply FI_inv, safe_trun_finv; assumption.
Qed.
Print Assumptions C04_post_flip_liveness.

(* The reduction the three theorems above rest on: with a safe tail, an exception leaving a commit call after its flip is
   Fault.v's EAbort -- the lock is released on the way out and nothing else happens. *)
Theorem C04_post_flip_escape_is_abort : forall r txon c x a e last x',
  tail_safe txon r = true -> tstep r txon c x (TEscape a e last) = Some x' ->
  x' = fstep_skip c x (FProto {| e_actor := a; e_kind := EAbort |}).
Proof. exact safe_escape_is_abort. Qed.
Print Assumptions C04_post_flip_escape_is_abort.

(* "A raise caused by a storage error leaves the pre-state."  Transaction.commit reports an exception as a plain storage
   error through its deleting arm (`except Exception: self._rollback(); raise`); f_dead x a is the ghost "a has run that
   arm".  In every run of the unguarded tail machine, a transaction that ran it never flipped and its operation is not
   part of the table.  Before the flip this is the rollback guard of Fault.v (the strict run of the correspondence refuses
   a real trace that deletes after a flip); after the flip it is tail_safe. *)
Theorem C04_clean_pre : forall r txon c m0 kind mr r0 next evs,
  sound c -> (forall f, In f r0 -> (f < next)%nat) -> tail_safe txon r = true ->
  let x := trun r txon c (finit m0 kind mr r0 next) evs in
  forall a, f_dead x a = true -> flipped (pcof x a) = false /\ ~ In a (map snd (w_hist (fw x))).
Proof.
  intros r txon c m0 kind mr r0 next evs Snd A Safe x. apply (finv_dead_unflipped c), safe_trun_finv; assumption.
Qed.
Print Assumptions C04_clean_pre.

(* ... on the REGENERATED tables: a failing commit-point write is reported as a plain storage error only where a write
   that raises is guaranteed not to have happened (no conditional write, atomic_write_failures), and no Exception can
   leave any regenerated tail -- so a storage error is never reported by a call whose pointer write has landed. *)
Theorem C04_clean_pre_regenerated :
  (forall casb atomic, gen_flip_exn casb atomic FEError = XOther -> casb = false /\ atomic = true)
  /\ unguarded gen_tail_file_ops = false /\ unguarded gen_tail_meta_only = false /\ unguarded gen_tail_delete_snapshot = false.
Proof.
  split; [|repeat split; reflexivity].
  intros [] []; simpl; intro H; try discriminate H; split; reflexivity.
Qed.
Print Assumptions C04_clean_pre_regenerated.

(* "When the outcome of the pointer write is unknowable the error is reported as ambiguous and no file written by the
   transaction is deleted": on the regenerated tables, every failure of the commit-point write other than the store's
   own refusal is AMBIGUOUS on a conditional-write store and on a store whose failed writes may have been applied; the arm
   that handles AMBIGUOUS keeps the transaction's files and the metadata file on every attempt (never a retry); and in
   the machine an ambiguous error leaving a commit call -- for ANY tail -- deletes nothing and marks nothing rolled back. *)
Theorem C04_ambiguous :
  (forall casb atomic, (casb = true \/ atomic = false) -> gen_flip_exn casb atomic FEError = XAmbiguous)
  /\ (forall last, gen_tx_on XAmbiguous last = TxRollbackKeep) /\ gen_discard_on XAmbiguous = false
  /\ (forall r c x a last x', tstep r gen_tx_on c x (TEscape a XAmbiguous last) = Some x' ->
       f_present x' = f_present x /\ f_written x' = f_written x /\ f_dead x' = f_dead x).
Proof.
  split; [exact flip_error_possibly_applied_is_ambiguous|].
  assert (K : forall last, gen_tx_on XAmbiguous last = TxRollbackKeep) by (intros []; reflexivity).
  split; [exact K|]. split; [reflexivity|].
  intros r c x a last x'. apply kept_escape_deletes_nothing, K.
Qed.
Print Assumptions C04_ambiguous.

(* The REGENERATED tails (file-level commits, metadata-only commits) are safe for the REGENERATED handler table, and the
   tail of SnapshotManager.delete_snapshot (no Transaction around it) has no call whose Exception is not swallowed. *)
Theorem C04_tail_regenerated_safe :
  tail_safe gen_tx_on gen_tail_file_ops = true /\ tail_safe gen_tx_on gen_tail_meta_only = true
  /\ unguarded gen_tail_delete_snapshot = false.
Proof. repeat split; reflexivity. Qed.
Print Assumptions C04_tail_regenerated_safe.

(* Hence, for the regenerated tails and handler table: *)
Theorem C04_commit_tail_no_damage : forall c m0 kind mr r0 next evs,
  sound c -> (forall f, In f r0 -> (f < next)%nat) ->
  (let x := trun gen_tail_file_ops gen_tx_on c (finit m0 kind mr r0 next) evs in
   forall v, In v (committed (fw x)) -> forall f, In f (refs x v) -> In f (f_present x))
  /\ (let x := trun gen_tail_meta_only gen_tx_on c (finit m0 kind mr r0 next) evs in
   forall v, In v (committed (fw x)) -> forall f, In f (refs x v) -> In f (f_present x)).
Proof.
  intros c m0 kind mr r0 next evs Snd A. split; apply C04_post_flip_no_damage; auto; apply C04_tail_regenerated_safe.
Qed.
Print Assumptions C04_commit_tail_no_damage.

(* The proviso is necessary: if some class can leave the tail and its arm deletes (or nobody finishes the transaction),
   the run "write a file, commit it up to the flip, let that class escape" leaves version 1 committed, referencing file 2,
   and file 2 gone.  A fallible, unguarded storage call after the commit point -- under whatever configuration it
   executes -- is exactly this. *)
Theorem C04_unguarded_tail_damages : forall r txon e last,
  tail_escapes r e = true -> (txon e last = TxRollbackDelete \/ txon e last = TxPropagate) ->
  let x := trun r txon dm_cfg dm_init (map TF dm_prefix ++ [TEscape 0%nat e last]) in
  In 1%nat (committed (fw x)) /\ In 2%nat (refs x 1%nat) /\ ~ In 2%nat (f_present x).
Proof. exact unguarded_tail_damages. Qed.
Print Assumptions C04_unguarded_tail_damages.

(* Non-vacuity: (1) an interrupt AFTER the flip (during lock release): the commit is reflected,
   the transaction ends AbortedPost, its rollback is NOT enabled and its file stays; (2) an error
   before the flip: Aborted, rollback deletes its own file only, the base files stay. *)
Definition ev a k := {| e_actor := a; e_kind := k |}.
Definition ex_init := finit {| m_ops := []; m_cur := 1; m_lu := 100 |} (fun _ => KFresh) (fun _ => 50%nat) [0; 1]%nat 2%nat.
Definition ex_cfg := {| cas := false; lockkind := Excl |}.
Example C04_nonvacuous :
  (let x := frun ex_cfg ex_init
      [FWrite 0; FProto (ev 0 (EBegin 0)); FWrite 0; FProto (ev 0 (ELockTry true)); FProto (ev 0 (EValidate 0 true));
       FProto (ev 0 (EMetaW 100)); FProto (ev 0 (EFence true)); FProto (ev 0 (EFlip true)); FProto (ev 0 EAbort);
       FRollback 0]%nat in
   a_pc (w_actors (fw x) 0%nat) = PDone AbortedPost /\ map snd (w_hist (fw x)) = [0%nat]
   /\ refs x 1%nat = [0; 1; 3; 2]%nat /\ f_present x = [3; 2; 0; 1]%nat /\ all_present x = true)
  /\ (let y := frun ex_cfg ex_init
      [FWrite 0; FProto (ev 0 (EBegin 0)); FProto (ev 0 (ELockTry true)); FProto (ev 0 EAbort); FRollback 0]%nat in
   a_pc (w_actors (fw y) 0%nat) = PDone Aborted /\ w_hist (fw y) = [] /\ f_present y = [0; 1]%nat /\ all_present y = true).
Proof. vm_compute. repeat split. Qed.

(* Non-vacuity of the tail machine with the regenerated tables: (1) KeyboardInterrupt during marker cleanup (after the
   release): enabled, files kept; (2) a storage Exception cannot leave the regenerated tail: the event is not enabled;
   (3) the regenerated tail accepts "release, three marker deletes" and refuses an `exists` after the release. *)
Definition ex_commit := map TF
  [FWrite 0; FProto (ev 0 (EBegin 0)); FWrite 0; FProto (ev 0 (ELockTry true)); FProto (ev 0 (EValidate 0 true));
   FProto (ev 0 (EMetaW 100)); FProto (ev 0 (EFence true)); FProto (ev 0 (EFlip true)); FProto (ev 0 ERelease)]%nat.
Example C04_tail_nonvacuous :
  (match trun_strict gen_tail_file_ops gen_tx_on ex_cfg ex_init (ex_commit ++ [TEscape 0%nat XInterrupt false; TF (FRollback 0%nat)]) 0%nat with
   | inr i => i = 10%nat | inl _ => False end)
  /\ (let x := trun gen_tail_file_ops gen_tx_on ex_cfg ex_init (ex_commit ++ [TEscape 0%nat XInterrupt false]) in
      f_present x = [3; 2; 0; 1]%nat /\ all_present x = true)
  /\ (match trun_strict gen_tail_file_ops gen_tx_on ex_cfg ex_init (ex_commit ++ [TEscape 0%nat XOther false]) 0%nat with
      | inr i => i = 9%nat | inl _ => False end)
  /\ tail_accepts gen_tail_file_ops [TKRelease; TKDelete; TKDelete; TKDelete] = true
  /\ tail_accepts gen_tail_file_ops [TKRelease; TKExists; TKDelete] = false
  /\ tail_accepts_prefix gen_tail_file_ops [TKRelease; TKDelete] = true.
Proof. vm_compute. repeat split. Qed.

(* Non-vacuity of C04_clean_pre / C04_ambiguous: (1) a storage error before the flip, handled by the deleting arm: f_dead holds,
   the transaction is not in the history, its file is gone, the base files stay; (2) a tail with one unguarded fallible
   computation (TKCompute) is NOT safe for the regenerated table, an Exception leaves it, the deleting arm runs on a FLIPPED
   transaction: f_dead holds although the transaction is in the history -- the conclusion of C04_clean_pre fails without its
   hypothesis; (3) an ambiguous error on a tail that lets it escape is enabled and keeps everything; (4) TKCompute steps are
   invisible to the word check. *)
Definition ex_bad_tail := TSeq (TCall TKRelease true) (TSeq (TCall TKCompute false) (TStar (TCall TKDelete true))).
Example C04_clean_pre_nonvacuous :
  (let y := trun gen_tail_file_ops gen_tx_on ex_cfg ex_init
      (map TF [FWrite 0; FProto (ev 0 (EBegin 0)); FProto (ev 0 (ELockTry true)); FProto (ev 0 EAbort); FRollback 0]%nat) in
   f_dead y 0%nat = true /\ w_hist (fw y) = [] /\ f_present y = [0; 1]%nat)
  /\ tail_safe gen_tx_on ex_bad_tail = false
  /\ (let z := trun ex_bad_tail gen_tx_on ex_cfg ex_init (ex_commit ++ [TEscape 0%nat XOther false]) in
      f_dead z 0%nat = true /\ map snd (w_hist (fw z)) = [0%nat] /\ all_present z = false)
  /\ (match tstep ex_bad_tail gen_tx_on ex_cfg (trun ex_bad_tail gen_tx_on ex_cfg ex_init ex_commit) (TEscape 0%nat XAmbiguous false) with
      | Some z => f_present z = [3; 2; 0; 1]%nat /\ f_dead z 0%nat = false | None => False end)
  /\ tail_accepts (observable ex_bad_tail) [TKRelease; TKDelete] = true
  /\ tail_accepts ex_bad_tail [TKRelease; TKDelete] = false.
Proof. vm_compute. repeat split. Qed.
