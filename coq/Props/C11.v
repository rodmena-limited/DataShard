(* Props/C11.v -- Accepted appends are exact; rejected ones leave no trace; scans keep working.
   The theorems of the property, each with Print Assumptions beneath; the lemmas they rest on are in
   Proofs/SchemaProofs.v, SchemaTxProofs.v and SchemaOpenProofs.v.

   Model: Model/Schema.v (hand-written, tied to the code by the correspondence harness) over
   Gen/GenSchema.v (REGENERATED from the source on every run: the signature's container kind and tuple
   shape, the primitive types, type_mapping, the no-bounds types).

   Quantification: every table schema (columns of primitive types and list<...> types of any depth; integer
   field ids -- Schema.__post_init__ refuses every other id, pinned by the translator), every schema argument,
   every history of append attempts of any length through any handles (each with its Arrow-schema cache keyed
   by schema_id), every record batch (any keys -- strs or other objects --, any values incl. lists), every
   commit outcome, every behaviour `conv` of pyarrow's conversion; for explicit transactions every pre-built
   file with every caller-supplied lower / upper bounds.

   Handle provenance (Model/SchemaOpen.v over Gen/GenOpen.v, the actions of create_table / load_table /
   Table.__init__ REGENERATED from the source): every way of obtaining each handle, with every schema argument,
   re-bound or alive side by side, interleaved with the appends in any order.

   C11_exact_partial / C11_tx_exact_partial / C11_handles_exact_partial are PARTIAL: they assume conv_sound
   (pyarrow stores a value the library lets through as `canon`, or raises) -- a statement about pyarrow, validated by
   the harness on every run.  The filter theorems assume conv_kinds (a converted cell has the kind of its Arrow
   type), C11_tx_history_filter also pf_typed of every pre-built file (a parquet column holds values of its
   footer type) -- statements about pyarrow / parquet, spelled out as hypotheses.
   C11_tx_fault_fails_closed is DERIVED from flags regenerated from the source (Gen/GenSchema.v:
   resolve_refresh_propagates, marker_failure_propagates, queue_failure_propagates, files_exists_failure_propagates
   and, for the GC-protection step of a pre-built-file call, adopt_marker_failure_propagates,
   adopt_listing_failure_propagates, adopt_refused_while_collecting, adopt_recheck_failure_propagates,
   adopt_cleanup_on_failure): its proof computes with their current values. *)
From Coq Require Import QArith List Lia.
Require Import DS.Model.Value DS.Model.Prune DS.Gen.GenSchema DS.Model.Schema DS.Model.SchemaTx.
Require Import DS.Model.OpenBase DS.Model.SchemaOpen.
Require Import DS.Proofs.PruneProofs DS.Proofs.SchemaProofs DS.Proofs.SchemaTxProofs DS.Proofs.SchemaOpenProofs.
Import ListNotations.
Open Scope Z_scope.

(* An accepted schema argument produces parquet files with exactly the table's Arrow schema
   (names, ORDER, types, nullability) -- what pa.concat_tables demands. *)
Theorem C11_accept_scans : forall t a : list field,
  accept_schema t a = true -> arrow_of a = arrow_of t.
Proof. intros t a H. apply accept_schema_eq in H. subst. reflexivity. Qed.
Print Assumptions C11_accept_scans.

(* Hence after ANY history of append attempts -- accepted or rejected, any schema arguments and
   schema ids, fresh or reused handles with their caches, failed commits -- every file of the current
   snapshot has the same Arrow schema and the full scan does not raise. *)
Theorem C11_history_scans : forall (conv : catype -> pyval -> option pyval) (ts : ischema) (es : list event),
  scan_ok (current (run conv (init (Some ts)) es)) = true
  /\ full_scan (run conv (init (Some ts)) es) <> None.
Proof. intros conv ts es. exact (inv_scans ts _ _ (run_written ts conv es)). Qed.
Print Assumptions C11_history_scans.

(* An accepted argument maps every column to the field id the table schema maps it to, so the bounds
   it stores are found by pruning under the right column; and it validates records identically. *)
Theorem C11_accept_bounds : forall t a : list field,
  accept_schema t a = true ->
  (forall col, fid_in a col = fid_in t col)
  /\ (forall ar rows, bounds_for a ar rows = bounds_for t ar rows)
  /\ (forall r, validate_record a r = validate_record t r).
Proof. intros t a H. apply accept_schema_eq in H. subst. repeat split. Qed.
Print Assumptions C11_accept_bounds.

(* Filtered scans after any history: pruning by the stored bounds (looked up through the TABLE
   schema's name -> id map) never changes the answer -- composition with C13 (prune_sound). *)
Theorem C11_history_filter : forall (conv : catype -> pyval -> option pyval) (X : value -> value -> bool) (ts : ischema) (es : list event) (fs : list fexpr),
  NoDup (map fname (sfields ts)) -> NoDup (map fid (sfields ts)) -> conv_kinds conv ->
  let w := run conv (init (Some ts)) es in
  filtered_scan X fs w = Some (filter (row_selected X fs) (map vrow (flat_map df_rows (current w)))).
Proof.
  intros conv X ts es fs NDn NDi CK w. apply (inv_filter ts NDn NDi).
  apply run_inv; [intros rs f; apply writes_prunable; exact CK | apply inv_init].
Qed.
Print Assumptions C11_history_filter.

(* Every bound an accepted append stores is EXACTLY the minimum / maximum of the stored column (NULLs and
   NaNs apart), filed under the field id the table schema gives the column -- not a shortened, rounded or
   otherwise altered value; a column without ordinary values stores no bound. *)
Theorem C11_history_bounds_exact : forall (conv : catype -> pyval -> option pyval) (ts : ischema) (es : list event) (f : dfile) (g : field),
  NoDup (map fname (sfields ts)) -> NoDup (map fid (sfields ts)) ->
  In f (current (run conv (init (Some ts)) es)) -> In g (sfields ts) -> bounds_skipped_c (ftype g) = false ->
  match bounds_of (column (map vrow (df_rows f)) (fname g)) with
  | Some (mn, mx) => lookup (fid g) (df_lo f) = Some mn /\ lookup (fid g) (df_hi f) = Some mx
  | None => lookup (fid g) (df_lo f) = None /\ lookup (fid g) (df_hi f) = None
  end.
Proof.
  intros conv ts es f g NDn NDi Hf Hg Sk.
  destruct (inv_current ts _ _ f (run_written ts conv es) Hf) as [_ [rs W]].
  exact (file_bounds_exact conv ts NDn NDi rs f g W Hg Sk).
Qed.
Print Assumptions C11_history_bounds_exact.

(* Hence the stored bounds enclose every ordinary value of their column in their file. *)
Theorem C11_history_bounds_true : forall (conv : catype -> pyval -> option pyval) (ts : ischema) (es : list event) (f : dfile) (g : field) (lo hi : value),
  NoDup (map fname (sfields ts)) -> NoDup (map fid (sfields ts)) -> conv_kinds conv ->
  In f (current (run conv (init (Some ts)) es)) -> In g (sfields ts) ->
  lookup (fid g) (df_lo f) = Some lo -> lookup (fid g) (df_hi f) = Some hi -> bounds_skipped_c (ftype g) = false ->
  forall r, In r (df_rows f) -> ordinary (cell (vrow r) (fname g)) = true ->
  vle lo (cell (vrow r) (fname g)) /\ vle (cell (vrow r) (fname g)) hi.
Proof.
  intros conv ts es f g lo hi NDn NDi CK Hf Hg.
  destruct (inv_current ts _ _ f (run_written ts conv es) Hf) as [_ [rs W]].
  exact (file_bounds_true conv ts NDn NDi rs f g lo hi CK W Hg).
Qed.
Print Assumptions C11_history_bounds_true.

(* What an append does depends on the schema ARGUMENT only through what it declares -- its schema_id and its
   fields.  Two argument objects that agree on those but differ in any derived attribute (a schema_string that is
   stale after dataclasses.replace, an in-place edit of .fields, an explicit schema_string=) are treated
   identically: same outcome, same world.  In particular a stale attribute cannot get a divergent schema accepted
   (the second step of the Example below carries a stale sstring and is rejected). *)
Theorem C11_arg_object_irrelevant : forall (conv : catype -> pyval -> option pyval) (w : world) (e e' : event),
  e_handle e = e_handle e' -> e_recs e = e_recs e' -> e_commit_ok e = e_commit_ok e' ->
  same_decl (e_arg e) (e_arg e') ->
  step conv w e = step conv w e'.
Proof.
  intros conv w [h a r c] [h' a' r' c']. simpl. intros -> -> -> D.
  destruct a as [[s f t1]|], a' as [[s' f' t2]|]; simpl in D; try contradiction; [|reflexivity].
  destruct D as [-> ->]. unfold step, resolve, create_arrow_schema. cbn [e_arg e_handle e_recs e_commit_ok sfields sid].
  destruct (w_schema w) as [ts|]; [|reflexivity].
  destruct (accept_schema (sfields ts) f'); reflexivity.
Qed.
Print Assumptions C11_arg_object_irrelevant.

(* A rejected append (no schema, divergent schema, invalid records, conversion error, failed commit)
   leaves the schema, the snapshot list with every snapshot's reachable data files, the data files
   present on storage, and the results of all scans unchanged.  Any table, with or without schema. *)
Theorem C11_reject_no_trace : forall (conv : catype -> pyval -> option pyval) (s0 : option ischema) (es : list event) (e : event),
  let w := run conv (init s0) es in
  snd (step conv w e) <> Accepted ->
  let w' := fst (step conv w e) in
  w_schema w' = w_schema w /\ w_snaps w' = w_snaps w /\ w_store w' = w_store w
  /\ full_scan w' = full_scan w
  /\ (forall X fs, filtered_scan X fs w' = filtered_scan X fs w).
Proof.
  intros conv s0 es e w H.
  assert (Sf : store_fresh (init s0)) by (intros x []).
  pose proof (step_store conv w e (run_fresh conv es _ Sf)) as St.
  destruct (step conv w e) as [w' o]. destruct St as [_ R]. destruct (R H) as [Hs [Hn Hst]]. simpl.
  destruct (scans_same w' w Hs Hn) as [F1 F2]. repeat split; assumption.
Qed.
Print Assumptions C11_reject_no_trace.

(* Under conv_sound: after any history the full scan returns exactly `canon_c` of every accepted
   record (all columns, table order, append order), and every accepted record has only str keys that
   name fields, non-None required fields and representable values (lists: element by element). *)
Theorem C11_exact_partial : forall (rnd32 : Q -> num) (conv : catype -> pyval -> option pyval),
  conv_sound rnd32 conv ->
  forall (ts : ischema) (es : list event),
  full_scan (run conv (init (Some ts)) es) = Some (expected rnd32 conv ts (init (Some ts)) es)
  /\ (forall es1 e es2, es = es1 ++ e :: es2 ->
        snd (step conv (run conv (init (Some ts)) es1) e) = Accepted ->
        forall r, In r (e_recs e) -> record_ok ts r).
Proof.
  intros rnd32 conv CS ts es.
  pose proof (fun es => run_inv ts _ conv (any_records ts conv) es _ (inv_init ts _)) as Iv. split.
  - rewrite (run_exact rnd32 conv CS ts _ (any_records ts conv) es _ (inv_init ts _)). reflexivity.
  - intros es1 e es2 _. exact (proj2 (step_exact rnd32 conv CS ts _ _ e (Iv es1))).
Qed.
Print Assumptions C11_exact_partial.

(* The library's admission test only lets through values the declared type can represent -- for list<...>
   columns of any depth: None, or a list each of whose elements the element type can represent. *)
Theorem C11_fits_representable : forall (c : ctype) (v : pyval), value_fits_c c v = true -> representable_c c v.
Proof. exact fits_representable_c. Qed.
Print Assumptions C11_fits_representable.

(* ================= explicit transactions (Model/SchemaTx.v): begin / calls, some of which raise and are
   caught by the caller / commit, rollback or nothing ================= *)

(* A call that raises (tag <> 0) -- append_data refused for any reason, append_files refused at ANY of its
   files or in its GC-protection step (marker write, announced collection run, existence re-check) -- adds NOTHING
   to the transaction's queue, and no call touches the schema or the snapshot list.  m: the files the transaction
   holds in-flight markers for when the call starts (any). *)
Theorem C11_tx_rejected_call_no_trace : forall (conv : catype -> pyval -> option pyval) (w : world) (m : list Z) (h : Z) (c : call)
    (w' : world) (wr : list Z) (t : Z) (added : list dfile),
  call_step conv w m h c = (w', wr, t, added) ->
  w_schema w' = w_schema w /\ w_snaps w' = w_snaps w /\ (t <> 0 -> added = []).
Proof. intros conv w m h c w' wr t added H. pose proof (call_rejected conv w m h c) as Sc. rewrite H in Sc. exact Sc. Qed.
Print Assumptions C11_tx_rejected_call_no_trace.

(* Storage faults during a call fail CLOSED.  While the table metadata cannot be read, append_data and
   append_files raise at once and change nothing -- an unreadable schema is never taken for "no persisted schema,
   nothing to enforce"; under any window an append_data call can meet (metadata unreadable from the start, marker
   writes failing, metadata unreadable / existence checks failing once the call has written its data file) it
   never succeeds and queues nothing, whatever its schema argument; the other windows (they belong to the adoption
   of pre-built files) leave it as it is without them.
   The GC-protection step of append_files: a call with at least one pre-built file the transaction holds no marker
   for yet (unprotected m fs <> []) that meets failing marker writes, a failing listing of the announced collection
   runs, an announced run, or a failing existence re-check NEVER succeeds: it raises, queues nothing, writes no data
   file, leaves schema, snapshot list and stored files as they were -- and leaves none of the markers it wrote.
   A window that is none of these, or a call with nothing left to protect, behaves as without the window.
   Derived, not defined: Model/SchemaTx.v call_step decides what a failing refresh() / marker write / queueing /
   listing / re-check leads to by the flags Gen/GenSchema.v regenerates from the source on every run (is the failing
   operation outside every `try`, or only inside `try` blocks whose handlers re-raise?); with a handler around
   refresh() the model takes the "no persisted schema" path, with a handler that swallows a failure of the protection
   step the model queues the unprotected file, and this proof (by computation on the flags) breaks. *)
Theorem C11_tx_fault_fails_closed : forall (conv : catype -> pyval -> option pyval) (w : world) (m : list Z) (h : Z),
  (forall arg recs, call_step conv w m h (CRecordsF FBefore arg recs) = (w, [], tag_storage_fault, []))
  /\ (forall fs, call_step conv w m h (CFilesF FBefore fs) = (w, [], tag_storage_fault, []))
  /\ (forall ft arg recs w' wr t added, hits_records ft = true ->
        call_step conv w m h (CRecordsF ft arg recs) = (w', wr, t, added) -> t <> 0 /\ added = [])
  /\ (forall ft arg recs, hits_records ft = false -> call_step conv w m h (CRecordsF ft arg recs) = call_step conv w m h (CRecords arg recs))
  /\ (forall ft fs w' wr t added, hits_protection ft = true -> unprotected m fs <> [] ->
        call_step conv w m h (CFilesF ft fs) = (w', wr, t, added) ->
        t <> 0 /\ added = [] /\ wr = [] /\ w_schema w' = w_schema w /\ w_snaps w' = w_snaps w /\ w_store w' = w_store w
        /\ call_marks w m h (CFilesF ft fs) = [])
  /\ (forall ft fs, hits_protection ft = false -> ft <> FBefore -> call_step conv w m h (CFilesF ft fs) = call_step conv w m h (CFiles fs))
  /\ (forall ft fs, unprotected m fs = [] -> ft <> FBefore -> call_step conv w m h (CFilesF ft fs) = call_step conv w m h (CFiles fs)).
Proof.
  intros conv w m h. repeat apply conj.
  - (* append_data while the metadata cannot be read: by computation on resolve_refresh_propagates *)
    reflexivity.
  - (* append_files likewise *)
    reflexivity.
  - (* every window an append_data call can meet is a failing marker write or ends in s2 = None *)
    intros ft arg recs w' wr t added Hr H.
    assert (G : let '(_, _, t', added') := call_step conv w m h (CRecordsF ft arg recs) in t' <> 0 /\ added' = []).
    { destruct ft.
      + (* FBefore: the second read of the metadata fails as well *) apply call_records_raises. right. reflexivity.
      + (* FMarker: the marker write fails *) apply call_records_raises. left. reflexivity.
      + (* FAfterWrite: the metadata read of the queueing step fails *) apply call_records_raises. right. reflexivity.
      + (* FAnnounce: no window of append_data *) discriminate Hr.
      + (* FCollecting: no window of append_data *) discriminate Hr.
      + (* FRecheck: the existence check of the queueing step fails (files_exists_failure_propagates) *)
        apply call_records_raises. right. reflexivity. }
    rewrite H in G. exact G.
  - (* the two windows that belong to the adoption of pre-built files leave append_data alone *)
    intros ft arg recs Hr. destruct ft; try discriminate Hr; reflexivity.
  - (* the protection step of append_files with something left to protect, under one of its four windows *)
    intros ft fs w' wr t added Hp Hu H.
    (* the step raises (by computation on the adopt_* flags) and leaves none of its markers *)
    assert (P : exists t0, protect (Some ft) m fs = Some t0 /\ protect_left (Some ft) m fs = []).
    { unfold protect_left, protect. destruct (unprotected m fs) as [|i r]; [contradiction Hu; reflexivity|].
      destruct ft; try discriminate Hp; eexists; split; reflexivity. }
    destruct P as [t0 [P PL]].
    (* what call_step and call_marks are for these windows *)
    assert (E : call_step conv w m h (CFilesF ft fs) = call_files (Some (w_schema w)) (Some ft) m w h fs
                /\ call_marks w m h (CFilesF ft fs)
                   = if snd (check_files (w_schema w) (cache_of w h) fs) then protect_left (Some ft) m fs else [])
      by (destruct ft; try discriminate Hp; split; reflexivity).
    destruct E as [E M]. rewrite E in H. rewrite M, PL.
    pose proof (call_files_quiet (Some (w_schema w)) (Some ft) m w h fs) as Sq. rewrite H in Sq. destruct Sq as [S1 [S2 _]].
    pose proof (call_files_store (Some (w_schema w)) (Some ft) m w h fs) as Ss. rewrite H in Ss. destruct Ss as [W [S3 _]].
    revert H. unfold call_files. destruct (check_files (w_schema w) (cache_of w h) fs) as [c' ok]. destruct ok.
    + (* the files pass: the protection step raises with t0 *)
      rewrite P. intros [= <- <- <- <-]. repeat split; auto. exact (protect_tag _ _ _ _ P).
    + (* a file is refused before the protection step is reached *)
      intros [= <- <- <- <-]. repeat split; auto. discriminate.
  - (* FAfterWrite is no window of the protection step *)
    intros ft fs Hp Nb. destruct ft; try discriminate Hp; [contradiction Nb; reflexivity|].
    apply call_files_protect.
    rewrite (protect_no_window (Some FAfterWrite) m fs eq_refl), (protect_no_window None m fs I). reflexivity.
  - (* nothing left to protect: the step returns before it looks at anything *)
    intros ft fs Hu Nb. destruct ft; try (contradiction Nb; reflexivity);
      apply call_files_protect; rewrite !(protect_nothing _ _ _ Hu); reflexivity.
Qed.
Print Assumptions C11_tx_fault_fails_closed.

(* A successful commit of ANY transaction (any calls, any of them rejected, any world): for THE trace tr of its
   calls -- run_calls: per call, in order, the tag call_step gave it and the files call_step let it queue -- it
   publishes exactly one snapshot holding the base files followed by the files of tr, in call order; when tr holds
   no file it publishes nothing.  `honest tr`: a call that raised (non-zero tag) is in tr with no files. *)
Theorem C11_tx_publishes_accepted_only : forall (conv : catype -> pyval -> option pyval) (w : world) (t : txn)
    (w' : world) (q : txstate) (tr : list (Z * list dfile)),
  run_calls conv w tx_empty (t_handle t) (t_calls t) = (w', q, tr) ->
  t_end t = EndCommit true ->
  honest tr /\ length tr = length (t_calls t) /\ q_files q = flat_map snd tr
  /\ w_schema (run_tx conv w t) = w_schema w
  /\ w_snaps (run_tx conv w t) = match flat_map snd tr with
                                 | [] => w_snaps w
                                 | fs => (current w ++ fs) :: w_snaps w
                                 end.
Proof.
  intros conv w t w' q tr R E. destruct (run_tx_spec conv w t _ _ _ R) as [Qe [Hn [L [S1 S2]]]]. rewrite E in S2.
  repeat split; assumption.
Qed.
Print Assumptions C11_tx_publishes_accepted_only.

(* A transaction that ends in a failed commit, a rollback, or is abandoned leaves schema, snapshot list
   (with every snapshot's files) and the full scan unchanged. *)
Theorem C11_tx_unpublished_no_trace : forall (conv : catype -> pyval -> option pyval) (w : world) (t : txn),
  t_end t <> EndCommit true ->
  w_schema (run_tx conv w t) = w_schema w /\ w_snaps (run_tx conv w t) = w_snaps w
  /\ full_scan (run_tx conv w t) = full_scan w.
Proof.
  intros conv w t E. destruct (run_calls conv w tx_empty (t_handle t) (t_calls t)) as [[w1 q] tr] eqn:R.
  destruct (run_tx_spec conv w t _ _ _ R) as [_ [_ [_ [G1 G2]]]].
  (* such an end publishes nothing *)
  assert (N : published (t_end t) (flat_map snd tr) = []) by (destruct (t_end t) as [[|]| |]; [contradiction E|..]; reflexivity).
  rewrite N in G2. split; [exact G1|]. split; [exact G2|]. exact (proj1 (scans_same _ _ G1 G2)).
Qed.
Print Assumptions C11_tx_unpublished_no_trace.

(* After any history of transactions (records and pre-built files, any handles) every file of the current
   snapshot carries the table's Arrow schema: full scans do not raise. *)
Theorem C11_tx_history_scans : forall (conv : catype -> pyval -> option pyval) (ts : ischema) (txs : list txn),
  scan_ok (current (run_txs conv (init (Some ts)) txs)) = true
  /\ full_scan (run_txs conv (init (Some ts)) txs) <> None.
Proof. intros conv ts txs. exact (inv_scans ts _ _ (run_txs_layout conv ts txs _ (inv_init ts _))). Qed.
Print Assumptions C11_tx_history_scans.

(* After any history of transactions -- records and pre-built files, WHATEVER lower / upper bounds the caller
   supplied with them -- pruning by the stored bounds never changes a filtered scan: it returns exactly the
   selected rows of the current snapshot.  (The bounds stored for a pre-built file are none, or recomputed from
   its content: Model/SchemaTx.v verified_bounds.)  pf_typed: every cell of a pre-built file's column has the
   kind of the column's footer type.  NoDup (adopted_ids txs): no pre-built file is handed to append_files twice in the
   history -- the code lists a path once (seen_paths) while this model scans a file adopted twice twice: for such histories
   the model does not speak for the code, and they are excluded here, in the statement.
   The bounds are the caller's "WHATEVER" only because nothing a caller can pass makes append_files skip the verification:
   the flag _statistics_computed_here is honoured for a module-private token alone (pinned by translator/gen_schema.py; the
   harness passes _statistics_computed_here=True with bounds of other content). *)
Theorem C11_tx_history_filter : forall (conv : catype -> pyval -> option pyval) (X : value -> value -> bool) (ts : ischema)
    (txs : list txn) (fs : list fexpr),
  conv_kinds conv -> NoDup (map fname (sfields ts)) -> NoDup (map fid (sfields ts)) ->
  Forall (txn_Q pf_typed) txs -> NoDup (adopted_ids txs) ->
  let w := run_txs conv (init (Some ts)) txs in
  filtered_scan X fs w = Some (filter (row_selected X fs) (map vrow (flat_map df_rows (current w)))).
Proof.
  intros conv X ts txs fs CK NDn NDi QT _ w.
  exact (inv_filter ts NDn NDi X fs w (run_txs_prunable conv ts txs CK QT)).
Qed.
Print Assumptions C11_tx_history_filter.

(* Under conv_sound: after any history of transactions the full scan returns exactly, in order, what the calls
   of the committed transactions supplied: `canon_c` of every record of an accepted append_data call, the rows of
   every file of an accepted append_files call, nothing for a call that raised or a transaction that did not
   commit (txs_expected).  NoDup (adopted_ids txs): as for C11_tx_history_filter -- histories that adopt the same pre-built
   file twice are outside what this model says about the code. *)
Theorem C11_tx_exact_partial : forall (rnd32 : Q -> num) (conv : catype -> pyval -> option pyval),
  conv_sound rnd32 conv ->
  forall (ts : ischema) (txs : list txn), NoDup (adopted_ids txs) ->
  full_scan (run_txs conv (init (Some ts)) txs) = Some (txs_expected conv ts rnd32 (init (Some ts)) txs).
Proof.
  intros rnd32 conv CS ts txs _. rewrite (run_txs_exact conv ts rnd32 CS txs _ (inv_init ts _)). reflexivity.
Qed.
Print Assumptions C11_tx_exact_partial.

(* The OTHER caller-supplied fields of a pre-built DataFile that a manifest stores (Model/SchemaTx.v pclaims: the keys of the
   column_sizes / value_counts / null_value_counts maps, the checksum, the record_count).  An append_files call that is
   ACCEPTED -- in any world, for any files with ANY such claims -- stores for every one of its files an entry every read can
   decode (every statistics key reads back as an int: the stored maps are recomputed under the table's field ids), a checksum
   that is the file's own or none (a file whose supplied checksum is not its own is refused: the call is not accepted), and
   the file's number of rows as its record count.  Scope, honestly: this is a statement about WHAT IS STORED per file
   (stored_claims, tied to the code by the translator's pins on _with_verified_bounds and by the `transactions` /
   `stored_claims` correspondences); full_scan of Model/Schema.v models the layout cause of a failing scan only, so "an
   undecodable entry / a failing checksum makes the scan raise" is the code's behaviour (reproduced by the harness), not a
   derivation in the model. *)
Theorem C11_tx_accepted_claims_sound : forall (conv : catype -> pyval -> option pyval) (w : world) (m : list Z) (h : Z) (fs : list pfile)
    (w' : world) (wr : list Z) (added : list dfile),
  call_step conv w m h (CFiles fs) = (w', wr, 0, added) ->
  forall p, In p fs -> claims_sound (stored_claims (w_schema w) p) p = true.
Proof.
  intros conv w m h fs w' wr added. unfold call_step, call_files, seen_schema.
  destruct (check_files (w_schema w) (cache_of w h) fs) as [c' ok] eqn:CF.
  destruct ok; [intros _; exact (checked_claims_sound _ _ _ _ CF) | discriminate].
Qed.
Print Assumptions C11_tx_accepted_claims_sound.

(* Storing the claims AS GIVEN -- what the unchanged library did -- is refuted: a well-formed file with a column_sizes key
   "abc" (ex_bad_key) gets an entry no read can decode. *)
Theorem C11_tx_claims_as_given_refuted : ~ claims_as_given_sound_full.
Proof. intro H. specialize (H ex_bad_key). discriminate H. Qed.
Print Assumptions C11_tx_claims_as_given_refuted.

(* ================= handle provenance (Model/SchemaOpen.v): handles obtained by load_table, by create_table
   with ANY schema argument on the existing table, by Table(...); re-bound, or several alive at once ================= *)

(* What the source does when a handle is obtained (regenerated on every run): for every opener, no action derives
   an Arrow layout from the caller's unvalidated schema argument into the new handle's cache. *)
Theorem C11_open_derives_only_persisted : forall o : opener, forallb safe_action (actions_of o) = true.
Proof. exact open_actions_safe. Qed.
Print Assumptions C11_open_derives_only_persisted.

(* MODEL SANITY (not a fact about the code): in Model/SchemaOpen.v an opening can only set the handle's cache, so it
   leaves the schema, the snapshot list, the stored files and every scan unchanged BY CONSTRUCTION -- for any action list,
   the unsafe ones included.  That create_table's schema argument is not applied to a table that exists is the reading
   given to OAInitIfAbsent; the content is carried by C11_open_derives_only_persisted (regenerated actions), by
   C11_handle_provenance_irrelevant, and for create_table on an existing table by C18's theorems. *)
Theorem C11_open_no_trace_model_sanity : forall (acts : list oaction) (w : world) (h : Z) (arg : option ischema),
  let w' := open_with acts w h arg in
  w_schema w' = w_schema w /\ w_snaps w' = w_snaps w /\ w_store w' = w_store w
  /\ full_scan w' = full_scan w /\ (forall X fs, filtered_scan X fs w' = filtered_scan X fs w).
Proof.
  intros acts w h arg w'. destruct (scans_same w' w eq_refl eq_refl) as [F1 F2]. repeat split; assumption.
Qed.
Print Assumptions C11_open_no_trace_model_sanity.

(* Handle provenance is irrelevant: in ANY history of openings (any opener, any schema argument, any handle name,
   new or re-bound) and append attempts, every append has the outcome, and the table reaches the state -- schema,
   snapshots with their files, stored files, full and filtered scans --, of the same history with the openings
   erased.  So C11_history_scans, C11_history_filter, C11_history_bounds_*, C11_reject_no_trace and
   C11_exact_partial hold verbatim of histories with openings. *)
Theorem C11_handle_provenance_irrelevant : forall (conv : catype -> pyval -> option pyval) (ts : ischema) (xs : list hevent),
  let w := hrun conv (init (Some ts)) xs in
  let w0 := run conv (init (Some ts)) (appends xs) in
  houtcomes conv (init (Some ts)) xs = run_outcomes conv (init (Some ts)) (appends xs)
  /\ w_schema w = w_schema w0 /\ w_snaps w = w_snaps w0 /\ w_store w = w_store w0
  /\ full_scan w = full_scan w0
  /\ (forall X fs, filtered_scan X fs w = filtered_scan X fs w0).
Proof.
  intros conv ts xs w w0.
  destruct (hrun_erase conv ts xs _ _ (inv_init ts _) (inv_init ts _) eq_refl) as [T Os].
  unfold table_of in T. injection T as Hs Hn Hst _. destruct (scans_same _ _ Hs Hn) as [F1 F2].
  repeat split; assumption.
Qed.
Print Assumptions C11_handle_provenance_irrelevant.

(* Spelled out: after any such history full scans do not raise, ... *)
Theorem C11_handles_history_scans : forall (conv : catype -> pyval -> option pyval) (ts : ischema) (xs : list hevent),
  scan_ok (current (hrun conv (init (Some ts)) xs)) = true /\ full_scan (hrun conv (init (Some ts)) xs) <> None.
Proof.
  intros conv ts xs. destruct (C11_handle_provenance_irrelevant conv ts xs) as [_ [_ [Hn [_ [F _]]]]].
  unfold current. rewrite Hn, F. exact (C11_history_scans conv ts (appends xs)).
Qed.
Print Assumptions C11_handles_history_scans.

(* ... pruned filtered scans equal unpruned ones, ... *)
Theorem C11_handles_history_filter : forall (conv : catype -> pyval -> option pyval) (X : value -> value -> bool) (ts : ischema) (xs : list hevent) (fs : list fexpr),
  NoDup (map fname (sfields ts)) -> NoDup (map fid (sfields ts)) -> conv_kinds conv ->
  let w := hrun conv (init (Some ts)) xs in
  filtered_scan X fs w = Some (filter (row_selected X fs) (map vrow (flat_map df_rows (current w)))).
Proof.
  intros conv X ts xs fs NDn NDi CK w. destruct (C11_handle_provenance_irrelevant conv ts xs) as [_ [_ [Hn [_ [_ F]]]]].
  fold w in Hn, F. unfold current. rewrite Hn, F. exact (C11_history_filter conv X ts (appends xs) fs NDn NDi CK).
Qed.
Print Assumptions C11_handles_history_filter.

(* ... and (under conv_sound, as C11_exact_partial) the full scan returns exactly canon of every accepted record. *)
Theorem C11_handles_exact_partial : forall (rnd32 : Q -> num) (conv : catype -> pyval -> option pyval),
  conv_sound rnd32 conv ->
  forall (ts : ischema) (xs : list hevent),
  full_scan (hrun conv (init (Some ts)) xs) = Some (expected rnd32 conv ts (init (Some ts)) (appends xs)).
Proof.
  intros rnd32 conv CS ts xs.
  destruct (C11_handle_provenance_irrelevant conv ts xs) as [_ [_ [_ [_ [F _]]]]]. rewrite F.
  exact (proj1 (C11_exact_partial rnd32 conv CS ts (appends xs))).
Qed.
Print Assumptions C11_handles_exact_partial.

(* Explicit transactions through handles of any provenance: scans keep working. *)
Theorem C11_handles_tx_history_scans : forall (conv : catype -> pyval -> option pyval) (ts : ischema) (xs : list thevent),
  scan_ok (current (thrun conv (init (Some ts)) xs)) = true /\ full_scan (thrun conv (init (Some ts)) xs) <> None.
Proof. intros conv ts xs. exact (inv_scans ts _ _ (thrun_layout conv ts xs _ (inv_init ts _))). Qed.
Print Assumptions C11_handles_tx_history_scans.

(* ---- Non-vacuity: a concrete table {a: long required (id 1); b: float optional (id 2)}, a concrete
   conversion oracle satisfying conv_sound and conv_kinds, and a history in which an identical
   argument under another schema id is accepted through a reused handle, a reordered one, a renumbered
   one and a value 1.5 for the long column are rejected, a commit fails, and the scans see exactly the
   two accepted rows. *)
Definition ex_fields : list field :=
  [ {| fid := 1; fname := 0; ftype := CPrim T_long; fspell := 0; freq := true |};
    {| fid := 2; fname := 1; ftype := CPrim T_float; fspell := 0; freq := false |} ].
Definition ex_ts : ischema := {| sid := 1; sfields := ex_fields; sstring := 0 |}.
Definition ex_rnd (q : Q) : num := Fin q.
Definition ex_conv_prim (a : atype) (v : pyval) : option pyval :=
  match a with
  | A_int32 => if value_fits T_int v then Some (canon ex_rnd T_int v) else None
  | A_int64 => if value_fits T_long v then Some (canon ex_rnd T_long v) else None
  | A_float32 => if value_fits T_float v then Some (canon ex_rnd T_float v) else None
  | A_float64 => if value_fits T_double v then Some (canon ex_rnd T_double v) else None
  | A_string => if value_fits T_string v then Some v else None
  | A_binary => if value_fits T_binary v then Some v else None
  | A_bool_ => if value_fits T_boolean v then Some v else None
  | A_date32 => if value_fits T_date v then Some v else None
  | A_time64_us => if value_fits T_time v then Some v else None
  | A_timestamp_us => if value_fits T_timestamp v then Some v else None
  end.
Fixpoint ex_conv_all (f : pyval -> option pyval) (l : list pyval) : option (list pyval) :=
  match l with
  | [] => Some []
  | x :: l' => match f x, ex_conv_all f l' with Some y, Some ys => Some (y :: ys) | _, _ => None end
  end.
Fixpoint ex_conv (a : catype) (v : pyval) : option pyval :=
  match a with
  | APrim p => ex_conv_prim p v
  | AList e => match v with
               | PV VNull => Some v
               | PList l => match ex_conv_all (ex_conv e) l with Some l' => Some (PList l') | None => None end
               | _ => None
               end
  end.

Lemma ex_conv_prim_sound t v c : value_fits t v = true -> ex_conv_prim (arrow_of_type t) v = Some c -> c = canon ex_rnd t v.
Proof.
  intros F H.
  assert (E : ex_conv_prim (arrow_of_type t) v = Some (canon ex_rnd t v)); [|congruence].
  destruct t; cbn [arrow_of_type ex_conv_prim]; try (rewrite F; reflexivity).
  (* fixed and uuid columns are stored as binary and string ones, under the same admission test *)
  - change (value_fits T_binary v) with (value_fits T_fixed v). rewrite F. reflexivity.
  - change (value_fits T_string v) with (value_fits T_uuid v). rewrite F. reflexivity.
Qed.

Lemma ex_conv_sound : conv_sound ex_rnd ex_conv.
Proof.
  intro t. induction t as [t|e IH]; intros v c F H; simpl in *.
  - exact (ex_conv_prim_sound t v c F H).
  - destruct v as [[| | | | | | |]| | |l]; try discriminate; [inversion H; reflexivity|].
    destruct (ex_conv_all (ex_conv (arrow_of_ctype e)) l) as [l'|] eqn:E; [|discriminate]. inversion H; subst c. clear H. f_equal.
    revert l' E. induction l as [|x l IHl]; simpl; intros l' E.
    + inversion E; reflexivity.
    + simpl in F. apply andb_true_iff in F. destruct F as [F1 F2].
      destruct (ex_conv (arrow_of_ctype e) x) as [y|] eqn:Y; [|discriminate].
      destruct (ex_conv_all (ex_conv (arrow_of_ctype e)) l) as [ys|] eqn:YS; [|discriminate].
      inversion E; subst. rewrite (IH x y F1 Y), (IHl F2 ys eq_refl). reflexivity.
Qed.

Lemma ex_fits_kind t v : value_fits t v = true -> has_kind (kind_of_atype (arrow_of_type t)) (bval (canon ex_rnd t v)) = true.
Proof.
  destruct t; destruct v as [[|b|z|[q| | |]|s|u|d|u]|bs| |l]; intro H; try discriminate H; reflexivity.
Qed.

Lemma ex_conv_kinds : conv_kinds ex_conv.
Proof.
  intros a v c. destruct a as [a|e]; simpl.
  - (* ex_conv_prim answers with canon of an admitted value *)
    destruct a; cbn [ex_conv_prim];
      match goal with |- (if ?b then _ else _) = _ -> _ => destruct b eqn:F end; intros [= <-]; exact (ex_fits_kind _ v F).
  - destruct v as [[| | | | | | |]| | |l]; try discriminate; [intro H; inversion H; reflexivity|].
    destruct (ex_conv_all (ex_conv e) l); intro H; inversion H; reflexivity.
Qed.

Definition ex_rec (a b : pyval) : record := [(0, a); (1, b)].
Definition ex_history : list event :=
  [ {| e_handle := 0; e_arg := None; e_recs := [ex_rec (PV (VInt 7)) (PV (VFlt (Fin (1 # 2))))]; e_commit_ok := true |};
    {| e_handle := 0; e_arg := Some {| sid := 1; sfields := rev ex_fields; sstring := 1 |}; e_recs := [ex_rec (PV (VInt 8)) (PV VNull)]; e_commit_ok := true |};
    {| e_handle := 1; e_arg := Some {| sid := 7; sfields :=
         [ {| fid := 2; fname := 0; ftype := CPrim T_long; fspell := 0; freq := true |}; {| fid := 1; fname := 1; ftype := CPrim T_float; fspell := 0; freq := false |} ];
         sstring := 1 |};
       e_recs := [ex_rec (PV (VInt 9)) (PV VNull)]; e_commit_ok := true |};
    {| e_handle := 0; e_arg := None; e_recs := [ex_rec (PV (VFlt (Fin (3 # 2)))) (PV VNull)]; e_commit_ok := true |};
    {| e_handle := 0; e_arg := None; e_recs := [ex_rec (PV (VInt 10)) (PV VNull)]; e_commit_ok := false |};
    {| e_handle := 0; e_arg := Some {| sid := 7; sfields := ex_fields; sstring := 0 |}; e_recs := [[(0, PV (VInt 11))]]; e_commit_ok := true |} ].

Fixpoint outcomes (conv : catype -> pyval -> option pyval) (w : world) (es : list event) : list outcome :=
  match es with [] => [] | e :: es' => snd (step conv w e) :: outcomes conv (fst (step conv w e)) es' end.

Example C11_nonvacuous :
  conv_sound ex_rnd ex_conv
  /\ conv_kinds ex_conv
  /\ NoDup (map fname (sfields ex_ts)) /\ NoDup (map fid (sfields ex_ts))
  /\ outcomes ex_conv (init (Some ex_ts)) ex_history = [Accepted; RejSchema; RejSchema; RejRecords; RejCommit; Accepted]
  /\ full_scan (run ex_conv (init (Some ex_ts)) ex_history)
     = Some [ [(0, PV (VInt 7)); (1, PV (VFlt (Fin (1 # 2))))]; [(0, PV (VInt 11)); (1, PV VNull)] ]
  /\ map (fun f => (df_lo f, df_hi f)) (current (run ex_conv (init (Some ex_ts)) ex_history))
     = [ ([(1, VInt 7); (2, VFlt (Fin (1 # 2)))], [(1, VInt 7); (2, VFlt (Fin (1 # 2)))]); ([(1, VInt 11)], [(1, VInt 11)]) ]
  /\ w_store (run ex_conv (init (Some ex_ts)) ex_history) = [2; 0]
  /\ length (w_snaps (run ex_conv (init (Some ex_ts)) ex_history)) = 2%nat.
Proof.
  split; [exact ex_conv_sound|].
  split; [exact ex_conv_kinds|].
  split; [repeat constructor; simpl; intuition discriminate|].
  split; [repeat constructor; simpl; intuition discriminate|].
  vm_compute. repeat split.
Qed.

(* Non-vacuity for transactions: on the same table, append_files([good; MISSING]) raises and the commit of that
   transaction publishes nothing; a transaction with an accepted two-file call, a refused three-file call
   whose LAST file has a divergent footer, and an accepted records call commits one snapshot of 3 files. *)
Definition ex_good (i : Z) : pfile :=
  {| pf_id := i; pf_canonical := true; pf_exists := true; pf_parquet := true; pf_footer := Some (arrow_of ex_fields);
     pf_rows := [[(0, PV (VInt i)); (1, PV VNull)]]; pf_lo := None; pf_hi := None; pf_claims := no_claims |}.
Definition ex_missing : pfile :=
  {| pf_id := 99; pf_canonical := true; pf_exists := false; pf_parquet := true; pf_footer := None; pf_rows := [];
     pf_lo := None; pf_hi := None; pf_claims := no_claims |}.
Definition ex_divergent : pfile :=
  {| pf_id := 98; pf_canonical := true; pf_exists := true; pf_parquet := true; pf_footer := Some (rev (arrow_of ex_fields)); pf_rows := [];
     pf_lo := None; pf_hi := None; pf_claims := no_claims |}.
(* a well-formed file holding a = 5 whose caller CLAIMS the bounds 100 .. 200 for column a (field id 1) *)
Definition ex_lying : pfile :=
  {| pf_id := 60; pf_canonical := true; pf_exists := true; pf_parquet := true; pf_footer := Some (arrow_of ex_fields);
     pf_rows := [[(0, PV (VInt 5)); (1, PV VNull)]]; pf_lo := Some [(1, VInt 100)]; pf_hi := Some [(1, VInt 200)];
     (* ... and a column_sizes map keyed "abc", the file's own checksum, and record_count = 100 *)
     pf_claims := {| pc_stat_keys := [None; Some 1]; pc_sum := Some true; pc_count := 100 |} |}.
(* the same file with a checksum that is not its own *)
Definition ex_wrong_sum : pfile :=
  {| pf_id := 61; pf_canonical := true; pf_exists := true; pf_parquet := true; pf_footer := Some (arrow_of ex_fields);
     pf_rows := [[(0, PV (VInt 5)); (1, PV VNull)]]; pf_lo := None; pf_hi := None;
     pf_claims := {| pc_stat_keys := []; pc_sum := Some false; pc_count := 1 |} |}.
Definition ex_tx3 : txn := {| t_handle := 0; t_calls := [CFiles [ex_lying]]; t_end := EndCommit true |}.
Definition ex_a_is_5 : fexpr := {| fcol := 0; fop_ := EQ; fsval := VInt 5; flval := [] |}.
Definition ex_tx1 : txn := {| t_handle := 0; t_calls := [CFiles [ex_good 50; ex_missing]]; t_end := EndCommit true |}.
Definition ex_tx2 : txn :=
  {| t_handle := 0;
     t_calls := [CFiles [ex_good 51; ex_good 52]; CFiles [ex_good 53; ex_good 54; ex_divergent];
                 CRecords None [ex_rec (PV (VInt 7)) (PV VNull)]];
     t_end := EndCommit true |}.

Lemma ex_good_typed i : pf_typed (ex_good i).
Proof.
  intros row [<-|[]] c. unfold cell. simpl. destruct (c =? 0); [reflexivity|]. destruct (c =? 1); reflexivity.
Qed.

Example C11_tx_nonvacuous :
  w_snaps (run_tx ex_conv (init (Some ex_ts)) ex_tx1) = []
  /\ map (map df_id) (w_snaps (run_txs ex_conv (init (Some ex_ts)) [ex_tx1; ex_tx2])) = [[51; 52; 0]]
  /\ full_scan (run_txs ex_conv (init (Some ex_ts)) [ex_tx1; ex_tx2])
     = Some [ [(0, PV (VInt 51)); (1, PV VNull)]; [(0, PV (VInt 52)); (1, PV VNull)]; [(0, PV (VInt 7)); (1, PV VNull)] ]
  /\ txs_expected ex_conv ex_ts ex_rnd (init (Some ex_ts)) [ex_tx1; ex_tx2]
     = [ [(0, PV (VInt 51)); (1, PV VNull)]; [(0, PV (VInt 52)); (1, PV VNull)]; [(0, PV (VInt 7)); (1, PV VNull)] ]
  (* the trace of ex_tx2's calls: accepted (2 files), refused (tag 6, no file), accepted (1 file) *)
  /\ (match run_calls ex_conv (init (Some ex_ts)) tx_empty 0 (t_calls ex_tx2) with
      | (_, _, tr) => map (fun x => (fst x, map df_id (snd x))) tr end) = [(0, [51; 52]); (6, []); (0, [0])]
  (* caller-supplied bounds: the file claiming 100 .. 200 for a column that holds 5 is stored with the bounds of
     its CONTENT, the filtered scan a == 5 finds the row -- and pruning by the claimed bounds would have skipped it *)
  /\ map (fun f => (df_lo f, df_hi f)) (current (run_txs ex_conv (init (Some ex_ts)) [ex_tx3])) = [([(1, VInt 5)], [(1, VInt 5)])]
  /\ filtered_scan (fun _ _ => false) [ex_a_is_5] (run_txs ex_conv (init (Some ex_ts)) [ex_tx3]) = Some [ [(0, VInt 5); (1, VNull)] ]
  /\ file_may_match [(1, VInt 100)] [(1, VInt 200)] (ids_of ex_fields) [ex_a_is_5] = false
  /\ Forall (txn_Q pf_typed) [ex_tx1; ex_tx2; ex_tx3]
  /\ NoDup (adopted_ids [ex_tx1; ex_tx2; ex_tx3])
  (* the other claims: ex_lying (a statistics key "abc", record_count 100 for one row) is ACCEPTED and stored with the table's
     field ids as keys and the count 1; stored as given, its entry would be unsound; ex_wrong_sum is refused (tag 6) *)
  /\ (match call_step ex_conv (init (Some ex_ts)) [] 0 (CFiles [ex_lying]) with (_, _, t, added) => (t, map df_id added) end) = (0, [60])
  /\ stored_claims (Some ex_ts) ex_lying = {| sc_stat_keys := [Some 1; Some 2]; sc_sum_ok := Some true; sc_count := 1 |}
  /\ claims_sound (stored_claims_as_given ex_lying) ex_lying = false
  /\ (match call_step ex_conv (init (Some ex_ts)) [] 0 (CFiles [ex_good 50; ex_wrong_sum]) with (_, _, t, added) => (t, map df_id added) end) = (6, [])
  (* storage faults: the regenerated flags say that a failing refresh() / marker write reaches the caller *)
  /\ (resolve_refresh_propagates, marker_failure_propagates, queue_failure_propagates, files_exists_failure_propagates) = (true, true, true, true)
  /\ call_step ex_conv (init (Some ex_ts)) [] 0 (CRecordsF FAfterWrite None [ex_rec (PV (VInt 7)) (PV VNull)])
     = (fst (fst (fst (call_step ex_conv (init (Some ex_ts)) [] 0 (CRecordsF FAfterWrite None [ex_rec (PV (VInt 7)) (PV VNull)])))),
        [0], tag_storage_fault, [])
  (* the GC-protection step of append_files, as regenerated: every failure in it reaches the caller, the markers the
     call wrote are removed.  Two well-formed files: without a window they are queued and leave two markers; failing
     marker writes / a failing listing / a failing re-check raise as storage faults (7), an announced collection run
     refuses the adoption (6) -- nothing queued, no marker left; the hypothesis `unprotected m fs <> []` is needed: a
     call whose files this transaction has already adopted (m = [51; 52]) has nothing to protect and is accepted
     under the same windows; a transaction whose first adoption was refused under a window commits the second only *)
  /\ (adopt_marker_failure_propagates, adopt_listing_failure_propagates, adopt_refused_while_collecting,
      adopt_recheck_failure_propagates, adopt_cleanup_on_failure) = (true, true, true, true, true)
  /\ map (fun ft => let c := match ft with Some f => CFilesF f [ex_good 51; ex_good 52] | None => CFiles [ex_good 51; ex_good 52] end in
                    match call_step ex_conv (init (Some ex_ts)) [] 0 c with
                    | (_, wr, t, added) => (wr, t, map df_id added, call_marks (init (Some ex_ts)) [] 0 c) end)
         [None; Some FMarker; Some FAnnounce; Some FCollecting; Some FRecheck; Some FAfterWrite]
     = [([], 0, [51; 52], [51; 52]); ([], 7, [], []); ([], 7, [], []); ([], 6, [], []); ([], 7, [], []); ([], 0, [51; 52], [51; 52])]
  /\ map (fun f => match call_step ex_conv (init (Some ex_ts)) [51; 52] 0 (CFilesF f [ex_good 51; ex_good 52]) with
                   | (_, _, t, added) => (t, map df_id added) end) [FMarker; FAnnounce; FCollecting; FRecheck]
     = [(0, [51; 52]); (0, [51; 52]); (0, [51; 52]); (0, [51; 52])]
  /\ map (map df_id) (w_snaps (run_tx ex_conv (init (Some ex_ts))
        {| t_handle := 0; t_calls := [CFilesF FAnnounce [ex_good 51; ex_good 52]; CFiles [ex_good 53]; CFilesF FMarker [ex_good 53]];
           t_end := EndCommit true |})) = [[53; 53]].
Proof.
  repeat apply conj.
  (* all conjuncts but two are evaluations of the model on the example *)
  all: try (vm_compute; reflexivity).
  - (* pf_typed: every file is an ex_good i (ex_lying has the rows and the footer of ex_good 5) or holds no row *)
    repeat constructor; try exact (ex_good_typed _); try exact (ex_good_typed 5); intros row [].
  - (* no file name is adopted twice *)
    repeat constructor; simpl; intuition discriminate.
Qed.

(* Non-vacuity for list columns and record keys: the table {a: long (id 1); l: list<long> (id 2)}.  [1, 2.0] is
   accepted and stored as [1, 2]; [1.5] (an element the element type cannot hold), the scalar 5 in the list
   column, and a record with a key that is not a str (-2: an object whose str() is the name of column l) are
   refused and leave no trace. *)
Definition ex_lfields : list field :=
  [ {| fid := 1; fname := 0; ftype := CPrim T_long; fspell := 0; freq := true |};
    {| fid := 2; fname := 1; ftype := CList (CPrim T_long); fspell := 1; freq := false |} ].
Definition ex_lts : ischema := {| sid := 1; sfields := ex_lfields; sstring := 0 |}.
Definition ex_lapp (r : record) : event := {| e_handle := 0; e_arg := None; e_recs := [r]; e_commit_ok := true |}.
Definition ex_lhistory : list event :=
  [ ex_lapp [(0, PV (VInt 1)); (1, PList [PV (VInt 1); PV (VFlt (Fin (2 # 1)))])];
    ex_lapp [(0, PV (VInt 2)); (1, PList [PV (VFlt (Fin (3 # 2)))])];
    ex_lapp [(0, PV (VInt 3)); (1, PV (VInt 5))];
    ex_lapp [(0, PV (VInt 4)); (-2, PV (VStr []))] ].

Example C11_lists_keys_nonvacuous :
  outcomes ex_conv (init (Some ex_lts)) ex_lhistory = [Accepted; RejRecords; RejRecords; RejRecords]
  /\ full_scan (run ex_conv (init (Some ex_lts)) ex_lhistory) = Some [ [(0, PV (VInt 1)); (1, PList [PV (VInt 1); PV (VInt 2)])] ]
  /\ value_fits_c (CList (CPrim T_long)) (PList [PV (VInt 1); PV (VFlt (Fin (2 # 1)))]) = true
  /\ ~ representable_c (CList (CPrim T_long)) (PList [PV (VFlt (Fin (3 # 2)))])
  /\ map (fun f => (df_lo f, df_hi f)) (current (run ex_conv (init (Some ex_lts)) ex_lhistory)) = [([(1, VInt 1)], [(1, VInt 1)])].
Proof.
  split; [vm_compute; reflexivity|]. split; [vm_compute; reflexivity|]. split; [vm_compute; reflexivity|].
  split; [|vm_compute; reflexivity].
  (* [1.5] is not representable in list<long>: 3/2 is no integer *)
  simpl. intro H. inversion H as [|x l H1 H2]; subst. destruct H1 as [z [_ [E|[q [E Q]]]]]; [discriminate|].
  inversion E; subst. unfold Qeq in Q. simpl in Q. lia.
Qed.

(* Non-vacuity for handle provenance.  ex_narrow is the table's schema with b narrowed-by-name only: the SAME
   schema_id, b retyped float -> double and the columns reordered.  (1) Handle 0 is re-obtained by
   create_table(path, schema=ex_narrow) after one append; the schema-less append that follows is accepted, writes
   the table's layout, and the scan returns both rows.  (2) The hypothesis is needed: were the opening code to
   derive a layout from its argument (`open_with [OADerive SrcArg]`, an UNSAFE action list), the same history would
   write a file with the foreign layout and the full scan would raise. *)
Definition ex_narrow : ischema :=
  {| sid := 1; sstring := 0; sfields :=
     [ {| fid := 2; fname := 1; ftype := CPrim T_double; fspell := 0; freq := false |};
       {| fid := 1; fname := 0; ftype := CPrim T_long; fspell := 0; freq := true |} ] |}.
Definition ex_app (z : Z) : event :=
  {| e_handle := 0; e_arg := None; e_recs := [ex_rec (PV (VInt z)) (PV (VFlt (Fin (1 # 2))))]; e_commit_ok := true |}.
Definition ex_hhistory : list hevent :=
  [HOpen 0 OLoad; HAppend (ex_app 7); HOpen 0 (OCreate (Some ex_narrow)); HOpen 5 (OCtor (Some ex_narrow)); HAppend (ex_app 8)].

Example C11_handles_nonvacuous :
  houtcomes ex_conv (init (Some ex_ts)) ex_hhistory = [Accepted; Accepted]
  /\ full_scan (hrun ex_conv (init (Some ex_ts)) ex_hhistory)
     = Some [ [(0, PV (VInt 7)); (1, PV (VFlt (Fin (1 # 2))))]; [(0, PV (VInt 8)); (1, PV (VFlt (Fin (1 # 2))))] ]
  /\ safe_action (OADerive SrcArg) = false
  /\ (let w1 := fst (step ex_conv (init (Some ex_ts)) (ex_app 7)) in
      let w2 := fst (step ex_conv (open_with [OADerive SrcArg] w1 0 (Some ex_narrow)) (ex_app 8)) in
      snd (step ex_conv (open_with [OADerive SrcArg] w1 0 (Some ex_narrow)) (ex_app 8)) = Accepted
      /\ scan_ok (current w2) = false /\ full_scan w2 = None).
Proof. vm_compute. repeat split. Qed.
