(* Props/C19.v -- Locks exclude, time out, and never report a lock that is not held.
   Theorem statements, each with its last step from the lemmas of Proofs/FLockProofs.v, LockAgeProofs.v, LockProofs.v,
   LockEnvProofs.v, ProcLockProofs.v, ProcLockC19Proofs.v and ProcForkProofs.v, and Print Assumptions beneath.

   Local lock (Model/FLock.v): FileLock in flock mode over a kernel model {path -> inode,
   open file descriptions, flock holder per inode}.  The kernel's flock decision is the PARAMETER
   `grant`; the theorems assume only `flock_excl grant` (an exclusive flock is granted on an inode
   only when no other open file description holds it) -- the one fact about Linux that is not proved
   here; it is exercised by the harness (real flock under every schedule, multi-process stress).
   Quantification: every event list = every interleaving of ANY number of clients at primitive
   granularity (clock read / open / flock / close / sleep), any clock advances, any process deaths.

   S3 lock (Model/Lock.v): the conditional-write lock over a strongly consistent object store with
   atomic requests, fresh ETags, a skew-free clock, request faults (no effect / permanent / reply
   lost after the effect), client deaths, renewals at arbitrary moments, and an ENVIRONMENT that may
   change at any moment (event SEnv): the process's local time zone (TZ / tzset / DST switch) and the
   rendering of LastModified in head replies (aware at any utcoffset, or naive).  The age test is the
   kernel regenerated from S3LockProvider._try_takeover_expired (Gen/GenLockAge.v, translator/
   gen_lockage.py) over the datetime model Model/PyTime.v; every S3 theorem below quantifies over all
   event lists and hence over all zone / rendering histories.

   The full S3 mutual-exclusion statement (C19_s3_mutex in DESIGN.md) is NOT a theorem of the code as it stands:
   release() is GET-then-unconditional-DELETE, and a releaser paused past its lease deletes its successor's lock.
   The full statement is
   the Definition s3_mutex_full (Model/Lock.v; its first argument cd = false is the code as it stands,
   cd = true a variant with a conditional DELETE); C19_s3_mutex_refuted exhibits the schedule;
   C19_s3_mutex_partial proves mutual exclusion for every run in which no release's DELETE lands
   after the releaser's own lease lapsed (ghost flag late_delete = false). *)
From Coq Require Import ZArith List.
Require Import DS.Model.PyTime DS.Model.FLock DS.Model.Lock DS.Gen.GenLockConst DS.Gen.GenLockAge
               DS.Proofs.FLockProofs DS.Proofs.LockAgeProofs DS.Proofs.LockProofs DS.Proofs.LockEnvProofs.
Import ListNotations.
Open Scope Z_scope.
(* FLockProofs and LockProofs both declare actor, cinv, framed, readings, step_framed and step_other (and a field C_rel):
   unqualified, these mean LockProofs' here, the later import.  The flock lemmas used below have names of their own. *)

(* Local lock (Model/FLock.v). *)

(* At most one live client reports is_held() (outside the two instructions at the end of release()),
   and whoever does is the kernel-level flock holder of the one lock inode through its own descriptor. *)
Theorem C19_flock_mutex : forall (grant : option ofd -> ofd -> bool) (poll : Z), flock_excl grant ->
  forall evs : list fevent, no_unlink evs ->
  let s := frun grant poll finit evs in
  (forall c1 c2 : cid, holding s c1 -> holding s c2 -> c1 = c2)
  /\ (forall c : cid, holding s c ->
        exists (fd : ofd) (i : inode),
          names s = Some i /\ lock_fd (cl s c) = Some fd /\ ofdt s fd = Some (c, i) /\ holder s i = Some fd).
Proof.
  intros grant poll Hx evs Hn s. pose proof (reach_inv grant poll Hx evs Hn) as I.
  split; [intros c1 c2; apply mutex_of_inv; exact I|intro c; apply holding_owns; exact I].
Qed.
Print Assumptions C19_flock_mutex.

(* No client step removes the directory entry (only the environment event EUnlink does), hence all open
   descriptions of all clients refer to ONE inode, the one the path names. *)
Theorem C19_flock_same_inode : forall (grant : option ofd -> ofd -> bool) (poll : Z), flock_excl grant ->
  forall evs : list fevent, no_unlink evs ->
  let s := frun grant poll finit evs in
  forall (o1 o2 : ofd) (c1 c2 : cid) (i1 i2 : inode),
    ofdt s o1 = Some (c1, i1) -> ofdt s o2 = Some (c2, i2) -> i1 = i2 /\ names s = Some i1.
Proof.
  intros grant poll Hx evs Hn s o1 o2 c1 c2 i1 i2 H1 H2.
  pose proof (I_k s (reach_inv grant poll Hx evs Hn)) as K.
  apply (I_ofd s K) in H1. apply (I_ofd s K) in H2. destruct H1 as [_ H1]. destruct H2 as [_ H2].
  split; [congruence|assumption].
Qed.
Print Assumptions C19_flock_same_inode.

(* Why release() must not delete the lock file: with an unlink in the schedule (the environment event
   EUnlink; no client program contains one) two clients hold "the" lock at once, on two inodes. *)
Theorem C19_flock_unlink_breaks_mutex :
  let s := frun kernel_grant poll_ms finit unlink_witness in holding s 0%N /\ holding s 1%N.
Proof. vm_compute. repeat split; discriminate. Qed.
Print Assumptions C19_flock_unlink_breaks_mutex.

(* A holder's death frees the lock, and any waiter then succeeds on its next flock attempt (and is the
   only holder).  `flock_free`: the kernel grants a free inode. *)
Theorem C19_flock_death : forall (grant : option ofd -> ofd -> bool) (poll : Z), flock_excl grant -> flock_free grant ->
  forall (evs : list fevent) (cs : list cid) (c w : cid) (fd : ofd), no_unlink evs ->
  let s := frun grant poll finit evs in
  holding s c -> In c cs ->
  let s' := fstep grant poll s (EDie cs) in
  (forall i : inode, names s' = Some i -> holder s' i = None)
  /\ (alive (cl s' w) = true -> pc (cl s' w) = PFlock fd ->
      let s'' := fstep grant poll s' (EStep w) in
      holding s'' w /\ res (cl s'' w) = ROk /\ (forall w' : cid, holding s'' w' -> w' = w)).
Proof.
  intros grant poll Hx Hfree evs cs c w fd Hn s. apply death_frees; [exact Hx|exact Hfree|exact (reach_inv grant poll Hx evs Hn)].
Qed.
Print Assumptions C19_flock_death.

(* TimeoutError is raised no earlier than the deadline and no later than one clock-read gap after it
   (maxgap = the largest advance of the clock between two consecutive clock reads of this acquire();
   = the poll interval when time passes only in this client's sleeps), and the loop goes round at most
   timeout/poll + 1 times: every sleep lasts at least `poll`. *)
Theorem C19_flock_timeout : forall (grant : option ofd -> ofd -> bool) (poll : Z) (evs : list fevent) (c : cid),
  let s := frun grant poll finit evs in
  let x := cl s c in
  (res x = RTimeout ->
     deadline x = start x + timeout x /\ deadline x <= ret_time x
     /\ ret_time x <= Z.max (start x) (start x + timeout x) + maxgap x)
  /\ (0 < iters x -> (iters x - 1) * poll < timeout x)
  /\ (forall u : Z, pc x = PSleep u -> start x + (iters x + 1) * poll <= u /\ iters x * poll < timeout x).
Proof.
  intros grant poll evs c s. destruct (reach_tinv grant poll evs c) as [_ Tsleep Tbound Tret].
  exact (conj Tret (conj Tbound Tsleep)).
Qed.
Print Assumptions C19_flock_timeout.

(* acquire() returns True only through a granted flock, at a moment when NO client was holding. *)
Theorem C19_flock_ok_only_when_free : forall (grant : option ofd -> ofd -> bool) (poll : Z), flock_excl grant ->
  forall (evs : list fevent) (c : cid), no_unlink evs ->
  let s := frun grant poll finit evs in
  let s' := fstep grant poll s (EStep c) in
  res (cl s c) <> ROk -> res (cl s' c) = ROk -> (forall c' : cid, ~ holding s c') /\ holding s' c.
Proof. intros grant poll Hx evs c Hn s. apply ok_only_when_free; [exact Hx|exact (reach_inv grant poll Hx evs Hn)]. Qed.
Print Assumptions C19_flock_ok_only_when_free.

(* S3 conditional-write lock (Model/Lock.v). *)

(* Ownership of an existing lock object passes to another client only when the object's age exceeds
   the lease at that very instant (and the new object is stamped with that instant). *)
Theorem C19_s3_takeover_after_lease : forall (cd : bool) (lease rsleep : Z) (evs : list sevent) (ev : sevent) (o o' : lobj),
  let s := srun cd lease rsleep sinit evs in
  let s' := sstep cd lease rsleep s ev in
  obj s = Some o -> obj s' = Some o' -> owner o' <> owner o ->
  snow s - lm o > lease /\ lm o' = snow s.
Proof.
  intros cd lease rsleep evs ev o o' s s' Eo Eo' Hne. subst s'.
  destruct (step_obj cd lease rsleep s ev (reach_sinv cd lease rsleep evs)) as [Same|[(c & Del & _)|(c & Wr & Cond)]].
  - congruence.
  - congruence.
  - rewrite Wr in Eo'. injection Eo' as <-. simpl in *.
    (* created on an absent object: against Eo; c renewing its own object: same owner, against Hne; left: the takeover *)
    destruct Cond as [[_ [N|(o1 & Eo1 & Lp)]]|(o1 & Eo1 & Ow)]; try congruence.
    assert (o1 = o) by congruence. subst o1. auto.
Qed.
Print Assumptions C19_s3_takeover_after_lease.

(* The lease-age kernel of the source, for EVERY process zone, every instant and every utcoffset the
   reply's LastModified is written in: the age is the difference of the two instants (zone and offsets
   cancel); a naive LastModified makes the expression raise. *)
Theorem C19_s3_age_any_zone_any_rendering : forall (zone now inst lease : Z) (r : option Z),
  takeover_age zone now (dt_render r inst) lease = match r with Some _ => Some (now - inst) | None => None end.
Proof. exact takeover_age_render. Qed.
Print Assumptions C19_s3_age_any_zone_any_rendering.

(* ... and in the lock machine, in any state (any zone, any rendering carried by the head reply): the
   client goes on to the conditional PUT exactly when the object's age exceeds the lease at that instant;
   with a naive LastModified acquire() ends with the exception -- no request, no change of belief (fails
   closed, never a success). *)
Theorem C19_s3_age_test_in_any_environment :
  forall (cd : bool) (lease rsleep : Z) (s : sstate) (c : N) (f : fault) (j l : Z) (e : N) (r : option Z),
  s_alive (scl s c) = true -> s_pc (scl s c) = QAge l e r ->
  let s' := sstep cd lease rsleep s (SStep c f j) in
  obj s' = obj s /\ snow s' = snow s /\ is_locked (scl s' c) = is_locked (scl s c)
  /\ match r with
     | Some _ => s_pc (scl s' c) = (if snow s - l <=? lease then QTimeChk else QTake l e)
                 /\ s_res (scl s' c) = s_res (scl s c)
     | None => s_pc (scl s' c) = QIdle /\ s_res (scl s' c) = SRaised
     end.
Proof.
  intros cd lease rsleep s c f j l e r A P s'.
  (* the step is computed once, in the equation E, not at each of the six places the statement reads s' *)
  remember s' as s1 eqn:E. unfold s' in E. clear s'. simpl in E. rewrite A, P, takeover_age_render in E.
  destruct r as [off|].
  - rewrite takeover_keeps_spec in E. destruct (snow s - l <=? lease); subst s1; simpl; rewrite updN_same; simpl; auto.
  - subst s1. simpl. rewrite updN_same. simpl. auto.
Qed.
Print Assumptions C19_s3_age_test_in_any_environment.

(* The environment is invisible.  For EVERY event list whose environment events render LastModified as an
   aware datetime (at any utcoffset; any process zone; changing at any moments): erasing those events leaves
   the lock object, the ETag counter, the clock, every client's record and program counter and the whole
   request / result trace unchanged (env_sim, Model/Lock.v) -- by simulation over every step of the machine. *)
Theorem C19_s3_environment_irrelevant : forall (cd : bool) (lease rsleep : Z) (evs : list sevent),
  forallb aware_ev evs = true ->
  env_sim (srun cd lease rsleep sinit evs) (srun cd lease rsleep sinit (strip_env evs)).
Proof. intros cd lease rsleep evs A. apply sim_run; [exact env_sim_init|exact A]. Qed.
Print Assumptions C19_s3_environment_irrelevant.

(* Hence two processes in ANY two zone / rendering histories that are given the same calls, steps, faults,
   renewals, clock advances and deaths behave identically: what one lock client does can never depend on TZ. *)
Theorem C19_s3_same_in_every_environment : forall (cd : bool) (lease rsleep : Z) (evs1 evs2 : list sevent),
  forallb aware_ev evs1 = true -> forallb aware_ev evs2 = true -> strip_env evs1 = strip_env evs2 ->
  env_sim (srun cd lease rsleep sinit evs1) (srun cd lease rsleep sinit evs2).
Proof.
  intros cd lease rsleep evs1 evs2 A1 A2 E.
  eapply env_sim_trans; [apply C19_s3_environment_irrelevant; exact A1|].
  rewrite E. apply env_sim_sym. apply C19_s3_environment_irrelevant. exact A2.
Qed.
Print Assumptions C19_s3_same_in_every_environment.

(* Why the kernel is regenerated rather than assumed: an age taken from the FIELDS of LastModified read as
   local time (time.mktime(lm.timetuple()), a naive .timestamp()) is the true age plus the process's UTC
   offset; in any zone east of UTC by more than the lease, a lock written at this very instant fails the
   `age <= lease` guard, i.e. would be taken over at age 0. *)
Theorem C19_s3_local_field_age_is_zone_shifted : forall (zone now inst : Z),
  age_by_local_fields zone now (dt_aware inst 0) = (now - inst) + zone.
Proof. intros. unfold age_by_local_fields, dt_mktime_fields, dt_aware; simpl. ring. Qed.
Print Assumptions C19_s3_local_field_age_is_zone_shifted.

Theorem C19_s3_local_field_age_premature : forall (zone lease now : Z),
  0 <= lease < zone -> takeover_keeps (age_by_local_fields zone now (dt_aware now 0)) lease = false.
Proof.
  intros zone lease now H. rewrite C19_s3_local_field_age_is_zone_shifted, takeover_keeps_spec, Z.sub_diag.
  apply Z.leb_gt. exact (proj2 H).
Qed.
Print Assumptions C19_s3_local_field_age_premature.

(* Once the lock object is somebody else's (a takeover landed) and as long as `a` does not call
   acquire() again: the object never becomes a's, no is_held() of a returns True, no renewal of a has any
   effect on the store, and a served renewal makes a drop is_locked. *)
Theorem C19_s3_superseded : forall (cd : bool) (lease rsleep : Z) (evs1 evs2 : list sevent) (a : N),
  let s1 := srun cd lease rsleep sinit evs1 in
  foreign s1 a ->
  forallb (fun ev : sevent => negb (is_acquire_of a ev)) evs2 = true ->
  let s2 := srun cd lease rsleep s1 evs2 in
  foreign s2 a
  /\ (forall (f : fault) (j : Z),
        s_res (scl s2 a) <> STrue -> s_res (scl (sstep cd lease rsleep s2 (SStep a f j)) a) <> STrue)
  /\ (forall f : fault, obj (sstep cd lease rsleep s2 (SRenew a f)) = obj s2)
  /\ (forall e : N,
        s_alive (scl s2 a) = true -> hb (scl s2 a) = true -> is_locked (scl s2 a) = true ->
        my_etag (scl s2 a) = Some e ->
        is_locked (scl (sstep cd lease rsleep s2 (SRenew a FNone)) a) = false).
Proof.
  intros cd lease rsleep evs1 evs2 a s1 F H s2.
  destruct (foreign_run cd lease rsleep evs2 s1 a (reach_sinv cd lease rsleep evs1) F H) as [I2 F2].
  split; [exact F2|exact (foreign_is_superseded cd lease rsleep s2 a I2 F2)].
Qed.
Print Assumptions C19_s3_superseded.

(* is_held() returns True only as the reply to a served GET whose body is the caller's own lock id:
   the caller owned the object at the time of the read.  (Any state, reachable or not.) *)
Theorem C19_s3_is_held_sound : forall (cd : bool) (lease rsleep : Z) (s : sstate) (ev : sevent) (c : N),
  s_res (scl s c) <> STrue -> s_res (scl (sstep cd lease rsleep s ev) c) = STrue ->
  exists (f : fault) (j : Z) (second : bool) (o : lobj),
    ev = SStep c f j /\ s_pc (scl s c) = QHeldGet second /\ obj s = Some o /\ owner o = c.
Proof.
  intros cd lease rsleep s ev c Hn Hr.
  destruct (proj2 (step_client cd lease rsleep s ev c)) as [E|R]; [congruence|]. rewrite Hr in R. exact R.
Qed.
Print Assumptions C19_s3_is_held_sound.

(* TimeoutError is raised at a reading t with start+timeout <= t, and (for a positive timeout) t < start+timeout+maxgap
   (maxgap = the largest clock advance between two consecutive time.time() readings of this acquire();
   at most the longest sleep, 0.9 s, when time passes only in this client's sleeps). *)
Theorem C19_s3_timeout : forall (cd : bool) (lease rsleep : Z) (evs : list sevent) (c : N),
  let x := scl (srun cd lease rsleep sinit evs) c in
  s_res x = STimeout ->
  s_start x + s_timeout x <= t_ret x
  /\ t_ret x <= Z.max (s_start x) (s_start x + s_timeout x) + s_maxgap x
  /\ (0 < s_timeout x -> t_ret x < s_start x + s_timeout x + s_maxgap x).
Proof.
  intros cd lease rsleep evs c x H. apply stinv_timeout; [apply reach_stinv|exact H].
Qed.
Print Assumptions C19_s3_timeout.

(* acquire() returns True only when the lock object was absent or older than the lease at the instant
   its conditional write landed -- never while another holder's object is within its lease. *)
Theorem C19_s3_ok_only_when_unowned : forall (cd : bool) (lease rsleep : Z) (evs : list sevent) (ev : sevent) (c : N),
  let s := srun cd lease rsleep sinit evs in
  s_res (scl s c) <> SOk -> s_res (scl (sstep cd lease rsleep s ev) c) = SOk ->
  (obj s = None \/ (exists o : lobj, obj s = Some o /\ snow s - lm o > lease))
  /\ obj (sstep cd lease rsleep s ev) = Some (fresh_obj s c).
Proof.
  intros cd lease rsleep evs ev c s Hn Hr.
  destruct (proj2 (step_client cd lease rsleep s ev c)) as [E|R]; [congruence|]. rewrite Hr in R.
  destruct R as [Wr [N|(l & e & P & Em)]]; (split; [|exact Wr]); [left; exact N|right].
  exact (take_lapsed lease s c l e (reach_sinv cd lease rsleep evs) P Em).
Qed.
Print Assumptions C19_s3_ok_only_when_unowned.

(* FULL statement (Model/Lock.v: s3_mutex_full cd lease rsleep := forall evs, s3_mutex_at lease (srun cd lease rsleep sinit evs)):
   at every instant at most one client is a live holder (believes it holds, has not started releasing,
   lease counted from its last acknowledged write not lapsed).  FALSE of the code as it stands: *)
Theorem C19_s3_mutex_refuted : ~ s3_mutex_full false default_lease_ms held_retry_sleep_ms.
Proof.
  intro M. specialize (M fc19_witness 1%N 2%N).
  assert (H : forall c, (c = 1%N \/ c = 2%N) ->
                        holder_live default_lease_ms (srun false default_lease_ms held_retry_sleep_ms sinit fc19_witness) c).
  { intros c [->| ->]; vm_compute; repeat split; intro; discriminate. }
  specialize (M (H 1%N (or_introl eq_refl)) (H 2%N (or_intror eq_refl))). discriminate.
Qed.
Print Assumptions C19_s3_mutex_refuted.

(* The hypothesis of C19_s3_mutex_partial cannot be weakened to "the DELETE lands within one lease of the
   release's own GET": a run where it lands 1.002 s after the GET and two holders are live. *)
Theorem C19_s3_mutex_gap_hypothesis_insufficient :
  let s := srun false default_lease_ms held_retry_sleep_ms sinit gap_witness in
  holder_live default_lease_ms s 1%N /\ holder_live default_lease_ms s 2%N /\ snow s = 60002 /\ late_delete s = true.
Proof. vm_compute. repeat split; intro; discriminate. Qed.
Print Assumptions C19_s3_mutex_gap_hypothesis_insufficient.

(* ... and TRUE for every run in which no release()'s DELETE landed after the releaser's own lease had
   lapsed; then every live holder is moreover the owner of the lock object. *)
Theorem C19_s3_mutex_partial : forall (lease rsleep : Z) (evs : list sevent),
  let s := srun false lease rsleep sinit evs in
  late_delete s = false ->
  s3_mutex_at lease s
  /\ (forall c : N, holder_live lease s c -> exists o : lobj, obj s = Some o /\ owner o = c).
Proof. intros lease rsleep evs s L. apply s3_mutex_partial. intros _. exact L. Qed.
Print Assumptions C19_s3_mutex_partial.

(* The repair that C19_s3_mutex_refuted's schedule calls for (KNOWN_FINDINGS.json, property C19), checked in the same
   model: if release()'s DELETE is conditional on the releaser's own ETag (cd = true), the FULL mutual-exclusion
   statement holds for every run.  (Not what the code does; S3 If-Match on DELETE is not universally available.) *)
Theorem C19_s3_mutex_conditional_delete : forall (lease rsleep : Z), s3_mutex_full true lease rsleep.
Proof. intros lease rsleep evs. apply (s3_mutex_partial true lease rsleep evs). discriminate. Qed.
Print Assumptions C19_s3_mutex_conditional_delete.

(* Non-vacuity: the hypotheses are met by concrete, non-trivial reachable states. *)
(* client 0 holds, client 1 is parked in front of its flock attempt, client 0's process dies, client 1 wins *)
Definition ex_flock : list fevent :=
  [ECallAcquire 0%N true 1000; EStep 0%N; EStep 0%N; EStep 0%N;
   ECallAcquire 1%N true 1000; EStep 1%N; EStep 1%N].

(* in a process 9 h east of UTC, replies rendering LastModified at -8 h:
   A acquires at 0 and renews at 20 s; at 90 s B takes over; A then asks is_held() *)
Definition ex_s3 : list sevent :=
  [SEnv 32400000 (Some (-28800000)); SCall 0%N (CAcquire 2000); SStep 0%N FNone 300; SStep 0%N FNone 300; STick 20000; SRenew 0%N FNone;
   STick 70000; SCall 1%N (CAcquire 2000); SStep 1%N FNone 300; SStep 1%N FNone 300; SStep 1%N FNone 300;
   SStep 1%N FNone 300].

Example C19_nonvacuous :
  flock_excl kernel_grant /\ flock_free kernel_grant /\ no_unlink ex_flock
  /\ (let s := frun kernel_grant poll_ms finit ex_flock in
      holding s 0%N /\ pc (cl s 1%N) = PFlock 1%N
      /\ let s'' := fstep kernel_grant poll_ms (fstep kernel_grant poll_ms s (EDie [0%N])) (EStep 1%N) in
         res (cl s'' 1%N) = ROk)
  /\ (let s := srun false default_lease_ms held_retry_sleep_ms sinit ex_s3 in
      let s' := sstep false default_lease_ms held_retry_sleep_ms s (SStep 1%N FNone 300) in
      late_delete s' = false
      /\ (exists o o', obj s = Some o /\ obj s' = Some o' /\ owner o = 0%N /\ owner o' = 1%N /\ lm o = 20000 /\ snow s = 90000)
      /\ holder_live default_lease_ms s' 1%N /\ is_locked (scl s' 0%N) = true /\ foreign s' 0%N)
  /\ forallb aware_ev ex_s3 = true /\ length (strip_env ex_s3) = 11%nat /\ length ex_s3 = 12%nat.
Proof.
  split; [exact kernel_grant_excl|]. split; [exact kernel_grant_free|].
  split.
  - unfold no_unlink, ex_flock. simpl. intuition discriminate.
  - vm_compute. repeat split; try discriminate; try (intros o H; inversion H; subst; simpl; discriminate).
    do 2 eexists. repeat split.
Qed.

(* Local lock across PROCESSES, under every process topology (Model/ProcLock.v + Model/ProcFork.v; imported here,
   after the statements above, so that their names shadow nothing they use).
   Writers are FileLock handles placed in OS processes by an ARBITRARY `proc : hid -> pid`: separate processes,
   several handles in one process, and processes created by fork().  A fork is the kernel's: `PFork p p' tw` copies
   EVERY handle object of p and EVERY open descriptor of p (tw = which handle of p' is the copy of which handle of p;
   the event is enabled only when tw covers every reference to an open description held in p -- a schedule cannot
   fork "just the idle handle" of a process whose other handle holds), each inherited descriptor sharing the parent's
   open file description; the kernel's lock belongs to the description (gen_lock_disc, regenerated from the primitive
   the source calls: Gen/GenFileLock.v), goes away with an unlock through it or with the LAST descriptor of it, and a
   process death closes the descriptors of that process only.  Every handle runs the regenerated program of
   FileLock._try_acquire_once / release one kernel primitive per event, and EVERY event list is a schedule.

   HYPOTHESIS on the environment, in every `_quiescent_partial` statement: `pforks_quiescent` -- at a fork NO handle
   of the forking process is inside an acquisition (attempt in progress, holding, inside release()).  The property
   text says "across threads and processes under any schedule", and a fork from inside a commit (a worker pool started
   by another thread) IS a schedule: the statements without the hypothesis are the `_full` Definitions, and they are
   FALSE (`_full_refuted`) -- that is fork(2) duplicating a holder, not a defect of FileLock; the process-family runs
   of the harness judge the copies of a holder made by a fork as ONE acquisition. *)
Require Import DS.Gen.GenFileLock DS.Model.ProcLock DS.Model.ProcLockKeep DS.Model.ProcFork.
Require DS.Proofs.ProcLockProofs DS.Proofs.ProcLockC19Proofs DS.Proofs.ProcForkProofs DS.Proofs.ListFacts.
Close Scope Z_scope.

(* At most one handle holds, among all handles of all processes, forked workers included; the handle that holds
   (flag set, not inside release()) is exactly the one whose description the kernel names as the lock's owner.
   What is_held() RETURNS is the flag `_locked` (lflag), and release() clears it only after the unlock and the close:
   the flag is set exactly for the kernel's owner and for a handle inside its own release() (in_release: unlocked,
   descriptor not yet closed), and for the latter the kernel lock is ALREADY GONE -- "never reports a lock that is
   not held" holds outside release() only (the owner thread is inside release(), not at a commit fence; see
   C19_proc_flag_is_owner_full_refuted for two flags at once). *)
Theorem C19_proc_mutex_quiescent_partial : forall (proc : hid -> pid) evs,
  pforks_quiescent gen_lock_disc proc linit evs ->
  let s := prun gen_lock_disc proc linit evs in
  (forall h1 h2, lholds s h1 -> lholds s h2 -> h1 = h2)
  /\ (forall h, lholds s h <-> lock_view s = Some h)
  /\ (forall h, lflag s h <-> (lock_view s = Some h \/ in_release s h))
  /\ (forall h, in_release s h -> lock_view s <> Some h /\ ~ lholds s h).
Proof.
  intros proc evs Q s. pose proof (ProcForkProofs.preach_inv proc evs Q) as I. fold s in I.
  split; [intros h1 h2; apply (ProcLockProofs.inv_exclusive s h1 h2 I)|].
  split; [intro h; apply (ProcLockProofs.inv_flag_iff_view s h I)|].
  split; [intro h; apply (ProcForkProofs.flag_is_owner_or_in_release s h I)|intro h; apply (ProcForkProofs.in_release_not_owner s h I)].
Qed.
Print Assumptions C19_proc_mutex_quiescent_partial.

(* The full statement -- any schedule, forks from inside an acquisition included -- and its refutation: a process
   forks while its handle holds; parent and child both hold. *)
Definition C19_proc_mutex_full : Prop := ProcForkProofs.proc_mutex_full.
Theorem C19_proc_mutex_full_refuted : ~ C19_proc_mutex_full.
Proof.
  intro H. specialize (H (fun h : hid => h) [PEv (LStep 0 KOpen); PEv (LStep 0 (KTry true)); PFork 0 1 [(0, 1)]] 0 1).
  assert (E : 0 = 1); [|discriminate E].
  apply H; eexists; vm_compute; reflexivity.
Qed.
Print Assumptions C19_proc_mutex_full_refuted.

(* "the handle whose flag is set is the kernel's owner, and at most one flag is set" without the exception for
   release(), and its refutation (quiescent forks -- none at all): handle 0 is inside release() after the unlock,
   handle 1 is granted: both flags are set. *)
Definition C19_proc_flag_is_owner_full : Prop := ProcForkProofs.proc_flag_is_owner_full.
Theorem C19_proc_flag_is_owner_full_refuted : ~ C19_proc_flag_is_owner_full.
Proof.
  intro H.
  specialize (H (fun h : hid => h) [PEv (LStep 0 KOpen); PEv (LStep 0 (KTry true)); PEv (LStep 0 KUnlock);
                                   PEv (LStep 1 KOpen); PEv (LStep 1 (KTry true))]).
  destruct H as [_ H]; [vm_compute; repeat split|].
  assert (E : 0 = 1); [|discriminate E].
  apply H; eexists; vm_compute; [right | left]; reflexivity.
Qed.
Print Assumptions C19_proc_flag_is_owner_full_refuted.

(* A holder's death releases the lock: after the death of the holder's process nobody holds, and EVERY idle handle of
   another process -- a separate process, a forked sibling, the forked parent -- is granted on its next attempt and
   is then the only holder. *)
Theorem C19_proc_death_frees_quiescent_partial : forall (proc : hid -> pid) evs h,
  pforks_quiescent gen_lock_disc proc linit evs ->
  let s := prun gen_lock_disc proc linit evs in
  lholds s h ->
  exists s', pstep gen_lock_disc proc s (PEv (LKill (proc h))) = Some s' /\ lock_view s' = None /\ (forall k, ~ lholds s' k)
    /\ (forall w, l_h s w = HIdle -> proc w <> proc h ->
          exists s'', prun_strict gen_lock_disc proc s' (map PEv (map (LStep w) attempt_granted_events)) 0 = inl s''
                      /\ lholds s'' w /\ lock_view s'' = Some w /\ (forall k, lholds s'' k -> k = w)).
Proof.
  intros proc evs h Q s. apply ProcForkProofs.death_frees. apply ProcForkProofs.preach_inv. exact Q.
Qed.
Print Assumptions C19_proc_death_frees_quiescent_partial.

(* The full statement and its refutation, with the topology the single-handle fork of Model/ProcLock.v could not
   express: process 0 has handles 0 (idle) and 1 (holding) and forks.  (2nd conjunct) the fork that leaves handle 1's
   descriptor out is not an event; (3rd) after the whole-table fork and the death of process 0 the kernel still has
   an owner -- the child's inherited descriptor keeps the owning description open --, the dead holder's copy 3 is the
   holder, and the outsider 4 is REFUSED; (4th) when the child's process is gone as well, the outsider is granted. *)
Definition C19_proc_death_frees_full : Prop := ProcForkProofs.proc_death_frees_full.
Theorem C19_proc_death_frees_full_refuted :
  ~ C19_proc_death_frees_full
  /\ pstep gen_lock_disc ProcForkProofs.two_in_one
       (prun gen_lock_disc ProcForkProofs.two_in_one linit [PEv (LStep 1 KOpen); PEv (LStep 1 (KTry true))]%nat)
       (PFork 0 1 [(0, 2)])%nat = None
  /\ (exists s, prun_strict gen_lock_disc ProcForkProofs.two_in_one linit
                  (ProcForkProofs.fork_while_other_holds ++ [PEv (LKill 0); PEv (LStep 4 KOpen); PEv (LStep 4 (KTry false))]%nat) 0 = inl s
                /\ l_owner s <> None /\ l_h s 1%nat = HDead /\ l_h s 3%nat = HHeld 0 /\ l_h s 4%nat = HRefused 1)
  /\ (exists s, prun_strict gen_lock_disc ProcForkProofs.two_in_one linit
                  (ProcForkProofs.fork_while_other_holds ++ [PEv (LKill 0); PEv (LKill 1); PEv (LStep 4 KOpen); PEv (LStep 4 (KTry true))]%nat) 0 = inl s
                /\ lholds s 4%nat).
Proof.
  split.
  - intro H. specialize (H ProcForkProofs.two_in_one ProcForkProofs.fork_while_other_holds 1).
    destruct H as [s' [E V]]; [eexists; vm_compute; reflexivity|].
    vm_compute in E. inversion E; subst s'. vm_compute in V. discriminate.
  - split; [vm_compute; reflexivity|]. split.
    + (* every event is accepted, so the strict run ends where the skipping run does (strict_witness): the facts are
         evaluated of that run *)
      eapply ListFacts.strict_witness; [reflexivity|reflexivity|vm_compute; reflexivity|].
      split; [vm_compute; discriminate|]. repeat split.
    + eapply ListFacts.strict_witness; [reflexivity|reflexivity|vm_compute; reflexivity|]. eexists; vm_compute; reflexivity.
Qed.
Print Assumptions C19_proc_death_frees_full_refuted.

(* acquire() succeeds only through a granted attempt, and an attempt is granted only when NO handle of any process
   holds; afterwards the acquirer is the only holder. *)
Theorem C19_proc_granted_only_when_free_quiescent_partial : forall (proc : hid -> pid) evs h s',
  pforks_quiescent gen_lock_disc proc linit evs ->
  let s := prun gen_lock_disc proc linit evs in
  pstep gen_lock_disc proc s (PEv (LStep h (KTry true))) = Some s' ->
  (forall k, ~ lholds s k) /\ lholds s' h /\ (forall k, lholds s' k -> k = h).
Proof.
  intros proc evs h s' Q s E.
  apply (ProcLockC19Proofs.granted_only_when_free proc s h s'); [apply ProcForkProofs.preach_inv; exact Q|exact E].
Qed.
Print Assumptions C19_proc_granted_only_when_free_quiescent_partial.

(* A blocked acquirer never reports success while another holder is live: once k holds, through ANY further events
   (any interleaving of any handles in any processes: polling rounds of the acquirer, other contenders, quiescent
   forks, deaths of other processes) that contain neither k's own unlock nor the death of k's process, k still
   holds, the acquirer h does not, the kernel's `granted` answer to h is not enabled and its `refused` answer is.
   SAFETY only: this machine has no clock; that the polling loop then ENDS in a timeout error within the configured
   timeout is C19_flock_timeout, a theorem of the single-process model Model/FLock.v (same handle program, with the
   deadline), not linked formally to this one. *)
Theorem C19_proc_blocked_never_succeeds_quiescent_partial : forall (proc : hid -> pid) evs evs2 k h,
  pforks_quiescent gen_lock_disc proc linit (evs ++ evs2) ->
  lholds (prun gen_lock_disc proc linit evs) k ->
  Forall (fun e => ~ ProcForkProofs.pends_holding proc k e) evs2 -> h <> k ->
  let s := prun gen_lock_disc proc linit (evs ++ evs2) in
  lholds s k /\ ~ lholds s h /\ pstep gen_lock_disc proc s (PEv (LStep h (KTry true))) = None
  /\ (forall d, l_h s h = HOpened d ->
        exists s', pstep gen_lock_disc proc s (PEv (LStep h (KTry false))) = Some s' /\ lholds s' k /\ l_h s' h = HRefused d).
Proof.
  intros proc evs evs2 k h Q Hk F N s. unfold s, prun. rewrite fold_left_app.
  destruct (ProcForkProofs.pforks_quiescent_split gen_lock_disc proc evs linit evs2 Q) as [Q1 Q2].
  apply ProcForkProofs.blocked_never_succeeds; [apply ProcForkProofs.preach_inv; exact Q1|exact Hk|exact Q2|exact F|exact N].
Qed.
Print Assumptions C19_proc_blocked_never_succeeds_quiescent_partial.

(* WHY this holds of the code: the regenerated program opens the lock file per attempt and closes it on refusal and in
   release(), so an idle handle has NO descriptor of the lock file, a process whose handles are all idle has none at
   all, and its fork -- the whole table -- inherits nothing. *)
Theorem C19_proc_idle_process_has_no_descriptor_quiescent_partial : forall (proc : hid -> pid) evs,
  pforks_quiescent gen_lock_disc proc linit evs ->
  let s := prun gen_lock_disc proc linit evs in
  (forall h d, l_h s h = HIdle -> ~ In (d, h) (l_open s))
  /\ (forall p p' tw s', (forall k, proc k = p -> l_h s k = HIdle) -> pstep gen_lock_disc proc s (PFork p p' tw) = Some s' ->
        l_open s' = l_open s /\ l_next s' = l_next s /\ l_owner s' = l_owner s /\ forall k, l_h s' k = l_h s k).
Proof.
  intros proc evs Q s. pose proof (ProcForkProofs.preach_inv proc evs Q) as I. fold s in I. split.
  - intros h d. apply ProcLockProofs.idle_no_descriptor. exact I.
  - intros p p' tw s'. apply ProcForkProofs.quiescent_pfork_inherits_nothing. exact I.
Qed.
Print Assumptions C19_proc_idle_process_has_no_descriptor_quiescent_partial.

(* ... and what a handle that KEPT its descriptor across acquisitions would do (Model/ProcLockKeep.v: same kernel, the
   close left out).  Refutation witnesses, both strict (enabled) runs of the model under the regenerated discipline:
   (1) parent 0 goes through one acquire / release cycle, forks worker 1 while idle -- the worker inherits the kept
       descriptor --, the parent acquires, and the worker's attempt through the SHARED description is granted too: two
       holders in two processes, the blocked acquirer reports success;
   (2) the forked worker acquires and its process dies: the parent still has the shared description open, the kernel's
       lock survives the holder's death and an independent handle 2 in a third process is refused. *)
Definition c19_own_proc (h : hid) : pid := h.
Theorem C19_proc_kept_descriptor_refuted :
  (exists s, krun_strict gen_lock_disc c19_own_proc linit
               [KEv (LStep 0 KOpen); KEv (LStep 0 (KTry true)); KUnlockKeep 0; KForkKeep 0 1;
                KEv (LStep 0 (KTry true)); KEv (LStep 1 (KTry true))]%nat 0 = inl s
             /\ lholds s 0%nat /\ lholds s 1%nat /\ c19_own_proc 0%nat <> c19_own_proc 1%nat)
  /\ (exists s, krun_strict gen_lock_disc c19_own_proc linit
               [KEv (LStep 0 KOpen); KEv (LStep 0 (KTry true)); KUnlockKeep 0; KForkKeep 0 1;
                KEv (LStep 1 (KTry true)); KEv (LKill 1); KEv (LStep 2 KOpen); KEv (LStep 2 (KTry false))]%nat 0 = inl s
             /\ (forall h, ~ lholds s h) /\ l_owner s <> None /\ l_h s 1%nat = HDead).
Proof.
  split.
  - eapply ListFacts.strict_witness; [reflexivity|reflexivity|vm_compute; reflexivity|].
    split; [eexists; vm_compute; reflexivity|]. split; [eexists; vm_compute; reflexivity | discriminate].
  - eapply ListFacts.strict_witness; [reflexivity|reflexivity|vm_compute; reflexivity|]. split.
    + intros h [d Hd]. vm_compute in Hd. destruct h as [|[|[|h]]]; discriminate.
    + split; [vm_compute; discriminate | vm_compute; reflexivity].
Qed.
Print Assumptions C19_proc_kept_descriptor_refuted.

(* Non-vacuity of the process-topology statements: process 0 has TWO handles (0 and 1), uses both once and forks
   workers (processes 1 and 2, copies 2,3 and 4,5 of its handles: quiescent whole-process forks, enabled); the worker's
   handle 2 acquires; the parent's attempt is refused; the worker's process dies; the parent is granted; and handle 0
   inside release() has its flag set without being the owner. *)
Definition ex_proc_of (h : hid) : pid := match h with 0 | 1 => 0 | 2 | 3 => 1 | _ => 2 end%nat.
Definition ex_procs : list pevent :=
  [PEv (LStep 0 KOpen); PEv (LStep 0 (KTry true)); PEv (LStep 0 KUnlock); PEv (LStep 0 KClose);
   PEv (LStep 1 KOpen); PEv (LStep 1 (KTry true)); PEv (LStep 1 KUnlock); PEv (LStep 1 KClose);
   PFork 0 1 [(0, 2); (1, 3)]; PFork 0 2 [(0, 4); (1, 5)];
   PEv (LStep 2 KOpen); PEv (LStep 2 (KTry true)); PEv (LStep 0 KOpen); PEv (LStep 0 (KTry false)); PEv (LStep 0 KCloseRefused)]%nat.
Example C19_proc_nonvacuous :
  pforks_quiescent gen_lock_disc ex_proc_of linit ex_procs
  /\ prun_strict gen_lock_disc ex_proc_of linit ex_procs 0 = inl (prun gen_lock_disc ex_proc_of linit ex_procs)
  /\ lholds (prun gen_lock_disc ex_proc_of linit ex_procs) 2%nat
  /\ l_h (prun gen_lock_disc ex_proc_of linit ex_procs) 0%nat = HIdle
  /\ (exists s, prun_strict gen_lock_disc ex_proc_of linit
                  (ex_procs ++ [PEv (LKill 1); PEv (LStep 0 KOpen); PEv (LStep 0 (KTry true)); PEv (LStep 0 KUnlock)]%nat) 0 = inl s
                /\ in_release s 0%nat /\ lflag s 0%nat /\ lock_view s = None)
  /\ Forall (fun e => ~ ProcForkProofs.pends_holding ex_proc_of 2%nat e)
       [PEv (LStep 0 KOpen); PEv (LStep 0 (KTry false)); PEv (LStep 0 KCloseRefused)]%nat.
Proof.
  split; [vm_compute; repeat split; intros k E; destruct k as [|[|[|[|k]]]]; try discriminate E; reflexivity|].
  split; [vm_compute; reflexivity|]. split; [eexists; vm_compute; reflexivity|]. split; [vm_compute; reflexivity|].
  split.
  - eapply ListFacts.strict_witness; [reflexivity|reflexivity|vm_compute; reflexivity|].
    split; [eexists; vm_compute; reflexivity|]. split; [eexists; right; vm_compute; reflexivity | vm_compute; reflexivity].
  - repeat constructor; intros [E|E]; discriminate.
Qed.
