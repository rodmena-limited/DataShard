(* Props/C16.v -- Commits are durable: the pointer never outruns the data it references.

   Model: coq/Model/Durable.v.  A file system is a volatile tree (what processes see) and a durable
   tree (what survives power loss) over inodes.  OS calls change the volatile tree; Fsync p makes
   p's inode content durable, FsyncDir d makes d's entries durable; and at ANY moment a background
   event may persist any one inode's content up to any length (never shrinking) or any one directory
   entry.  A schedule `es` interleaves the calls of a trace with arbitrary background events, so
   "power loss after the first n calls" ranges over every durable tree some schedule can produce:
   the drop-all outcome, "the pointer's rename reached the disk early", partially written-back
   files, and every mixture.  `run` returning Some also says no call failed with an OS error. *)
From Coq Require Import NArith List.
Require Import DS.Model.Durable DS.Proofs.DurableProofs DS.Proofs.DurablePrograms.
Require Import DS.Model.DurableChunks DS.Proofs.DurableChunksProofs DS.Proofs.DurableBurstsProofs.
Import ListNotations.
Open Scope N_scope.

(* For EVERY well-formed operation history (any number of create / append / multi-append /
   delete_files / expire / delete_snapshot commits, rolled-back transactions, and transactions whose
   append FAILED with an OS error at any durability call of the marker's or the data file's publish
   (temp creation, write, fsync, rename, DIRECTORY fsync -- wf bounds the failing call by the number of
   calls whose failure the source lets reach the caller, Gen/GenDurable.v gen_*_fallible = all five: a
   failed directory fsync is not swallowed; it leaves the file linked, its rename not durable, and the
   transaction is rolled back) and were rolled back; any number of files, any contents), EVERY prefix
   of its OS-call trace and EVERY power-loss outcome: if a pointer survives and names version v, then
   every file reachable from v is durably present with exactly its intended content (and that is also
   what running processes saw under that name) -- not missing, not empty, not partial. *)
Theorem C16_durable_prefix : forall ops, wf ops = true ->
  forall n es, calls_of es = firstn n (trace_of ops) ->
  exists s', run fs0 es = Some s' /\ safe_state s' /\
    forall v, pointer (power_loss s') = Some v ->
    forall k, reachable_from ops v k ->
      exists c, intended ops k = Some c /\ content_at (power_loss s') k = Some c /\ content_at (vol s') k = Some c.
Proof.
  intros ops Hwf. destruct (wf_checks ops Hwf) as [g' [u' [Hc HG]]]. exact (durable_prefix_tr ops _ g' u' Hc HG).
Qed.
Print Assumptions C16_durable_prefix.

(* Once the last call of a commit's pointer publish has returned (the commit is acknowledged), and
   for as long as no later commit advances the pointer -- through the cleanup of its markers and
   through any number of later transactions that are rolled back, voluntarily or because a durability
   call of an append failed with an OS error (is_abort: OAbort and OFail) -- every power-loss outcome has the
   pointer naming that commit's metadata file (whose reachable files are whole by C16_durable_prefix). *)
Theorem C16_acked_durable : forall ops c rest, forallb is_abort rest = true ->
  wf (ops ++ OCommit c :: rest) = true ->
  forall n es, (length (trace_of ops ++ commit_body c) <= n)%nat ->
  calls_of es = firstn n (trace_of (ops ++ OCommit c :: rest)) ->
  exists s', run fs0 es = Some s'
    /\ pointer (power_loss s') = Some (pf_path (c_meta c)) /\ pointer (vol s') = Some (pf_path (c_meta c)).
Proof. exact acked_durable_aborts. Qed.
Print Assumptions C16_acked_durable.

(* One publish sequence (write_file / DataFileWriter.close: Create temp, Write, Fsync, Rename,
   FsyncDir) started in ANY prior file-system state s0 in which the temp name is free: at every
   prefix and under every schedule, the name p durably holds either what it held before (an old
   entry, durable or volatile) or the new inode with the WHOLE content c -- never a partial c; the
   same for the visible tree; and after the last call p is durable with content c. *)
Theorem C16_each_publish : forall (s0 : fs) (d n : N) (c : content),
  entry (vol s0) (T d n) = None ->
  forall k es, calls_of es = firstn k (publish_meta (P d n) c) ->
  exists s', run s0 es = Some s'
    /\ (entry (dur s') (P d n) = entry (dur s0) (P d n) \/ entry (dur s') (P d n) = entry (vol s0) (P d n)
        \/ (entry (dur s') (P d n) = Some (next s0) /\ data (dur s') (next s0) = c))
    /\ (entry (vol s') (P d n) = entry (vol s0) (P d n)
        \/ (entry (vol s') (P d n) = Some (next s0) /\ data (vol s') (next s0) = c /\ data (dur s') (next s0) = c))
    /\ ((5 <= k)%nat -> entry (dur s') (P d n) = Some (next s0) /\ data (dur s') (next s0) = c
                        /\ entry (vol s') (P d n) = Some (next s0) /\ data (vol s') (next s0) = c).
Proof.
  (* the one-Write publish is the chunked one with a single burst *)
  intros s0 d n c Htmp k es Hes.
  destruct (chunked_each_publish s0 d n c Htmp [mkChunk c false] (app_nil_r c) k es Hes) as [s' [Hr [[A B] D]]].
  exists s'. repeat split; auto; now apply D.
Qed.
Print Assumptions C16_each_publish.

(* publish_data (DataFileWriter) is the same call sequence *)
Theorem C16_publish_data_same : forall p c, publish_data p c = publish_meta p c.
Proof. reflexivity. Qed.
Print Assumptions C16_publish_data_same.

(* The general form the ops-level theorems rest on, and the one the harness applies to the OBSERVED
   traces: any OS-call trace accepted by the publish discipline (Durable.check) is safe at every
   prefix under every schedule. *)
Theorem C16_disciplined_safe : forall tr, disciplined tr = true ->
  forall n es, calls_of es = firstn n tr ->
  exists s', run fs0 es = Some s' /\ safe_state s'.
Proof.
  intros tr Hd n es Hes. unfold disciplined in Hd. destruct (checks g0 tr) as [g'|] eqn:E; [|discriminate].
  destruct (chain_run _ es _ _ _ fs0 n (checks_chain _ _ _ E) Inv_init Hes) as [s' [Hr [Hs _]]]. eauto.
Qed.
Print Assumptions C16_disciplined_safe.

(* ---- data sizes: a data file written in BURSTS (Model/DurableChunks.v) -----------------------------------------
   DataFileWriter receives its rows through any number of write_batch calls (write_data_file: batches of 1000
   records; write_pandas_file: one batch) and close() adds the parquet footer: the temp file grows in bursts.
   publish_data_chunked p chs is the regenerated data-writer sequence (Gen/GenDurable.v gen_data_writer) with its
   single Write replaced by the bursts chs (gen_data_writer_burst each), each optionally followed by an incremental
   fsync of the temp file.

   For EVERY list of bursts -- any number, any sizes, any pattern of incremental fsyncs --, started in ANY prior
   state in which the temp name is free, at every prefix and under every schedule: the final name durably holds what
   it held before or the new inode with the WHOLE content (all bursts), never a partial file; the same for the
   visible tree; after the last call it is durable and whole. *)
Theorem C16_chunked_each_publish : forall (s0 : fs) (d n : N) (chs : list chunk),
  entry (vol s0) (T d n) = None ->
  forall k es, calls_of es = firstn k (publish_data_chunked (P d n) chs) ->
  exists s', run s0 es = Some s'
    /\ (entry (dur s') (P d n) = entry (dur s0) (P d n) \/ entry (dur s') (P d n) = entry (vol s0) (P d n)
        \/ (entry (dur s') (P d n) = Some (next s0) /\ data (dur s') (next s0) = chunks_content chs))
    /\ (entry (vol s') (P d n) = entry (vol s0) (P d n)
        \/ (entry (vol s') (P d n) = Some (next s0) /\ data (vol s') (next s0) = chunks_content chs
            /\ data (dur s') (next s0) = chunks_content chs))
    /\ ((length (publish_data_chunked (P d n) chs) <= k)%nat ->
        entry (dur s') (P d n) = Some (next s0) /\ data (dur s') (next s0) = chunks_content chs
        /\ entry (vol s') (P d n) = Some (next s0) /\ data (vol s') (next s0) = chunks_content chs).
Proof.
  intros s0 d n chs Htmp k es Hes.
  destruct (chunked_each_publish s0 d n _ Htmp chs eq_refl k es Hes) as [s' [Hr [[A B] D]]]. eauto.
Qed.
Print Assumptions C16_chunked_each_publish.

(* ---- the ops-level theorems over burst-written files ------------------------------------------------------------
   `burst_of tr' tr` (Model/DurableChunks.v): tr' is tr with ANY of its Write calls -- to data files, manifests,
   metadata files, the pointer: whichever -- replaced by a list of bursts of the same content (any number, any sizes),
   each burst optionally followed by an incremental fsync of that file; all other calls kept in place.
   `gsim g' g` (Proofs/DurableBurstsProofs.v): the two ghost states agree on the state of EVERY final name, on the
   referenced set, and on which temps are open with which content; the left one's temps are at least as synced.

   The chunked data writer is a burst refinement of the one-Write data writer trace_of is made of ... *)
Theorem C16_chunked_is_burst_of : forall p chs,
  burst_of (publish_data_chunked p chs) (publish_data p (chunks_content chs)).
Proof. exact chunked_burst_of. Qed.
Print Assumptions C16_chunked_is_burst_of.

(* ... the publish discipline accepts every burst refinement of every trace it accepts, from similar ghost states to
   similar ghost states (the frame: nothing else changes) ... *)
Theorem C16_burst_refines : forall tr' tr, burst_of tr' tr -> forall g' g g1, gsim g' g -> checks g tr = Some g1 ->
  exists g1', checks g' tr' = Some g1' /\ gsim g1' g1.
Proof. exact burst_refines. Qed.
Print Assumptions C16_burst_refines.

(* ... in particular for one data file: wherever the one-Write publish of the whole content is accepted, the chunked
   publish is accepted and leaves the same ghost state (every final name, the referenced set, no temp open) *)
Theorem C16_chunked_disciplined : forall g p chs g1,
  checks g (publish_data p (chunks_content chs)) = Some g1 ->
  exists g1', checks g (publish_data_chunked p chs) = Some g1' /\ gsim g1' g1.
Proof. intros g p chs g1. exact (burst_refines _ _ (chunked_burst_of p chs) g g g1 (gsim_refl g)). Qed.
Print Assumptions C16_chunked_disciplined.

(* THE HEADLINE THEOREM OVER BURST-WRITTEN FILES: C16_durable_prefix with trace_of ops replaced by ANY burst
   refinement of it.  For every well-formed history, every way of writing its files in bursts, every prefix of that
   trace, every power-loss outcome: a surviving pointer's reachable files are durably present with exactly their
   intended (whole) content.  Not lifted: a burst refinement of a FAILED publish (OFail: the failing publish keeps the
   shape failed_of gives it -- its Write may still be split, but a failure BETWEEN two bursts is the k = 1 / k = 2
   case of the one-Write model only up to the content written so far; such a file is never renamed, so never reachable). *)
Theorem C16_durable_prefix_bursts : forall ops, wf ops = true ->
  forall tr', burst_of tr' (trace_of ops) ->
  forall n es, calls_of es = firstn n tr' ->
  exists s', run fs0 es = Some s' /\ safe_state s' /\
    forall v, pointer (power_loss s') = Some v ->
    forall k, reachable_from ops v k ->
      exists c, intended ops k = Some c /\ content_at (power_loss s') k = Some c /\ content_at (vol s') k = Some c.
Proof.
  intros ops Hwf tr' Hb. destruct (wf_checks ops Hwf) as [g' [u' [Hc HG]]].
  destruct (burst_refines _ _ Hb g0 g0 g' (gsim_refl g0) Hc) as [g2 [C2 S2]].
  exact (durable_prefix_tr ops tr' g2 u' C2 (Ledger_sim _ _ _ _ _ HG S2)).
Qed.
Print Assumptions C16_durable_prefix_bursts.

(* C16_acked_durable over burst refinements: A' refines the history up to and including the commit's pointer publish,
   B' refines what follows (marker cleanup, rolled-back / failed transactions); once all of A' was issued the pointer
   names the acknowledged commit under every power-loss outcome. *)
Theorem C16_acked_durable_bursts : forall ops c rest, forallb is_abort rest = true ->
  wf (ops ++ OCommit c :: rest) = true ->
  forall A' B', burst_of A' (trace_of ops ++ commit_body c) -> burst_of B' (commit_cleanup c ++ trace_of rest) ->
  forall n es, (length A' <= n)%nat -> calls_of es = firstn n (A' ++ B') ->
  exists s', run fs0 es = Some s'
    /\ pointer (power_loss s') = Some (pf_path (c_meta c)) /\ pointer (vol s') = Some (pf_path (c_meta c)).
Proof.
  intros ops c rest Hab Hwf A' B' HA HB.
  destruct (acked_checks ops c rest Hab Hwf) as [g2 [gF [CA [S2 [Hv [CB HN]]]]]].
  destruct (burst_refines _ _ HA g0 g0 g2 (gsim_refl g0) CA) as [g2' [CA' SA]].
  destruct (burst_refines _ _ HB g2' g2 gF SA CB) as [gF' [CB' _]].
  apply (acked_tr A' B' g2' gF' (c_ptr c) _ CA'); auto.
  - destruct SA as [Hs _]. now rewrite Hs.
  - exact (burst_no_ptr _ _ HB HN).
Qed.
Print Assumptions C16_acked_durable_bursts.

(* A run on concrete inputs is shown by evaluating it once, together with what is claimed of its result. *)
Lemma run_then : forall s es (Q : fs -> Prop),
  match run s es with Some s' => Q s' | None => False end -> exists s', run s es = Some s' /\ Q s'.
Proof. intros s es Q. destruct (run s es) as [s'|]; [eauto|contradiction]. Qed.

(* non-vacuity: create_table, then an append whose data file P 3 3 is written as a row-group burst with an
   incremental fsync followed by a footer burst; the pointer's rename of the append is written back early *)
Definition ex_bchunks : list chunk := [mkChunk [Raw 700] true; mkChunk [Raw 69] false].
Definition ex_bops : list op :=
  [OCommit (mkCommit [] [] [] (mkPub (P 1 1) [Raw 1048]) [Raw 25; Ref (P 1 1)]);
   OCommit (mkCommit [mkItem (mkPub (P 2 2) [Raw 51]) (mkPub (P 3 3) (chunks_content ex_bchunks))]
           [mkItem (mkPub (P 2 4) [Raw 75]) (mkPub (P 4 5) [Raw 1602; Ref (P 3 3)])]
           [mkItem (mkPub (P 2 6) [Raw 95]) (mkPub (P 4 7) [Raw 829; Ref (P 4 5)])]
           (mkPub (P 1 8) [Raw 1587; Ref (P 4 7)]) [Raw 25; Ref (P 1 8)])].
Definition ex_btrace : list call :=
  firstn 16 (trace_of ex_bops) ++ bursts (T 3 3) ex_bchunks ++ skipn 17 (trace_of ex_bops).
Example C16_bursts_nonvacuous :
  wf ex_bops = true
  /\ burst_of ex_btrace (trace_of ex_bops)
  /\ length ex_btrace = S (S (length (trace_of ex_bops)))
  /\ firstn 5 (skipn 15 ex_btrace) = [Create (T 3 3); Write (T 3 3) [Raw 700]; Fsync (T 3 3); Write (T 3 3) [Raw 69]; Fsync (T 3 3)]
  /\ (exists s', run fs0 (map Call (firstn 51 ex_btrace) ++ [Bg (PEntry PTR)]) = Some s'
        /\ pointer (power_loss s') = Some (P 1 8)
        /\ content_at (power_loss s') (P 3 3) = Some [Raw 700; Raw 69])
  /\ (exists s', exec fs0 (firstn 18 ex_btrace) = Some s' /\ content_at (vol s') (T 3 3) = Some [Raw 700]).
Proof.
  split; [vm_compute; reflexivity|]. split.
  - replace (trace_of ex_bops) with (firstn 16 (trace_of ex_bops) ++ Write (T 3 3) (chunks_content ex_bchunks) :: skipn 17 (trace_of ex_bops))
      by (vm_compute; reflexivity).
    unfold ex_btrace. apply burst_of_app; [apply burst_of_refl|]. apply bo_split. apply burst_of_refl.
  - split; [vm_compute; reflexivity|]. split; [vm_compute; reflexivity|]. split.
    + apply run_then. vm_compute. auto.
    + apply run_then. vm_compute. auto.
Qed.

(* What may NOT depend on the sizes.  ANY trace in which a Write to a file is followed by the Rename of that file with
   no fsync of it in between -- directly, or with ANY other calls in between (writes to other files, their fsyncs,
   renames, directory fsyncs ...), whatever was synced incrementally before -- is rejected by the discipline, from every ghost state, whatever precedes and follows.
   (An Unlink of the file in between is excluded too: then there is nothing left to rename.) *)
Theorem C16_unsynced_tail_rejected : forall g pre f b mid q post,
  Forall (fun c => c <> Fsync f /\ c <> Unlink f) mid ->
  checks g (pre ++ Write f b :: mid ++ Rename f q :: post) = None.
Proof.
  intros g pre f b mid q post HF. rewrite checks_app. destruct (checks g pre) as [g1|]; [|reflexivity].
  destruct f as [d n|d n]; [reflexivity|]. cbn [checks check].
  destruct (tmps g1 (T d n)) as [[c0 fl]|] eqn:E; [|reflexivity]. rewrite checks_app.
  (* the Write leaves the temp recorded as not flushed, mid keeps it so, and the Rename wants it flushed *)
  destruct (checks _ mid) as [g2|] eqn:E2; [|reflexivity].
  eapply unsynced_stays in E2 as [c1 H1]; [|apply upd_t_same|exact HF].
  cbn [checks check]. destruct q as [d' n'|d' n']; [|reflexivity]. rewrite H1. reflexivity.
Qed.
Print Assumptions C16_unsynced_tail_rejected.

(* non-vacuity: another file's complete publish lies between the footer write and the rename *)
Example C16_unsynced_tail_nonvacuous :
  let mid := publish_meta (P 2 2) [Raw 51] in
  Forall (fun c => c <> Fsync (T 3 3) /\ c <> Unlink (T 3 3)) mid
  /\ checks g0 ([Create (T 3 3); Write (T 3 3) [Raw 700]; Fsync (T 3 3)] ++ Write (T 3 3) [Raw 69] :: mid ++ Rename (T 3 3) (P 3 3) :: [FsyncDir 3]) = None
  /\ disciplined ([Create (T 3 3); Write (T 3 3) [Raw 700]; Fsync (T 3 3)] ++ Write (T 3 3) [Raw 69] :: mid ++ Fsync (T 3 3) :: Rename (T 3 3) (P 3 3) :: [FsyncDir 3]) = true.
Proof.
  split; [|split; vm_compute; reflexivity].
  repeat constructor; intro E; discriminate.
Qed.

(* In particular the data writer without close()'s fsync (a writer that trusts its own bookkeeping of what was
   synced incrementally) is rejected for every list of bursts whose last burst has no fsync of its own ... *)
Theorem C16_nofinal_rejected : forall g d n chs b,
  checks g (publish_data_chunked_nofinal (P d n) (chs ++ [mkChunk b false])) = None.
Proof.
  intros g d n chs b. unfold publish_data_chunked_nofinal. cbn [tmp_of dir_of]. rewrite bursts_app, <- app_assoc.
  exact (C16_unsynced_tail_rejected g (Create (T d n) :: bursts (T d n) chs) (T d n) b [] (P d n) [FsyncDir d] (Forall_nil _)).
Qed.
Print Assumptions C16_nofinal_rejected.

(* ... and rightly: a first burst synced incrementally, a tail (the parquet footer) not, the rename, its directory
   fsync -- from ANY prior state the plain drop-all power loss leaves the final name durably linked to the first burst
   only (a torn file: a proper prefix whenever the tail is not empty) while running processes see the whole file. *)
Theorem C16_unsynced_tail_torn : forall s0 d n a b, entry (vol s0) (T d n) = None ->
  exists s', exec s0 [Create (T d n); Write (T d n) a; Fsync (T d n); Write (T d n) b; Rename (T d n) (P d n); FsyncDir d] = Some s'
    /\ content_at (power_loss s') (P d n) = Some a /\ content_at (vol s') (P d n) = Some (a ++ b).
Proof.
  intros s0 d n a b H. unfold exec. simpl. rewrite H. simpl.
  repeat (progress (rewrite ?upd_e_same, ?upd_d_same; simpl)).
  eexists. split; [reflexivity|]. unfold content_at, power_loss. simpl.
  repeat (progress (rewrite ?N.eqb_refl, ?upd_e_same, ?upd_d_same; simpl)). auto.
Qed.
Print Assumptions C16_unsynced_tail_torn.

(* non-vacuity: a row-group burst and the footer burst; the sequence the source performs today (no incremental
   fsync) and one with an incremental fsync are both accepted; without the final fsync the Rename (call 4) is refused *)
Definition ex_chunks (sync : bool) : list chunk := [mkChunk [Raw 652372] sync; mkChunk [Raw 21659] false].
Example C16_chunks_nonvacuous :
  publish_data_chunked (P 3 3) (ex_chunks true)
    = [Create (T 3 3); Write (T 3 3) [Raw 652372]; Fsync (T 3 3); Write (T 3 3) [Raw 21659]; Fsync (T 3 3);
       Rename (T 3 3) (P 3 3); FsyncDir 3]
  /\ disciplined (publish_data_chunked (P 3 3) (ex_chunks true)) = true
  /\ disciplined (publish_data_chunked (P 3 3) (ex_chunks false)) = true
  /\ publish_data_chunked (P 3 3) [mkChunk [Raw 769] false] = publish_data (P 3 3) [Raw 769]
  /\ first_bad g0 (publish_data_chunked_nofinal (P 3 3) (ex_chunks true)) 0 = Some 4%nat
  /\ chunks_content (ex_chunks true) = [Raw 652372; Raw 21659].
Proof. repeat split; vm_compute; reflexivity. Qed.

(* ---- non-vacuity ----------------------------------------------------------------------------
   A concrete history: create_table, then an append of one data file (marker, data file, marker,
   manifest, marker, manifest list, metadata v1, pointer, three markers unlinked). *)
Definition ex_create : commit :=
  mkCommit [] [] [] (mkPub (P 1 1) [Raw 1048]) [Raw 25; Ref (P 1 1)].
Definition ex_append : commit :=
  mkCommit [mkItem (mkPub (P 2 2) [Raw 51]) (mkPub (P 3 3) [Raw 769])]
           [mkItem (mkPub (P 2 4) [Raw 75]) (mkPub (P 4 5) [Raw 1602; Ref (P 3 3)])]
           [mkItem (mkPub (P 2 6) [Raw 95]) (mkPub (P 4 7) [Raw 829; Ref (P 4 5)])]
           (mkPub (P 1 8) [Raw 1587; Ref (P 4 7)]) [Raw 25; Ref (P 1 8)].
(* ... and a transaction that wrote one data file and was rolled back *)
Definition ex_abort : list item := [mkItem (mkPub (P 2 9) [Raw 51]) (mkPub (P 3 10) [Raw 700])].
(* ... and a transaction whose data file's fsync failed (marker published, Create, Write, fsync raises,
   temp removed, marker removed) *)
Definition ex_fail : op := OFail [] (mkPub (P 2 11) [Raw 51]) (Some (mkPub (P 3 12) [Raw 700])) 2.
Definition ex_ops := [OCommit ex_create; OCommit ex_append; OAbort ex_abort; ex_fail].

(* a schedule: all calls up to and including the pointer's Rename of the second commit (49 of 74
   calls), with that rename written back early and nothing else *)
Definition ex_sched : list event := map Call (firstn 49 (trace_of ex_ops)) ++ [Bg (PEntry PTR)].

Example C16_nonvacuous :
  wf ex_ops = true
  /\ length (trace_of ex_ops) = 74%nat
  /\ trace_of [ex_fail] = publish_meta (P 2 11) [Raw 51] ++ [Create (T 3 12); Write (T 3 12) [Raw 700]; Unlink (T 3 12); Unlink (P 2 11)]
  /\ calls_of ex_sched = firstn 49 (trace_of ex_ops)
  /\ (exists s', run fs0 ex_sched = Some s'
        /\ pointer (power_loss s') = Some (P 1 8)              (* the NEW version survived, early *)
        /\ content_at (power_loss s') (P 3 3) = Some [Raw 769]  (* ... and its data file is whole *)
        /\ content_at (power_loss s') (P 4 7) = Some [Raw 829; Ref (P 4 5)])
  /\ reachable_from ex_ops (P 1 8) (P 3 3).
Proof.
  split; [vm_compute; reflexivity|]. split; [vm_compute; reflexivity|]. split; [vm_compute; reflexivity|]. split; [vm_compute; reflexivity|].
  split.
  - apply run_then. vm_compute. auto.
  - eapply reach_step; [eapply reach_step; [eapply reach_step; [apply reach_self|]|]|].
    + exists [Raw 1587; Ref (P 4 7)]. split; [vm_compute; reflexivity|simpl; auto].
    + exists [Raw 829; Ref (P 4 5)]. split; [vm_compute; reflexivity|simpl; auto].
    + exists [Raw 1602; Ref (P 3 3)]. split; [vm_compute; reflexivity|simpl; auto].
Qed.

(* A failing DIRECTORY fsync is covered: write_file and DataFileWriter.close raise when it fails (a swallowed
   failure would let the commit go on and advance the pointer: KNOWN_FINDINGS.json, C16 pointer-outruns-data),
   Gen/GenDurable.v records that all 5 calls of a publish are fallible, and wf accepts OFail with k = 4.
   Here the data file's directory fsync fails (the file stays linked as an orphan, the marker is removed), then a
   marker's own directory fsync fails (the marker stays), then a further append commits into the same directories.
   A 6th failure point does not exist. *)
Definition ex_dirfail : op := OFail [] (mkPub (P 2 13) [Raw 51]) (Some (mkPub (P 3 14) [Raw 700])) 4.
Definition ex_mkfail : op := OFail [] (mkPub (P 2 15) [Raw 51]) None 4.
Definition ex_append2 : commit :=
  mkCommit [mkItem (mkPub (P 2 16) [Raw 51]) (mkPub (P 3 17) [Raw 769])]
           [mkItem (mkPub (P 2 18) [Raw 75]) (mkPub (P 4 19) [Raw 1602; Ref (P 3 17)])]
           [mkItem (mkPub (P 2 20) [Raw 95]) (mkPub (P 4 21) [Raw 829; Ref (P 4 5); Ref (P 4 19)])]
           (mkPub (P 1 22) [Raw 1587; Ref (P 4 7); Ref (P 4 21)]) [Raw 25; Ref (P 1 22)].
Definition ex_ops2 := ex_ops ++ [ex_dirfail; ex_mkfail; OCommit ex_append2].

Example C16_dir_fsync_failure_covered :
  wf ex_ops2 = true /\ length (trace_of ex_ops2) = 131%nat
  /\ gen_write_file_fallible = length (publish_meta PTR []) /\ gen_data_writer_fallible = length (publish_data PTR [])
  /\ trace_of [ex_dirfail] = publish_meta (P 2 13) [Raw 51]
        ++ [Create (T 3 14); Write (T 3 14) [Raw 700]; Fsync (T 3 14); Rename (T 3 14) (P 3 14); Unlink (P 2 13)]
  /\ trace_of [ex_mkfail] = [Create (T 2 15); Write (T 2 15) [Raw 51]; Fsync (T 2 15); Rename (T 2 15) (P 2 15)]
  /\ wf [OCommit ex_create; OFail [] (mkPub (P 2 13) [Raw 51]) (Some (mkPub (P 3 14) [Raw 700])) 5] = false.
Proof. repeat split; vm_compute; reflexivity. Qed.

(* ... and it has to be: had the failure of the data directory's fsync been SWALLOWED (the call sequence
   goes on without that FsyncDir), the plain drop-all power loss after the acknowledged commit leaves a
   durable pointer to version P 1 8 whose data file P 3 3 is MISSING; the discipline rejects the trace
   at the Rename of the manifest that refers to it. *)
Fixpoint drop_first (f : call -> bool) (l : list call) : list call :=
  match l with [] => [] | c :: l' => if f c then l' else c :: drop_first f l' end.
Definition ex_swallowed : list call :=
  drop_first (fun c => match c with FsyncDir 3 => true | _ => false end) (trace_of [OCommit ex_create; OCommit ex_append]).

Example C16_dir_fsync_is_needed :
  disciplined ex_swallowed = false
  /\ first_bad g0 ex_swallowed 0 = Some 27%nat
  /\ nth 27 ex_swallowed (Mkdir 0) = Rename (T 4 5) (P 4 5)
  /\ nth 48 ex_swallowed (Mkdir 0) = FsyncDir 0                       (* the pointer publish's last call *)
  /\ exists s', exec fs0 (firstn 49 ex_swallowed) = Some s'
       /\ pointer (power_loss s') = Some (P 1 8)
       /\ content_at (power_loss s') (P 4 5) = Some [Raw 1602; Ref (P 3 3)]
       /\ content_at (power_loss s') (P 3 3) = None
       /\ content_at (vol s') (P 3 3) = Some [Raw 769].
Proof.
  split; [vm_compute; reflexivity|]. split; [vm_compute; reflexivity|]. split; [vm_compute; reflexivity|]. split; [vm_compute; reflexivity|].
  apply run_then. vm_compute. auto.
Qed.

(* The safety notion is not trivially true: without the data file's Fsync the
   same early-rename schedule leaves a surviving pointer whose data file is EMPTY; the trace is
   rejected by the discipline at exactly that file's Rename. *)
Definition ex_bad_trace : list call :=
  filter (fun c => match c with Fsync (T 3 3) => false | _ => true end) (trace_of ex_ops).
Definition ex_bad_sched : list event :=
  map Call (firstn 48 ex_bad_trace) ++ [Bg (PEntry PTR); Bg (PEntry (P 1 8)); Bg (PEntry (P 4 7)); Bg (PEntry (P 4 5)); Bg (PEntry (P 3 3))].

Example C16_fsync_is_needed :
  disciplined ex_bad_trace = false
  /\ first_bad g0 ex_bad_trace 0 = Some 17%nat
  /\ nth 17 ex_bad_trace (Mkdir 0) = Rename (T 3 3) (P 3 3)
  /\ exists s', run fs0 ex_bad_sched = Some s'
       /\ pointer (power_loss s') = Some (P 1 8)
       /\ content_at (power_loss s') (P 3 3) = Some []
       /\ content_at (vol s') (P 3 3) = Some [Raw 769].
Proof.
  split; [vm_compute; reflexivity|]. split; [vm_compute; reflexivity|]. split; [vm_compute; reflexivity|].
  apply run_then. vm_compute. auto.
Qed.
