(* Props/C14.v -- Reads fail closed: damaged or missing files raise, never yield partial rows.
   The theorem statements, each a short step from the lemmas of Proofs/ReadProofs.v and Proofs/ReadBlocksProofs.v,
   with Print Assumptions beneath.

   Model: Model/Read.v (the read pipeline of transaction.py / file_manager.py / metadata_manager.py as a
   result-and-trace program over a store of Absent / Present bytes / Flaky site bytes cells; every parser,
   SHA-256 and the recovery scan are function parameters [env], never axioms; the exception classes of the
   two Avro fallbacks come from Gen/GenRead.v, regenerated from the source on every run).

   Hypothesis json_not_avro (all theorems that follow the pipeline through a manifest): bytes accepted by
   the JSON fallback make the Avro attempt raise one of the fallback classes -- Avro containers start with
   the magic "Obj\001", which is not JSON; the harness checks it on every byte string of every run.

   "The current snapshot" on the specification side is the one of the metadata file the POINTER names
   ([spec_meta]: no recovery).  What the code serves is [served_meta]: the same file when it is there, otherwise
   whatever the recovery scan settles on.  The two differ in exactly one case, and there the full-strength
   statements are FALSE of the faithful model of the code (known finding
   current-metadata-file-deleted-serves-previous-version): the current metadata file deleted while the pointer
   still names it -- every API then returns an OLDER version's rows (C14_fail_closed_full_refuted), and on a table
   with a single commit that older version is v0, so the broken table is reported as an EMPTY one
   (C14_not_empty_full_refuted).  C14_fail_closed and C14_not_empty_partial are the full statements minus that
   case; C14_never_partial speaks of the current version when the pointer's file is there, and
   C14_never_partial_of_served_version / C14_not_empty_of_served_version say what still holds of whichever
   version is served (also on a table without a usable pointer, which C10 makes a legitimate state). *)
From Coq Require Import ZArith List String.
Require Import DS.Gen.GenRead DS.Model.Read DS.Proofs.ReadProofs DS.Model.ReadBlocks DS.Proofs.ReadBlocksProofs.
Import ListNotations.
Open Scope list_scope.
Open Scope Z_scope.

(* Every store (any number of damaged files), every read API and option, every file k reachable from
   the current snapshot in role r (metadata file, manifest list, manifest, data file), every damage class
   (Absent; Present bytes the role's parser rejects = unparseable prefix / non-parsing replacement;
   Flaky = transient OSError at a call site) that the API touches: the call raises. *)
Theorem C14_fail_closed : forall (E : env) (st : store) (a : api) (o : opts) (r : role) (k : key),
  json_not_avro E ->
  reach E st r k -> damaged E st r k -> touched E st a o r k ->
  ~ (r = RMeta /\ hinted E st = Some k /\ st k = Absent) ->
  exists e, out (read_current E st a o) = Err e.
Proof. exact fail_closed. Qed.
Print Assumptions C14_fail_closed.

(* All or nothing: an API that returns, returns exactly the answer of the CURRENT snapshot -- the snapshot of the
   metadata file the pointer names: every manifest of the list, every de-duplicated data file of every manifest,
   every row of every file (row_count: the sum over exactly those files); a generator API that completes has yielded
   exactly those rows.  (Hypothesis spec_meta = Some md: the pointer's file is there and parses; without it there is
   no current snapshot to compare with -- see C14_not_empty_full_refuted for what the code does then.) *)
Theorem C14_never_partial : forall (E : env) (st : store) (a : api) (o : opts) (ans : answer) (md : meta),
  json_not_avro E ->
  out (read_current E st a o) = Ok ans ->
  spec_meta E st = Some md ->
  spec_answer E st a md = Some ans
  /\ yielded (read_current E st a o) = match ans with ARows rows => rows | ACount _ => [] end.
Proof. intros E st a o ans md Hwf H Hm. exact (never_partial E st a o ans md Hwf H (spec_meta_served E st md Hm)). Qed.
Print Assumptions C14_never_partial.

(* The same of whichever version the resolution SERVES (the pointer's file, or what the recovery scan settles on
   when the pointer is missing / unparseable / names a missing file): no subset of THAT version's rows either.
   This is not a statement about the current snapshot when the two differ. *)
Theorem C14_never_partial_of_served_version : forall (E : env) (st : store) (a : api) (o : opts) (ans : answer) (md : meta),
  json_not_avro E ->
  out (read_current E st a o) = Ok ans ->
  served_meta E st = Some md ->
  spec_answer E st a md = Some ans
  /\ yielded (read_current E st a o) = match ans with ARows rows => rows | ACount _ => [] end.
Proof. exact never_partial. Qed.
Print Assumptions C14_never_partial_of_served_version.

(* A broken table is never reported as an empty one (nor as anything else) -- PARTIAL: under the extra hypothesis
   that the pointer does not name a metadata file that is gone.  Then a dangling current_snapshot_id, a missing
   manifest list, a missing manifest all raise, in every API.  The statement without that hypothesis is
   C14_not_empty_full below, refuted. *)
Theorem C14_not_empty_partial : forall (E : env) (st : store) (a : api) (o : opts),
  json_not_avro E ->
  (forall mk, hinted E st = Some mk -> st mk <> Absent) ->
  broken_table E st ->
  exists e, out (read_current E st a o) = Err e.
Proof.
  intros E st a o Hwf Hp [[mk [Hh Ha]]|[md [Hm Hb]]]; [destruct (Hp mk Hh Ha)|].
  exact (not_empty E st a o md Hwf (spec_meta_served E st md Hm) Hb).
Qed.
Print Assumptions C14_not_empty_partial.

(* Whichever version is served (see above), if ITS snapshot is broken -- dangling id, manifest list gone, a manifest
   gone -- every API raises: also on a table without a usable pointer. *)
Theorem C14_not_empty_of_served_version : forall (E : env) (st : store) (a : api) (o : opts) (md : meta),
  json_not_avro E -> served_meta E st = Some md -> broken_snapshot E st md ->
  exists e, out (read_current E st a o) = Err e.
Proof. exact not_empty. Qed.
Print Assumptions C14_not_empty_of_served_version.

(* With verification on, a recorded checksum and changed bytes: the file's read raises CorruptDataError,
   every data-reading API raises, and the error IS CorruptDataError whenever the other data files read
   (sha is a parameter; collision-freedom is assumed on the two byte strings in play only). *)
Theorem C14_checksum : forall (E : env) (st : store) (a : api) (o : opts) (dfs : list dfile) (df : dfile) (b orig : bytes),
  verify o = true -> reads_data a = true ->
  fst (get_all_data_files E st) = Ok dfs -> In df dfs ->
  dsum df = Some (sha E orig) -> st (dpath df) = Present b -> b <> orig ->
  (sha E b = sha E orig -> b = orig) ->
  fst (read_data E st true df) = Err ECorrupt
  /\ (exists e, out (read_current E st a o) = Err e)
  /\ ((forall df', In df' dfs -> df' <> df -> exists t, fst (read_data E st true df') = Ok t) ->
      out (read_current E st a o) = Err ECorrupt).
Proof.
  intros E st a [v] dfs df b orig Hv Hr Hg Hin Hsum Hp Hne Hcf. simpl in Hv. subst v.
  pose proof (read_data_corrupt E st df b _ Hp Hsum (fun H => Hne (Hcf H))) as Hc. split; [exact Hc|].
  exact (data_error_raises E st a {| verify := true |} dfs df ECorrupt Hr Hg Hin Hc).
Qed.
Print Assumptions C14_checksum.

(* "(the default)": the same for a call that passes no verify_checksums -- default_opts carries
   GenRead.verify_default_on, regenerated from Table._resolve_verify_checksums on every run (no hypothesis on the
   options; with the library's default switched off this theorem does not check). *)
Theorem C14_checksum_by_default : forall (E : env) (st : store) (a : api) (dfs : list dfile) (df : dfile) (b orig : bytes),
  reads_data a = true ->
  fst (get_all_data_files E st) = Ok dfs -> In df dfs ->
  dsum df = Some (sha E orig) -> st (dpath df) = Present b -> b <> orig ->
  (sha E b = sha E orig -> b = orig) ->
  fst (read_data E st (verify default_opts) df) = Err ECorrupt
  /\ (exists e, out (read_current E st a default_opts) = Err e)
  /\ ((forall df', In df' dfs -> df' <> df -> exists t, fst (read_data E st (verify default_opts) df') = Ok t) ->
      out (read_current E st a default_opts) = Err ECorrupt).
Proof. intros E st a dfs df b orig. exact (C14_checksum E st a default_opts dfs df b orig eq_refl). Qed.
Print Assumptions C14_checksum_by_default.

(* Damage outside what the read touches changes nothing: two stores that agree on every key the call
   accessed give the same outcome and the same storage-call trace (any API, any options). *)
Theorem C14_untouched : forall (E : env) (st st' : store) (a : api) (o : opts),
  (forall k, In k (map fst (trace (read_current E st a o))) -> st' k = st k) ->
  out (read_current E st' a o) = out (read_current E st a o)
  /\ trace (read_current E st' a o) = trace (read_current E st a o).
Proof. exact untouched. Qed.
Print Assumptions C14_untouched.

(* row_count is metadata-only: its accesses are exactly those of the manifest walk, so (by C14_untouched)
   no damage to a data file can change or fail it. *)
Theorem C14_row_count_metadata_only : forall (E : env) (st : store) (o : opts),
  trace (read_current E st RowCount o) = snd (get_all_data_files E st).
Proof.
  intros E st o. unfold read_current, run. cbn [trace].
  destruct (fst (get_all_data_files E st)) as [dfs|e] eqn:H; [|exact (bind_snd_err _ _ _ _ e H)].
  rewrite (bind_snd_ok H). apply app_nil_r.
Qed.
Print Assumptions C14_row_count_metadata_only.

(* The outcome of a read depends only on the store at the time of the read, not on earlier reads through the
   same handle: whatever the handle read before (and whatever the store looked like then), the last read of a
   session is read_current on the store as it is now -- so C14_fail_closed / C14_checksum / C14_never_partial
   apply to it unchanged -- whether the earlier reads returned or RAISED (a read that failed half-way through the
   manifests leaves nothing behind).  (True by construction of the model, which gives a handle no read state; that
   the CODE has none is what the same-handle correspondences and oracles observe on every run: read, damage, read
   again; and damage, read (raises), read again with the damage in place and after it has cleared.) *)
Theorem C14_history_independent : forall (E : env) (history : list (store * api * opts)) (st : store) (a : api) (o : opts) (d : result),
  last (read_session E (history ++ [(st, a, o)])) d = read_current E st a o.
Proof. intros E history st a o d. unfold read_session. rewrite map_app. apply last_last. Qed.
Print Assumptions C14_history_independent.

(* The checksum recorded at write time is the one the reader verifies, through every history: after any sequence
   of commits (each deleting any set of files and appending any files; manifests kept, rewritten with the survivors
   carried over, or dropped), every entry of every manifest of the resulting snapshot still carries the path, the
   record count and the CHECKSUM of the entry some commit appended.  So C14_checksum's hypothesis "a checksum is
   recorded" cannot be lost on the way.  (Over GenRead.gen_entry_checksum, regenerated from create_manifest_file.) *)
Theorem C14_checksum_survives_history : forall (h : list commit) (m : list dfile) (d : dfile),
  In m (run_history h) -> In d m ->
  exists c a, In c h /\ In a (c_appended c) /\ dpath d = dpath a /\ dcount d = dcount a /\ dsum d = dsum a.
Proof.
  intros h m d Hm Hd. destruct (history_entries h [] m d Hm Hd) as [[m0 [[] _]]|[c [Hc Ha]]]. exists c, d. auto.
Qed.
Print Assumptions C14_checksum_survives_history.

(* No check/use gap, even when the store changes WHILE the call runs (ts n = the store as the call's n-th storage
   operation sees it): the data stage makes exactly one storage operation per data file, and every table it returns
   is the parse of the very bytes that operation returned -- bytes which, with verification on, hash to the recorded
   checksum.  So a change before a file's one read is judged by C14_checksum on the store of that moment, and a
   change after it is not seen at all; rows of bytes that were never hashed cannot be returned. *)
Theorem C14_no_check_use_gap : forall (E : env) (ts : nat -> store) (v : bool) (dfs : list dfile) (t : nat) (tabs : list (list row)),
  fst (data_stage_t E ts t v dfs) = Ok tabs ->
  List.length (snd (data_stage_t E ts t v dfs)) = List.length dfs /\
  forall i df tab, nth_error dfs i = Some df -> nth_error tabs i = Some tab ->
    exists b, cur_bytes (ts (t + i)%nat) (dpath df) = Some b /\ parquet E b = PqOk tab
              /\ (v = true -> forall d, dsum df = Some d -> sha E b = d).
Proof.
  intros E ts v dfs t tabs H. split; [rewrite (data_stage_t_trace E ts v dfs t tabs H); apply map_length|].
  intros i df tab Hdf Htab. pose proof (data_stage_t_ok E ts v dfs t tabs H i df tab Hdf Htab) as Hr.
  apply read_data_ok in Hr as [b [Hb [Hp [_ Hs]]]]. eauto.
Qed.
Print Assumptions C14_no_check_use_gap.

(* Of a manifest-list entry only the manifest path has read meaning: two decodings of the list that agree on
   every entry's path (and on which bytes fail to decode, and how) give the same outcome, trace and yielded rows in
   every API -- whatever they say about content, manifest_length, partition_spec_id, snapshot id and the counts.
   In particular an entry whose `content` byte was flipped still contributes its manifest; a reader that drops such
   an entry (returns a subset, or an empty table) is not this pipeline. *)
Theorem C14_list_fields_without_read_meaning :
  forall (E : env) (dec dec' : bytes -> avro (list lentry)) (st : store) (a : api) (o : opts),
  (forall b, project_list (dec b) = project_list (dec' b)) ->
  read_current (with_list_decoder E dec) st a o = read_current (with_list_decoder E dec') st a o.
Proof. intros E dec dec' st a o H. apply read_current_list_decoder, get_all_list_decoder. exact H. Qed.
Print Assumptions C14_list_fields_without_read_meaning.

(* When the pointer cannot name the metadata file (missing, unparseable, or naming a file that is gone) the
   version is recovered by listing the metadata directory; a listing that FAILS makes every read API raise -- it
   is never taken for "no metadata", which would report the table as empty. *)
Theorem C14_recovery_listing_fails_closed : forall (E : env) (st : store) (a : api) (o : opts) (b : bytes),
  (forall s b', st HINT <> Flaky s b') ->
  (hinted E st = None \/ exists mk, hinted E st = Some mk /\ st mk = Absent) ->
  st METADIR = Flaky (OpList, 0%nat) b ->
  out (read_current E st a o) = Err EIO.
Proof.
  intros E st a o b Hh Hhint Hl. apply run_meta_err. unfold get_all_data_files.
  exact (bind_fst_err (resolve_listing_fails E st 0 b Hh Hhint Hl)).
Qed.
Print Assumptions C14_recovery_listing_fails_closed.

(* The generator APIs' guard makes a short read impossible to miss: whatever prefix of each row group the batched
   parquet reader hands out (a damaged per-group count, chunk count or offset makes it stop early without an
   error), comparing the number of rows handed out with the file's true row count -- its file-level footer count,
   which is what the code compares with -- lets the read succeed only with ALL rows of ALL groups. *)
Theorem C14_batched_guard_complete : forall (handed groups : list (list row)) (rows : list row),
  Forall2 prefix_of handed groups ->
  guarded_batches (List.length (List.concat groups)) handed = Ok rows ->
  rows = List.concat groups.
Proof.
  intros handed groups rows H Hg. unfold guarded_batches in Hg.
  destruct (Nat.eqb _ _) eqn:He; inversion Hg. apply Nat.eqb_eq in He. rewrite (prefixes_full _ _ H He). reflexivity.
Qed.
Print Assumptions C14_batched_guard_complete.

(* Containers are decoded BLOCK BY BLOCK (Model/ReadBlocks.v): the decoder hands out the records of the leading
   blocks before it meets a block it cannot decode.  The reader's loop returns all records of all blocks or raises:
   whatever the number of blocks, their sizes and the position of the damaged one, a returned list is never the
   records of the leading blocks only. *)
Theorem C14_blocks_all_or_nothing : forall (A : Type) (bs : list (blk A)) (xs : list A),
  collect bs = AvOk xs -> forallb good bs = true /\ xs = all_records bs.
Proof. exact collect_all_or_nothing. Qed.
Print Assumptions C14_blocks_all_or_nothing.

(* ... and the exception is the one of the FIRST bad block, however many records were handed out before it -- those of
   the blocks before ([pre]) and those of the bad block itself that precede its damage ([p]). *)
Theorem C14_blocks_raise_at_first_bad_block : forall (A : Type) (pre : list (blk A)) (p : list A) (m : list string) (tl : list (blk A)),
  forallb good pre = true -> collect (pre ++ BBad p m :: tl) = AvRaise m.
Proof.
  intros A pre p m tl Hg. unfold collect. rewrite (stream_bad A pre p m tl Hg). reflexivity.
Qed.
Print Assumptions C14_blocks_raise_at_first_bad_block.

(* Through the whole pipeline: a manifest (a manifest list) reachable from the current snapshot with ONE undecodable
   block anywhere -- first, last, in between; any number of good blocks and records before it -- and bytes the JSON
   fallback rejects: every read API raises, with every option. *)
Theorem C14_bad_manifest_block_fails_closed :
  forall (E : env) (lb : bytes -> list (blk (option key))) (mb : bytes -> list (blk dfile)) (st : store) (a : api) (o : opts) (k : key) (b : bytes),
  json_not_avro (with_block_decoders E lb mb) ->
  reach (with_block_decoders E lb mb) st RManifest k ->
  st k = Present b -> forallb good (mb b) = false -> json_man E b = None ->
  exists e, out (read_current (with_block_decoders E lb mb) st a o) = Err e.
Proof.
  intros E lb mb st a o k b Hj Hr Hk Hbad Hjs.
  apply (garbage_fails_closed _ st a o RManifest k b Hj Hr Hk); [|discriminate].
  exact (bad_block_no_content _ mb (json_man E) manifest_fallback b Hbad Hjs).
Qed.
Print Assumptions C14_bad_manifest_block_fails_closed.

Theorem C14_bad_list_block_fails_closed :
  forall (E : env) (lb : bytes -> list (blk (option key))) (mb : bytes -> list (blk dfile)) (st : store) (a : api) (o : opts) (k : key) (b : bytes),
  json_not_avro (with_block_decoders E lb mb) ->
  reach (with_block_decoders E lb mb) st RList k ->
  st k = Present b -> forallb good (lb b) = false -> json_list E b = None ->
  exists e, out (read_current (with_block_decoders E lb mb) st a o) = Err e.
Proof.
  intros E lb mb st a o k b Hj Hr Hk Hbad Hjs.
  apply (garbage_fails_closed _ st a o RList k b Hj Hr Hk); [|discriminate].
  exact (bad_block_no_content _ lb (json_list E) list_fallback b Hbad Hjs).
Qed.
Print Assumptions C14_bad_list_block_fails_closed.

(* A handle that remembers decoded manifests between calls (the pinned read path has no such component; this is what
   any such component has to satisfy): a cache that registers only the result of a decode that ran to the END is
   invisible -- through any sequence of decodes of any byte strings (failing ones, repeated ones, in any order) every
   outcome is the outcome of decoding afresh; in particular a decode that raised raises again, and nothing a failed
   decode had gathered is ever served.  (Keyed by the identity of the bytes: a stamp that determines the content.) *)
Theorem C14_decode_cache_transparent : forall (dec : bytes -> avro (list dfile)) (reads : list bytes),
  fst (run_decodes dec [] reads) = map dec reads.
Proof. intros dec reads. apply cache_transparent_from. intros b xs H. discriminate. Qed.
Print Assumptions C14_decode_cache_transparent.

(* ... whereas registering the entry BEFORE decoding and filling it record by record is not: one manifest of three
   blocks, the second undecodable, read twice -- the second read returns the entries handed out before the failure. *)
Theorem C14_eager_decode_cache_refuted : ~ eager_transparent.
Proof. intro H. specialize (H w_blocks [5%N; 5%N]). vm_compute in H. discriminate. Qed.
Print Assumptions C14_eager_decode_cache_refuted.

Example C14_blocks_nonvacuous :
  collect w_blocks_sample = AvRaise ["EOFError"; "Exception"]%string
  /\ fst (stream w_blocks_sample) = [w_df 8%N; w_df 7%N]
  /\ fst (run_eager w_blocks [] [5%N; 5%N]) = [AvRaise ["EOFError"; "Exception"]%string; AvOk [w_df 8%N; w_df 7%N]]
  /\ fst (run_decodes (fun b => collect (w_blocks b)) [] [5%N; 5%N]) = [AvRaise ["EOFError"; "Exception"]%string; AvRaise ["EOFError"; "Exception"]%string]
  /\ collect [BGood [w_df 8%N]; BGood []; BGood [w_df 9%N]] = AvOk [w_df 8%N; w_df 9%N].
Proof. repeat split; reflexivity. Qed.

(* The model does not raise without cause (so the theorems above are not satisfied by a pipeline that
   always fails): with no transient fault anywhere, metadata that resolves, a complete answer on the
   specification side and recorded checksums that match, every API returns exactly that answer. *)
Theorem C14_healthy_ok : forall (E : env) (st : store) (a : api) (o : opts) (md : meta) (ans : answer),
  noflaky st -> served_meta E st = Some md -> spec_answer E st a md = Some ans ->
  (forall s dfs, find_snap md = Some s -> spec_dfiles E st s = Some dfs -> sums_ok E st dfs) ->
  out (read_current E st a o) = Ok ans.
Proof.
  intros E st a o md ans Hn Hm Hans Hsums. apply (run_complete E st a o md ans Hn Hm Hans).
  intros dfs Hd. destruct (spec_files_snap E st md dfs Hd) as [[s [Hs Hd']]| ->]; [eauto|intros df b d []].
Qed.
Print Assumptions C14_healthy_ok.

(* The statement without the exclusion, and why it is false of the code (known finding
   current-metadata-file-deleted-serves-previous-version): pointer -> v2 (deleted); the recovery scan
   finds v1, whose snapshot holds rows 1,2 only; every API returns them instead of raising. *)
Definition C14_fail_closed_full : Prop := forall (E : env) (st : store) (a : api) (o : opts) (r : role) (k : key),
  json_not_avro E ->
  reach E st r k -> damaged E st r k -> touched E st a o r k ->
  exists e, out (read_current E st a o) = Err e.

(* keys: 0 pointer, 4 = v1 metadata, 5 = v2 metadata (gone), 6 list, 7 manifest, 8 data file *)
Definition w_env : env :=
  mk_env [(18, 99)]%N [(10%N, Some 5%N)] (Some 4%N)
         [(11%N, Some {| mcur := Some 1; msnaps := [{| sid := 1; slist := 6%N |}] |})]
         [(16%N, AvOk [Some 7%N])] []
         [(17%N, AvOk [{| dpath := 8%N; dcount := 2; dsum := Some 99%N |}])] []
         [(18%N, PqOk [1; 2])].
Definition w_store : store :=
  store_of [(0, Present 10); (4, Present 11); (6, Present 16); (7, Present 17); (8, Present 18)]%N.

Theorem C14_fail_closed_full_refuted : ~ C14_fail_closed_full.
Proof.
  intro H. destruct (H w_env w_store Scan {| verify := true |} RMeta 5%N (mk_env_no_json _ _ _ _ _ _ _)) as [e He].
  - apply reach_hinted. reflexivity.
  - apply dmg_absent. reflexivity.
  - exact I.
  - vm_compute in He. discriminate.
Qed.
Print Assumptions C14_fail_closed_full_refuted.

(* what the witness returns: the previous version's rows, in every API *)
Example C14_witness_serves_old_rows :
  map (fun a => out (read_current w_env w_store a {| verify := true |})) [Scan; ScanPar; Batches; IterRecords; RowCount]
  = [Ok (ARows [1; 2]); Ok (ARows [1; 2]); Ok (ARows [1; 2]); Ok (ARows [1; 2]); Ok (ACount 2)].
Proof. reflexivity. Qed.

(* "A broken table is never reported as an empty one", without the extra hypothesis of C14_not_empty_partial, and
   why it is false of the code (the same known finding): create_table writes v0 (no snapshot), one commit writes v1
   and the pointer; v1 deleted: the recovery scan finds v0 and every API reports an EMPTY table.
   keys: 0 pointer, 4 = v0 metadata, 5 = v1 metadata (gone) *)
Definition C14_not_empty_full : Prop := forall (E : env) (st : store) (a : api) (o : opts),
  json_not_avro E -> broken_table E st ->
  exists e, out (read_current E st a o) = Err e.

Definition e_env : env :=
  mk_env [] [(10%N, Some 5%N)] (Some 4%N) [(11%N, Some {| mcur := None; msnaps := [] |})] [] [] [] [] [].
Definition e_store : store := store_of [(0, Present 10); (4, Present 11)]%N.

Theorem C14_not_empty_full_refuted : ~ C14_not_empty_full.
Proof.
  intro H. destruct (H e_env e_store Scan {| verify := true |} (mk_env_no_json _ _ _ _ _ _ _)) as [e He].
  - left. exists 5%N. split; reflexivity.
  - vm_compute in He. discriminate.
Qed.
Print Assumptions C14_not_empty_full_refuted.

(* what the witness returns: an empty table, in every API *)
Example C14_witness_reports_empty_table :
  broken_table e_env e_store
  /\ map (fun a => out (read_current e_env e_store a {| verify := true |})) [Scan; ScanPar; Batches; IterRecords; RowCount]
     = [Ok (ARows []); Ok (ARows []); Ok (ARows []); Ok (ARows []); Ok (ACount 0)].
Proof. split; [left; exists 5%N; split; reflexivity|reflexivity]. Qed.

(* Non-vacuity: a concrete table (pointer -> metadata 5 -> list 6 -> manifests 7, 9 -> data files 8, 12, 13;
   file 8 is listed by both manifests and read once) satisfies the hypotheses of the theorems, reads
   completely when healthy, and each damage class on each role is reachable, damaged, touched, and raises. *)
Definition x_env : env :=
  mk_env [(18, 98); (22, 97); (23, 96); (30, 95)]%N [(10%N, Some 5%N)] (Some 5%N)
         [(11%N, Some {| mcur := Some 2; msnaps := [{| sid := 1; slist := 3%N |}; {| sid := 2; slist := 6%N |}] |})]
         [(16%N, AvOk [Some 7%N; None; Some 9%N]); (31%N, AvRaise ["ValueError"; "Exception"]%string)] []
         [(17%N, AvOk [{| dpath := 8%N; dcount := 2; dsum := Some 98%N |}; {| dpath := 12%N; dcount := 1; dsum := Some 97%N |}]);
          (19%N, AvOk [{| dpath := 8%N; dcount := 2; dsum := None |}; {| dpath := 13%N; dcount := 3; dsum := None |}]);
          (31%N, AvRaise ["EOFError"; "Exception"]%string)] []
         [(18%N, PqOk [1; 2]); (22%N, PqOk [3]); (23%N, PqOk [4; 5; 6]); (30%N, PqOk [7]); (31%N, PqFail [])].
Definition x_cells : list (key * cell) :=
  [(0, Present 10); (5, Present 11); (6, Present 16); (7, Present 17); (9, Present 19);
   (8, Present 18); (12, Present 22); (13, Present 23)]%N.
Definition x_store : store := store_of x_cells.
Definition x_with (k : key) (c : cell) : store := store_of ((k, c) :: x_cells).
Definition x_out (st : store) (a : api) (v : bool) := out (read_current x_env st a {| verify := v |}).

Example C14_nonvacuous :
  json_not_avro x_env
  /\ reach x_env x_store RMeta 5%N /\ reach x_env x_store RList 6%N
  /\ reach x_env x_store RManifest 9%N /\ reach x_env x_store RData 13%N
  (* healthy: everything, once *)
  /\ x_out x_store Scan true = Ok (ARows [1; 2; 3; 4; 5; 6])
  /\ x_out x_store Batches false = Ok (ARows [1; 2; 3; 4; 5; 6])
  /\ x_out x_store RowCount true = Ok (ACount 6)
  (* absent / garbage / transient, per role *)
  /\ x_out (x_with 6%N Absent) RowCount true = Err EInconsistent
  /\ x_out (x_with 9%N Absent) Scan true = Err EInconsistent
  /\ x_out (x_with 9%N (Present 31%N)) IterRecords true = Err EParse
  /\ x_out (x_with 6%N (Present 31%N)) ScanPar false = Err EParse
  /\ x_out (x_with 7%N (Flaky (OpOpen, 0%nat) 17%N)) RowCount true = Err EParse
  /\ x_out (x_with 5%N (Flaky (OpRead, 0%nat) 11%N)) Scan true = Err EIO
  /\ x_out (x_with 13%N Absent) Scan false = Err ENotFound
  /\ x_out (x_with 13%N (Present 31%N)) Scan false = Err EParse
  /\ x_out (x_with 12%N (Present 30%N)) Scan true = Err ECorrupt          (* valid parquet, other content *)
  /\ x_out (x_with 12%N (Present 30%N)) Scan false = Ok (ARows [1; 2; 7; 4; 5; 6])   (* ... unverified: outside the property *)
  /\ x_out (x_with 13%N Absent) RowCount true = Ok (ACount 6)           (* untouched *)
  /\ yielded (read_current x_env (x_with 13%N Absent) Batches {| verify := true |}) = [1; 2; 3]
  /\ damaged x_env (x_with 9%N (Present 31%N)) RManifest 9%N
  /\ touched x_env (x_with 13%N (Flaky (OpOpen, 0%nat) 23%N)) Scan {| verify := true |} RData 13%N.
Proof.
  split; [apply mk_env_no_json|].
  split; [apply reach_hinted; reflexivity|].
  assert (Hl : reach x_env x_store RList 6%N).
  { eapply (reach_list _ _ _ {| sid := 2; slist := 6%N |}); reflexivity. }
  assert (Hm : reach x_env x_store RManifest 9%N).
  { eapply reach_manifest; [exact Hl|reflexivity|reflexivity|simpl; auto]. }
  split; [exact Hl|]. split; [exact Hm|].
  split; [eapply reach_data with (df := {| dpath := 13%N; dcount := 3; dsum := None |}); [exact Hm|reflexivity|reflexivity|simpl; auto]|].
  repeat (split; [reflexivity|]).
  split.
  - apply (dmg_garbage _ _ _ _ 31%N); reflexivity.
  - split; [reflexivity|]. simpl. intros md sn dfs df Hmd Hsn Hdfs Hsel.
    vm_compute in Hmd. injection Hmd as <-. vm_compute in Hsn. injection Hsn as <-.
    vm_compute in Hdfs. injection Hdfs as <-. vm_compute in Hsel. injection Hsel as <-. reflexivity.
Qed.

(* ... and of the statements about the CURRENT version: the pointer's file is there and parses (hypothesis of
   C14_never_partial), the hypotheses of C14_not_empty_partial hold of a table with a manifest / the manifest list
   gone (which then raises), and a call without options verifies (C14_checksum_by_default). *)
Definition x_md : meta := {| mcur := Some 2; msnaps := [{| sid := 1; slist := 3%N |}; {| sid := 2; slist := 6%N |}] |}.

Example C14_nonvacuous_current :
  spec_meta x_env x_store = Some x_md
  /\ served_meta x_env x_store = Some x_md
  /\ (forall mk, hinted x_env (x_with 9%N Absent) = Some mk -> x_with 9%N Absent mk <> Absent)
  /\ broken_table x_env (x_with 9%N Absent)
  /\ broken_table x_env (x_with 6%N Absent)
  /\ x_out (x_with 6%N Absent) Scan true = Err EInconsistent
  /\ verify default_opts = true
  /\ out (read_current x_env (x_with 12%N (Present 30%N)) Scan default_opts) = Err ECorrupt
  /\ out (read_current x_env x_store IterRecords default_opts) = Ok (ARows [1; 2; 3; 4; 5; 6]).
Proof.
  split; [reflexivity|]. split; [reflexivity|].
  split; [intros mk H; vm_compute in H; inversion H; subst mk; vm_compute; discriminate|].
  split.
  { right. exists x_md. split; [reflexivity|]. right. right.
    exists {| sid := 2; slist := 6%N |}, 16%N, [Some 7%N; None; Some 9%N], 9%N.
    repeat split; try reflexivity. simpl; auto. }
  split.
  { right. exists x_md. split; [reflexivity|]. right. left.
    exists {| sid := 2; slist := 6%N |}. split; reflexivity. }
  repeat (split; [reflexivity|]). reflexivity.
Qed.
