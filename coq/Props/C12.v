(* Props/C12.v -- Filters mean what SQL says, identically in every scan API.
   What the theorems rest on is in Proofs/FilterProofs.v (one expression, conjunctions, the APIs, the parser),
   Proofs/TextBounds.v and Proofs/ManifestProofs.v.

   Quantified throughout: X (pyarrow's lossy is_in casts), E (which leaves pyarrow refuses on which
   row), B (which expressions pyarrow refuses to BIND to the files' schema -- before any row, hence also on a
   data file without rows), PA (which value sets pa.array accepts) -- the theorems hold for EVERY behaviour of
   these; every table content, file layout (files WITHOUT rows included), batch layout (`split`), projection, filter.

   Reading of "in/not_in never match NULL": the sentence is about the CELL (a NULL cell is never selected by in /
   not_in); a NULL inside the VALUE SET "matches nothing and is dropped" (documented in Table.scan, pinned by the
   library's tests).  For NOT IN this is deliberately NOT the SQL standard, under which 4 NOT IN (3, NULL) is UNKNOWN:
   C12_not_in_null_differs_from_sql states the difference exactly. *)
From Coq Require Import String.
From Coq Require Import QArith List.
Require Import DS.Model.Value DS.Model.FilterExpr DS.Model.Prune DS.Proofs.PruneProofs.
Require Import DS.Gen.GenFilterConst DS.Gen.GenFilter DS.Model.Filter DS.Proofs.FilterProofs DS.Proofs.TextBounds.
Require Import DS.Gen.GenBound DS.Model.ManifestBase DS.Gen.GenManifest DS.Model.Manifest.
Require Import DS.Proofs.ManifestProofs.
Require DS.Proofs.ListFacts.
Import ListNotations.
Open Scope Z_scope.

(* The expression _build_condition builds (REGENERATED from the source) selects exactly the rows on
   which the SQL predicate is TRUE: whenever pyarrow evaluates it on a row, the mask is TRUE iff
   `selected` (comparisons and in/not_in never match NULL; NULLs in a value set are ignored; IN ()
   matches nothing; NOT IN () matches every non-NULL row; is_null / is_not_null are total). *)
Theorem C12_compile_correct :
  forall (X : value -> value -> bool) (E : cexpr -> row -> bool) (PA : parg -> bool) (e : fexpr) (ce : cexpr),
    compile PA e = Ok ce ->
    forall (r : row) (t : tv), eval3 X E ce r = Some t ->
      (t = TT <-> selected X (fop_ e) (cell r (fcol e)) (fsval e) (flval e) = true).
Proof. exact compile_sound. Qed.
Print Assumptions C12_compile_correct.

(* ... and building it fails only when pyarrow refuses the literal itself (pa.scalar of the comparison
   value, pa.array of a non-empty in / not_in value set). *)
Theorem C12_compile_total :
  forall (PA : parg -> bool) (e : fexpr) (k : errk),
    compile PA e = Err k -> k = EBuild /\ exists a, literal_of e = Some a /\ PA a = false.
Proof. exact compile_err. Qed.
Print Assumptions C12_compile_total.

(* Conjunctions: the `&`-fold of to_pyarrow_compute_expression (REGENERATED) is TRUE on a row iff every
   conjunct's SQL predicate is TRUE. *)
Theorem C12_conj :
  forall (X : value -> value -> bool) (E : cexpr -> row -> bool) (PA : parg -> bool)
         (es : list fexpr) (cs : list cexpr) (ce : cexpr),
    mapM (compile PA) es = Ok cs -> gen_fold cs = Some ce ->
    forall (r : row) (t : tv), eval3 X E ce r = Some t -> (t = TT <-> row_selected X es r = true).
Proof. exact conj_sound. Qed.
Print Assumptions C12_conj.

(* All APIs and options return the same thing -- rows in the same order, or the same error --
   for every table, file layout, batch layout, stored bounds, valid projection and filter (well
   formed or not): scan with checksum verification on/off (parallel = the same map), scan_batches
   with any batching, iter_records. *)
Theorem C12_api_agree :
  forall (X : value -> value -> bool) (E : cexpr -> row -> bool) (B : cexpr -> bool) (PA : parg -> bool)
         (sch : list Z) (ids : list (Z * Z)) (bounds : file -> list (Z * value) * list (Z * value))
         (split : list row -> list (list row)) (v : bool) (cols : option (list Z)) (flt : pyfilter) (files : list file),
    valid_cols sch cols -> (forall l, concat (split l) = l) ->
    let reference := scan_table X E B PA sch ids bounds true cols flt files in
    scan_table X E B PA sch ids bounds v cols flt files = reference
    /\ flat (scan_batches X E B PA sch ids bounds split cols flt files) = reference
    /\ iter_records X E B PA sch ids bounds cols flt files = reference.
Proof.
  intros X E B PA sch ids bounds split v cols flt files V S. cbv zeta.
  rewrite (scan_table_nf X E B PA sch ids bounds true cols flt files V). apply api_nf; assumption.
Qed.
Print Assumptions C12_api_agree.

(* `valid_cols` demands a NON-EMPTY projection of existing columns.  For the empty projection the
   statement is false of the code as it is (and of its faithful model): pa.concat_tables drops the row
   count of column-less tables, so scan(columns=[]) returns no rows while scan_batches / iter_records
   yield one {} per selected row.  Open finding, reported; not repaired (no small safe repair). *)
Definition C12_api_agree_any_projection : Prop :=
  forall (X : value -> value -> bool) (E : cexpr -> row -> bool) (B : cexpr -> bool) (PA : parg -> bool)
         (sch : list Z) (ids : list (Z * Z)) (bounds : file -> list (Z * value) * list (Z * value))
         (split : list row -> list (list row)) (v : bool) (cs : list Z) (flt : pyfilter) (files : list file),
    (forall c, In c cs -> In c sch) -> (forall l, concat (split l) = l) ->
    flat (scan_batches X E B PA sch ids bounds split (Some cs) flt files) = scan_table X E B PA sch ids bounds v (Some cs) flt files.

Theorem C12_api_agree_empty_projection_refuted : ~ C12_api_agree_any_projection.
Proof.
  intro H.
  specialize (H (fun _ _ => false) (fun _ _ => false) (fun _ => false) (fun _ => true) [0] [(0, 1)] (fun _ => ([], []))
                (chunk 1) true [] [] [ {| frows := [ [(0, VInt 1)] ]; fcs := true |} ]).
  assert (S : forall l : list row, concat (chunk 1 l) = l) by (intro l; apply chunk_concat; exact Nat.lt_0_1).
  specialize (H (fun c F => match F with end) S). vm_compute in H. discriminate.
Qed.
Print Assumptions C12_api_agree_empty_projection_refuted.

(* ... and that common answer is the SQL one: project cols (filter sql (concat files)), whenever the
   filter is accepted, well shaped, and pyarrow refuses neither to bind the expression nor a row (pruning by
   the stored bounds included: C13). *)
Theorem C12_api_sql :
  forall (X : value -> value -> bool) (E : cexpr -> row -> bool) (B : cexpr -> bool) (PA : parg -> bool)
         (sch : list Z) (ids : list (Z * Z)) (split : list row -> list (list row)) (v : bool)
         (cols : option (list Z)) (flt : pyfilter) (files : list file)
         (ps : list pexpr) (ce : option cexpr) (es : list fexpr),
    prepare PA flt = Ok (ps, ce) ->
    map to_fexpr ps = map Some es ->
    valid_cols sch cols -> (forall l, concat (split l) = l) ->
    NoDup (map snd ids) -> (forall f, In f files -> wf_file ids (frows f)) ->
    refused B ce = false ->
    (forall e f r, ce = Some e -> In f files -> In r (frows f) -> eval3 X E e r <> None) ->
    let answer := Ok (sel cols (filter (row_selected X es) (concat (map frows files)))) in
    scan_table X E B PA sch ids (stored_bounds ids) v cols flt files = answer
    /\ flat (scan_batches X E B PA sch ids (stored_bounds ids) split cols flt files) = answer
    /\ iter_records X E B PA sch ids (stored_bounds ids) cols flt files = answer.
Proof.
  intros X E B PA sch ids split v cols flt files ps ce es P Sh V S ND WF.
  apply (api_sql X E B PA sch ids (stored_bounds ids) split v cols flt files ps ce es P Sh V S).
  intros f I. exact (stored_bounds_safe X ids es f ND (WF f I)).
Qed.
Print Assumptions C12_api_sql.

(* The stored statistics need not be the exact minimum / maximum: the same answer for ANY stored bounds that are
   SOUND for the filter (`bounds_sound`: no expression prunes a file in which it selects a row). *)
Theorem C12_api_sql_sound_bounds :
  forall (X : value -> value -> bool) (E : cexpr -> row -> bool) (B : cexpr -> bool) (PA : parg -> bool)
         (sch : list Z) (ids : list (Z * Z)) (bounds : file -> list (Z * value) * list (Z * value))
         (split : list row -> list (list row)) (v : bool)
         (cols : option (list Z)) (flt : pyfilter) (files : list file)
         (ps : list pexpr) (ce : option cexpr) (es : list fexpr),
    prepare PA flt = Ok (ps, ce) ->
    map to_fexpr ps = map Some es ->
    valid_cols sch cols -> (forall l, concat (split l) = l) ->
    bounds_sound X ids bounds es files ->
    refused B ce = false ->
    (forall e f r, ce = Some e -> In f files -> In r (frows f) -> eval3 X E e r <> None) ->
    let answer := Ok (sel cols (filter (row_selected X es) (concat (map frows files)))) in
    scan_table X E B PA sch ids bounds v cols flt files = answer
    /\ flat (scan_batches X E B PA sch ids bounds split cols flt files) = answer
    /\ iter_records X E B PA sch ids bounds cols flt files = answer.
Proof.
  intros X E B PA sch ids bounds split v cols flt files ps ce es P Sh V S BS.
  exact (api_sql X E B PA sch ids bounds split v cols flt files ps ce es P Sh V S (bounds_sound_safe X ids bounds es files BS)).
Qed.
Print Assumptions C12_api_sql_sound_bounds.

(* Text columns: CONSERVATIVE bounds (any string below every value as lower bound, any string above every value as
   upper bound -- of any length) are sound for every operator and literal ... *)
Theorem C12_text_bounds_conservative :
  forall (X : value -> value -> bool) (lo hi : list (Z * value)) (ids : list (Z * Z)) (rows : list row) (e : fexpr)
         (cid : Z) (l h : list Z),
    lookup (fcol e) ids = Some cid -> lookup cid lo = Some (VStr l) -> lookup cid hi = Some (VStr h) ->
    (forall r, In r rows -> text_or_null (cell r (fcol e))) ->
    (forall r, In r rows -> is_null (cell r (fcol e)) = false ->
               vle (VStr l) (cell r (fcol e)) /\ vle (cell r (fcol e)) (VStr h)) ->
    expr_bounds_ok X lo hi ids rows e.
Proof.
  intros X lo hi ids rows e cid l h L L1 L2 TX BT cid' fmin fmax L' L1' L2' G r Hr.
  rewrite L in L'. injection L' as <-. rewrite L1 in L1'. rewrite L2 in L2'. injection L1' as <-. injection L2' as <-.
  exact (text_expr_sound X l h _ _ _ _ (TX r Hr) (BT r Hr) G).
Qed.
Print Assumptions C12_text_bounds_conservative.

(* ... a prefix of a string is below it (a truncated minimum is a sound lower bound) ... *)
Theorem C12_prefix_lower_bound : forall (n : nat) (s : list Z), vle (VStr (firstn n s)) (VStr s).
Proof.
  intros n s. unfold vle, vlt, veq, vcmp. simpl. pose proof (lex_prefix_le n s) as H.
  destruct (lex_cmp (firstn n s) s); simpl; auto. congruence.
Qed.
Print Assumptions C12_prefix_lower_bound.

(* ... but a prefix of the maximum is NOT a sound upper bound: the file is pruned although a row is selected. *)
Theorem C12_prefix_upper_bound_refuted :
  exists (X : value -> value -> bool) lo hi ids rows e,
    (forall r, In r rows -> vle (VStr [97]) (cell r (fcol e)))
    /\ ~ expr_bounds_ok X lo hi ids rows e
    /\ file_may_match lo hi ids [e] = false
    /\ exists r, In r rows /\ row_selected X [e] r = true.
Proof.
  (* a file whose only row is "ab", bounds truncated to 1 character (lo = hi = "a"), filter x == "ab" *)
  exists (fun _ _ => false), [(1, VStr [97])], [(1, VStr [97])], [(0, 1)], [[(0, VStr [97; 98])]],
         {| fcol := 0; fop_ := EQ; fsval := VStr [97; 98]; flval := [] |}.
  split; [intros r [<-|[]]; left; reflexivity|].
  split.
  - intro H. specialize (H 1 (VStr [97]) (VStr [97]) eq_refl eq_refl eq_refl eq_refl [(0, VStr [97; 98])] (or_introl eq_refl)).
    vm_compute in H. discriminate.
  - split; [reflexivity|]. exists [(0, VStr [97; 98])]. split; [left; reflexivity | reflexivity].
Qed.
Print Assumptions C12_prefix_upper_bound_refuted.

(* The table a filter is applied to is the result of a history of committed transactions: several files appended at once
   (one manifest, many entries), files deleted (each manifest of the base snapshot kept, REWRITTEN from its survivors, or
   dropped -- Transaction._commit_file_ops, decision and survivor test REGENERATED), both in one transaction; expiry,
   rolled-back transactions, collections and re-opening do not touch the current manifests.  The bounds of every entry go
   through create_manifest_file / read_manifest_file (REGENERATED: Gen/GenManifest.v over the bound codec Gen/GenBound.v).

   What is written for an entry and read back is the entry: for the bounds a writer computes (never NULL) on the first
   trip, and for ANY stored entry from the second trip on -- a rewrite carries over exactly what readers saw before. *)
Theorem C12_manifest_roundtrip :
  (forall d : dfile, clean d -> load (store d) = d) /\ (forall e : sentry, load (store (load e)) = load e).
Proof. exact (conj load_store load_store_load). Qed.
Print Assumptions C12_manifest_roundtrip.

(* A manifest is referenced again unchanged only if no entry of it is deleted, and left out only if none survives. *)
Theorem C12_rewrite_decision :
  forall (del : list Z) (m : manifest),
    let surviving := filter (fun d => gen_survives del (dpath d)) (map load m) in
    (gen_rewrite_decision (length surviving) (length m) = RKeep -> surviving = map load m)
    /\ (gen_rewrite_decision (length surviving) (length m) = RDrop -> surviving = []).
Proof.
  intros del m. cbv zeta. split; intro D.
  - apply decision_keep in D. apply ListFacts.filter_length_eq. rewrite map_length. exact D.
  - apply decision_drop in D. destruct (filter _ (map load m)); [reflexivity|discriminate].
Qed.
Print Assumptions C12_rewrite_decision.

(* Manifest rewrites are invisible.  From ANY manifest state (bounds written by any earlier version included) and for
   ANY sequence of transactions whose appended files carry writer-made bounds, the data files in the manifests -- with the
   bounds pruning will read -- are those of the flat list semantics: deleted files removed, appended files added, every
   survivor's bounds as they were. *)
Theorem C12_history_view :
  forall (txs : list tx) (st : tstate),
    (forall t, In t txs -> Forall clean (tx_app t)) ->
    map load (concat (run txs st)) = spec_run txs (map load (concat st)).
Proof. exact view_run. Qed.
Print Assumptions C12_history_view.

(* ... and Table._get_all_data_files returns exactly them, each path ONCE (its first entry) -- for every history,
   those that register a path a second time included (they occur: Props/C15.v, C15_delete_complete) ... *)
Theorem C12_history_files :
  forall (txs : list tx),
    (forall t, In t txs -> Forall clean (tx_app t)) ->
    table_files (run txs []) = dedup [] (spec_run txs []).
Proof. exact history_files. Qed.
Print Assumptions C12_history_files.

(* ... which is the list itself when every appended file has its own path. *)
Theorem C12_history_files_distinct_paths :
  forall (txs : list tx),
    (forall t, In t txs -> Forall clean (tx_app t)) ->
    NoDup (paths (concat (map tx_app txs))) ->
    table_files (run txs []) = spec_run txs [].
Proof.
  intros txs C ND. rewrite history_files by exact C.
  apply dedup_id; [|intros d _ []].
  apply spec_run_nodup. exact ND.
Qed.
Print Assumptions C12_history_files_distinct_paths.

(* C12 on a table with a history: whatever transactions built the table (files appended as the writer produces them:
   exact bounds, one kind per column), for ANY bounds function that gives pruning what the manifests hold, every API
   returns project cols (filter sql rows-of-the-live-files) -- the live files being those of the list semantics, each
   path once (no hypothesis that paths are distinct: a path registered twice is read once). *)
Theorem C12_history_sql :
  forall (X : value -> value -> bool) (E : cexpr -> row -> bool) (B : cexpr -> bool) (PA : parg -> bool)
         (sch : list Z) (ids : list (Z * Z)) (bounds : file -> list (Z * value) * list (Z * value))
         (split : list row -> list (list row)) (v : bool)
         (cols : option (list Z)) (flt : pyfilter) (txs : list tx)
         (ps : list pexpr) (ce : option cexpr) (es : list fexpr),
    prepare PA flt = Ok (ps, ce) ->
    map to_fexpr ps = map Some es ->
    valid_cols sch cols -> (forall l, concat (split l) = l) ->
    NoDup (map snd ids) ->
    appends_written ids txs ->
    (forall d, In d (table_files (run txs [])) -> bounds (dfile_ d) = manifest_bounds d) ->
    let files := map dfile_ (table_files (run txs [])) in
    refused B ce = false ->
    (forall e f r, ce = Some e -> In f files -> In r (frows f) -> eval3 X E e r <> None) ->
    let answer := Ok (sel cols (filter (row_selected X es) (concat (map frows (map dfile_ (dedup [] (spec_run txs []))))))) in
    scan_table X E B PA sch ids bounds v cols flt files = answer
    /\ flat (scan_batches X E B PA sch ids bounds split cols flt files) = answer
    /\ iter_records X E B PA sch ids bounds cols flt files = answer.
Proof.
  intros X E B PA sch ids bounds split v cols flt txs ps ce es P Sh V S ND AW Bo files NB NR.
  rewrite <- (history_files txs (appends_clean ids txs AW)).
  exact (api_sql X E B PA sch ids bounds split v cols flt files ps ce es P Sh V S
                 (history_bounds_safe X ids bounds txs es ND AW Bo) NB NR).
Qed.
Print Assumptions C12_history_sql.

(* The "pyarrow does not refuse" hypothesis is satisfiable in general: it holds on every row that has
   the columns the expression reads and whose cells are comparable with the scalar literals (or NULL),
   when pyarrow refuses nothing beyond the Python-incomparable pairs. *)
Theorem C12_typed_evaluates :
  forall (X : value -> value -> bool) (e : cexpr) (r : row), typed e r -> eval3 X (fun _ _ => false) e r <> None.
Proof.
  intros X e r. induction e as [op c lit|c vals|a IH|a IHa b IHb|c|c|b]; simpl.
  - destruct lit as [l|vs]; [|contradiction]. intros [v [L H]]. rewrite L. unfold eval_cmp.
    destruct (is_null v); simpl; [discriminate|]. destruct (is_null l); simpl; [discriminate|].
    destruct H as [H|[H|H]]; try discriminate. destruct (vcmp v l); [discriminate|congruence].
  - destruct (lookup c r); [discriminate|congruence].
  - intro T. specialize (IH T). destruct (eval3 X _ a r); [discriminate|congruence].
  - intros [Ta Tb]. specialize (IHa Ta). specialize (IHb Tb).
    destruct (eval3 X _ a r); [|congruence]. destruct (eval3 X _ b r); [discriminate|congruence].
  - destruct (lookup c r); [discriminate|congruence].
  - destruct (lookup c r); [discriminate|congruence].
  - discriminate.
Qed.
Print Assumptions C12_typed_evaluates.

(* When pyarrow refuses the expression on a file that is read -- when BINDING it to the file's schema (unknown
   column, literal of a type the column cannot be compared with: then the file need not have a single row), or on
   one of the file's rows -- EVERY API raises. *)
Theorem C12_refused_raises :
  forall (X : value -> value -> bool) (E : cexpr -> row -> bool) (B : cexpr -> bool) (PA : parg -> bool)
         (sch : list Z) (ids : list (Z * Z)) (bounds : file -> list (Z * value) * list (Z * value))
         (split : list row -> list (list row)) (v : bool) (cols : option (list Z)) (flt : pyfilter) (files : list file)
         (ps : list pexpr) (e : cexpr) (f : file),
    prepare PA flt = Ok (ps, Some e) -> valid_cols sch cols -> (forall l, concat (split l) = l) ->
    In f (prune_p ids bounds ps files) ->
    (B e = true \/ exists r, In r (frows f) /\ eval3 X E e r = None) ->
    scan_table X E B PA sch ids bounds v cols flt files = Err EEval
    /\ flat (scan_batches X E B PA sch ids bounds split cols flt files) = Err EEval
    /\ iter_records X E B PA sch ids bounds cols flt files = Err EEval.
Proof.
  intros X E B PA sch ids bounds split v cols flt files ps e f P V S I N.
  rewrite <- (scan_raises X E B PA ids bounds cols flt files ps e f P I N). apply api_nf; assumption.
Qed.
Print Assumptions C12_refused_raises.

(* Why _iter_file_batches has to show the EMPTY table of a data file without rows to pyarrow (the repair): a batch
   reader that evaluates only the batches it is handed (`scan_batches_unchecked`, the code before the repair) returns
   no rows where scan() raises -- the APIs disagree on a table whose only file has no rows. *)
Theorem C12_zero_row_file_check_needed :
  exists (X : value -> value -> bool) (E : cexpr -> row -> bool) (B : cexpr -> bool) (PA : parg -> bool)
         (sch : list Z) (ids : list (Z * Z)) (bounds : file -> list (Z * value) * list (Z * value))
         (cols : option (list Z)) (flt : pyfilter) (files : list file),
    valid_cols sch cols
    /\ scan_table X E B PA sch ids bounds true cols flt files = Err EEval
    /\ flat (scan_batches_unchecked X E B PA sch ids bounds (chunk 1000) cols flt files) = Ok []
    /\ flat (scan_batches X E B PA sch ids bounds (chunk 1000) cols flt files) = Err EEval.
Proof.
  (* the batch size plays no part (a file without rows has no batch of any size): a variable, so that the witnesses below
     are not each checked against a copy of the numeral *)
  generalize 1000%nat. intro n.
  exists (fun _ _ => false), (fun _ _ => false), (fun _ => true), (fun _ => true), [0], [(0, 1)], (fun _ => ([], [])),
         None, [(0, CPlain (AVal (VStr [120])))], [ {| frows := []; fcs := true |} ].
  split; [exact I|]. vm_compute. auto.
Qed.
Print Assumptions C12_zero_row_file_check_needed.

(* Malformed filters raise instead of being reinterpreted.  `well_formed` and `meaning` (Proofs/FilterProofs.v) spell
   the documented filter language out INDEPENDENTLY of the parser and of the regenerated tables: a known spelling
   (`spelled`: between, is_null / isnull, is_not_null / notnull / isnotnull, or an operator of `sql_meaning`) with an
   argument of the shape it takes -- between a PAIR (a str is not unpacked into two characters), is_null / is_not_null the
   flag True (False is not answered with the opposite test), in / not_in no str (its characters are not iterated) --
   and {"c": None} is not a filter.  The parser fails EXACTLY when some condition is not well-formed, and otherwise
   returns exactly the meanings of the conditions, in order: nothing is reinterpreted, nothing well-formed is refused. *)
Theorem C12_strict :
  forall (f : pyfilter),
    (forall c cd, In (c, cd) f -> well_formed cd = true) /\ parse f = Ok (flat_map (fun ccd => meaning (fst ccd) (snd ccd)) f)
    \/ (exists c cd, In (c, cd) f /\ well_formed cd = false) /\ parse f = Err EParse.
Proof.
  intro f. rewrite parse_spec. destruct (forallb (fun ccd => well_formed (snd ccd)) f) eqn:F.
  - left. split; [|reflexivity]. intros c cd Hin. exact (proj1 (forallb_forall _ _) F (c, cd) Hin).
  - right. split; [|reflexivity]. destruct (ListFacts.forallb_false _ _ _ F) as [[c cd] [Hin W]]. exists c, cd. auto.
Qed.
Print Assumptions C12_strict.

(* ... a SCALAR where in / not_in take a list is never read as "a set" (a str would be the set of its characters), and a
   MAPPING is not the set of its keys: the parser refuses the filter ... *)
Theorem C12_strict_value_set :
  forall (PA : parg -> bool) (f : pyfilter) (c : Z) (s : string) (v : value),
    In (c, CPair (OpStr s) (AVal v)) f -> (sql_meaning (lower s) = Some IN \/ sql_meaning (lower s) = Some NOT_IN) ->
    prepare PA f = Err EParse.
Proof.
  intros PA f c s v I M. apply prepare_parse_err, (malformed_parse_error f c _ I).
  unfold well_formed. destruct M as [M|M]; rewrite (spelled_op _ _ M); reflexivity.
Qed.
Print Assumptions C12_strict_value_set.

Theorem C12_strict_value_set_mapping :
  forall (PA : parg -> bool) (f : pyfilter) (c : Z) (s : string) (vs : list value),
    In (c, CPairIter (OpStr s) IMap vs) f -> (sql_meaning (lower s) = Some IN \/ sql_meaning (lower s) = Some NOT_IN) ->
    prepare PA f = Err EParse.
Proof.
  intros PA f c s vs I M. apply prepare_parse_err, (malformed_parse_error f c _ I).
  unfold well_formed. destruct M as [M|M]; rewrite (spelled_op _ _ M); reflexivity.
Qed.
Print Assumptions C12_strict_value_set_mapping.

(* ... and WHAT HOLDS a value set is immaterial: a filter whose in / not_in value sets are held by any other iterable --
   a set, a frozenset, a dict view, a range, or an iterator / generator that yields its elements only ONCE (`same_filter`,
   Proofs/FilterProofs.v) -- is, for every API, on every table, with pruning, the filter with the LISTS of the same values
   (to which C12_api_sql / C12_history_sql apply).  The parser reads the value set once (Model/Filter.v `value_set_iter`;
   before the repair the expression builder and file pruning each iterated it: C12_one_shot_second_reading_empty is what the
   second reader saw). *)
Theorem C12_value_set_kind_irrelevant :
  forall (X : value -> value -> bool) (E : cexpr -> row -> bool) (B : cexpr -> bool) (PA : parg -> bool)
         (sch : list Z) (ids : list (Z * Z)) (bounds : file -> list (Z * value) * list (Z * value))
         (f f' : pyfilter),
    same_filter f f' ->
    forall v split cols files,
      scan_table X E B PA sch ids bounds v cols f files = scan_table X E B PA sch ids bounds v cols f' files
      /\ scan_batches X E B PA sch ids bounds split cols f files = scan_batches X E B PA sch ids bounds split cols f' files
      /\ iter_records X E B PA sch ids bounds cols f files = iter_records X E B PA sch ids bounds cols f' files.
Proof.
  intros X E B PA sch ids bounds f f' S v split cols files. pose proof (parse_same f f' S) as P.
  unfold iter_records, scan_table, scan_batches, prepare. rewrite P. auto.
Qed.
Print Assumptions C12_value_set_kind_irrelevant.

Theorem C12_one_shot_second_reading_empty :
  forall (vs : list value), iterate IOnce vs 0 = vs /\ iterate IOnce vs 1 = [] /\ iterate IAgain vs 1 = vs.
Proof. repeat split. Qed.
Print Assumptions C12_one_shot_second_reading_empty.

(* ... a filter rejected by the front end is rejected by every API on every table (the empty one and
   the all-pruned one included) ... *)
Theorem C12_strict_everywhere :
  forall (X : value -> value -> bool) (E : cexpr -> row -> bool) (B : cexpr -> bool) (PA : parg -> bool)
         (sch : list Z) (ids : list (Z * Z)) (bounds : file -> list (Z * value) * list (Z * value))
         (flt : pyfilter) (k : errk),
    prepare PA flt = Err k ->
    forall v split cols files,
      scan_table X E B PA sch ids bounds v cols flt files = Err k
      /\ scan_batches X E B PA sch ids bounds split cols flt files = Err k
      /\ iter_records X E B PA sch ids bounds cols flt files = Err k.
Proof.
  intros X E B PA sch ids bounds flt k P v split cols files.
  unfold iter_records, scan_table, scan_batches. rewrite P. simpl. auto.
Qed.
Print Assumptions C12_strict_everywhere.

(* ... an accepted operator is used with the meaning the table gives it, and the table's meanings are
   the SQL ones (independent reading `sql_meaning` of the spellings). *)
Theorem C12_operator_faithful :
  forall (c : Z) (s : string) (a : parg) (ps : list pexpr),
    parse_one c (CPair (OpStr s) a) = Ok ps ->
    (lower s = between_key /\ exists lo hi, unpack2 a = Ok (lo, hi) /\
        ps = [ {| pcol := c; pop := GE; pval := AVal lo |}; {| pcol := c; pop := LE; pval := AVal hi |} ])
    \/ (In (lower s) is_null_aliases /\ flag_true a = true /\ ps = [ {| pcol := c; pop := IS_NULL; pval := AVal VNull |} ])
    \/ (In (lower s) is_not_null_aliases /\ flag_true a = true /\ ps = [ {| pcol := c; pop := IS_NOT_NULL; pval := AVal VNull |} ])
    \/ (exists op, assoc_str (lower s) op_table = Some op /\ text_value_set op a = false /\ ps = [ {| pcol := c; pop := op; pval := a |} ]).
Proof.
  intros c s a ps. unfold parse_one, key_is, parse_op.
  destruct (String.eqb_spec between_key (lower s)) as [Q|_].
  { destruct (unpack2 a) as [[lo hi]|] eqn:U; cbn [bind fst snd]; [|discriminate]. intros [= <-]. left. split; auto. exists lo, hi. auto. }
  destruct (mem_str (lower s) is_null_aliases) eqn:M1.
  { destruct (flag_true a) eqn:Fl; [|discriminate]. intros [= <-]. right. left. split; [apply mem_str_in; auto|auto]. }
  destruct (mem_str (lower s) is_not_null_aliases) eqn:M2.
  { destruct (flag_true a) eqn:Fl; [|discriminate]. intros [= <-]. right. right. left. split; [apply mem_str_in; auto|auto]. }
  destruct (assoc_str (lower s) op_table) as [op|] eqn:A; cbn [bind]; [|discriminate].
  destruct (text_value_set op a) eqn:T; [discriminate|].
  destruct (value_set op a) as [a'|] eqn:V; cbn [bind]; [|discriminate].
  assert (a' = a) by (unfold value_set in V; destruct op, a; congruence). subst a'.
  intros [= <-]. right. right. right. exists op. auto.
Qed.
Print Assumptions C12_operator_faithful.

(* the REGENERATED operator table is the independent reading of the spellings -- nothing more, nothing less -- and
   the parser's classification of a key (between / is_null aliases / is_not_null aliases / table, in the order
   parse_filter_dict tests them, all REGENERATED) is the independent one *)
Theorem C12_operator_table :
  forall (s : string), assoc_str s op_table = sql_meaning s /\ key_class s = spelled s.
Proof. exact (fun s => conj (op_table_is_sql s) (key_class_spelled s)). Qed.
Print Assumptions C12_operator_table.

Theorem C12_special_keys :
  between_key = "between"%string
  /\ (forall s, In s is_null_aliases -> s = "is_null"%string \/ s = "isnull"%string)
  /\ (forall s, In s is_not_null_aliases -> s = "is_not_null"%string \/ s = "notnull"%string \/ s = "isnotnull"%string)
  /\ In "is_null"%string is_null_aliases /\ In "is_not_null"%string is_not_null_aliases
  /\ (forall s, In s (between_key :: is_null_aliases ++ is_not_null_aliases) -> assoc_str s op_table = None).
Proof.
  split; [reflexivity|].
  split; [intros s H; simpl in H; intuition|].
  split; [intros s H; simpl in H; intuition|].
  split; [simpl; intuition|]. split; [simpl; intuition|].
  intros s H. simpl in H. intuition (subst; reflexivity).
Qed.
Print Assumptions C12_special_keys.

(* Why _read_datafile_table / _iter_file_batches must filter BEFORE they project: projecting first
   makes pyarrow refuse every filter that reads a column outside the projection. *)
Theorem C12_project_after :
  forall (X : value -> value -> bool) (E : cexpr -> row -> bool) (B : cexpr -> bool) (sch cs : list Z) (e : cexpr) (rows : list row) (c : Z),
    valid_cols sch (Some cs) -> In c (fields e) -> ~ In c cs -> rows <> [] ->
    read_project_first X E B sch (Some cs) (Some e) rows = Err EEval.
Proof.
  intros X E B sch cs e rows c V I NI NE. unfold read_project_first. rewrite select_valid by auto. simpl.
  unfold apply_filter. simpl. destruct (B e); [reflexivity|].
  destruct rows as [|r rs]; [contradiction|]. simpl.
  rewrite (eval3_missing X E e _ c I); [reflexivity|]. apply lookup_proj_none. exact NI.
Qed.
Print Assumptions C12_project_after.

(* NOT IN with NULLs in the value set (see the header): the rows selected are those on which the SQL standard's
   three-valued NOT IN (`sql3_not_in`) is TRUE, plus those on which it is UNKNOWN only because of NULLs in the value set
   (the cell is not NULL and matches no element) ... *)
Theorem C12_not_in_nulls_dropped :
  forall (X : value -> value -> bool) (v : value) (vals : list value),
    selected X NOT_IN v VNull vals = true
    <-> sql3_not_in X v vals = TT \/ (sql3_not_in X v vals = TN /\ is_null v = false /\ existsb is_null vals = true).
Proof.
  intros X v vals. unfold selected, sql3_not_in. destruct (is_null v); [intuition discriminate|].
  destruct (existsb (fun w => negb (is_null w) && in_eq X v w) vals); simpl; [intuition discriminate|].
  destruct (existsb is_null vals); intuition.
Qed.
Print Assumptions C12_not_in_nulls_dropped.

(* ... so 4 NOT IN (3, NULL) is selected here and UNKNOWN (not selected) under the SQL standard. *)
Theorem C12_not_in_null_differs_from_sql :
  forall X, selected X NOT_IN (VInt 4) VNull [VInt 3; VNull] = true /\ sql3_not_in X (VInt 4) [VInt 3; VNull] = TN.
Proof. intro X. vm_compute. auto. Qed.
Print Assumptions C12_not_in_null_differs_from_sql.

(* The theorems are not vacuous: table {x double, k long} in three files: [{5.0,1}; {NaN,2}], [{NULL,3}; {7.0,4}; {8.0,NULL}] and one WITHOUT rows.
   Filter {"x": ("!=", 5.0), "k": ("Not_In", [3, None])} with projection ["k"]:
   the hypotheses of C12_api_sql hold and the answer is the two rows k=2 (the NaN row) and k=4;
   the rows with x NULL or k NULL are not selected -- non-empty, NULL- and NaN-sensitive; batches of
   one row give the same; unknown operator, {"c": None}, a str as value set or as between argument and the flag False
   are not well-formed: parse errors. *)
Definition ex_X (a b : value) : bool := py_eqb a b.
Definition ex_E (_ : cexpr) (_ : row) : bool := false.
Definition ex_B (_ : cexpr) : bool := false.
Definition ex_PA (_ : parg) : bool := true.
Definition ex_sch : list Z := [0; 1].
Definition ex_ids : list (Z * Z) := [(0, 1); (1, 2)].
Definition ex_files : list file :=
  [ {| frows := [ [(0, VFlt (Fin (5 # 1))); (1, VInt 1)]; [(0, VFlt NaN); (1, VInt 2)] ]; fcs := true |};
    {| frows := [ [(0, VNull); (1, VInt 3)]; [(0, VFlt (Fin (7 # 1))); (1, VInt 4)]; [(0, VFlt (Fin (8 # 1))); (1, VNull)] ]; fcs := false |};
    {| frows := []; fcs := true |} ].
Definition ex_flt : pyfilter :=
  [ (0, CPair (OpStr "!=") (AVal (VFlt (Fin (5 # 1))))); (1, CPair (OpStr "Not_In") (AList [VInt 3; VNull])) ].
Definition ex_es : list fexpr :=
  [ {| fcol := 0; fop_ := NE; fsval := VFlt (Fin (5 # 1)); flval := [] |};
    {| fcol := 1; fop_ := NOT_IN; fsval := VNull; flval := [VInt 3; VNull] |} ].

Example C12_nonvacuous :
  exists ps ce,
    prepare ex_PA ex_flt = Ok (ps, Some ce)
    /\ map to_fexpr ps = map Some ex_es
    /\ valid_cols ex_sch (Some [1])
    /\ NoDup (map snd ex_ids)
    /\ refused ex_B (Some ce) = false
    /\ (forall f r, In f ex_files -> In r (frows f) -> eval3 ex_X ex_E ce r <> None)
    /\ scan_table ex_X ex_E ex_B ex_PA ex_sch ex_ids (stored_bounds ex_ids) false (Some [1]) ex_flt ex_files
       = Ok [ [(1, VInt 2)]; [(1, VInt 4)] ]
    /\ flat (scan_batches ex_X ex_E ex_B ex_PA ex_sch ex_ids (stored_bounds ex_ids) (chunk 1) (Some [1]) ex_flt ex_files)
       = Ok [ [(1, VInt 2)]; [(1, VInt 4)] ]
    /\ sel (Some [1]) (filter (row_selected ex_X ex_es) (concat (map frows ex_files))) = [ [(1, VInt 2)]; [(1, VInt 4)] ]
    /\ (forall c cd, In (c, cd) ex_flt -> well_formed cd = true)
    /\ parse ex_flt = Ok (flat_map (fun ccd => meaning (fst ccd) (snd ccd)) ex_flt)
    /\ map well_formed [ CPair (OpStr "gte") (AVal (VInt 1)); CPlain (AVal VNull); CPair (OpStr "IN") (AVal (VStr [97; 98]));
                         CPair (OpStr "between") (AVal (VStr [97; 98])); CPair (OpStr "is_null") (AVal (VBool false));
                         CPair OpOther (AVal (VInt 1)) ]
       = [false; false; false; false; false; false]
    /\ parse [ (0, CPair (OpStr "gte") (AVal (VInt 1))) ] = Err EParse
    /\ parse [ (0, CPlain (AVal VNull)) ] = Err EParse
    /\ parse [ (0, CPair (OpStr "in") (AVal (VStr [97; 98]))) ] = Err EParse
    /\ parse [ (0, CPair (OpStr "Between") (AVal (VStr [97; 98]))) ] = Err EParse
    /\ parse [ (0, CPair (OpStr "is_null") (AVal (VBool false))) ] = Err EParse.
Proof.
  eexists. eexists. split; [vm_compute; reflexivity|].
  split; [vm_compute; reflexivity|].
  split; [simpl; split; [discriminate|intuition]|].
  split; [repeat constructor; simpl; intuition discriminate|].
  split; [reflexivity|].
  split; [apply (defined_on_files ex_X ex_E frows); vm_compute; reflexivity|].
  split; [vm_compute; reflexivity|]. split; [vm_compute; reflexivity|]. split; [vm_compute; reflexivity|].
    split; [intros c cd Hi; simpl in Hi; destruct Hi as [[= <- <-]|[[= <- <-]|[]]]; vm_compute; reflexivity|].
    vm_compute. repeat split.
Qed.

(* non-vacuity of C12_refused_raises at BINDING: table {x long} whose only data file has no rows; pyarrow cannot compare
   the long column with a string literal (B refuses `x == "x"`); the hypotheses hold -- the file is not pruned (a file
   without rows has no bounds) -- and every API raises; with the comparable literal 1 every API returns no rows. *)
Definition zx_B (e : cexpr) : bool := match e with Cmp _ 0 (AVal (VStr _)) => true | _ => false end.
Definition zx_files : list file := [ {| frows := []; fcs := true |} ].
Definition zx_flt : pyfilter := [ (0, CPlain (AVal (VStr [120]))) ].

Example C12_zero_row_file_nonvacuous :
  exists ps e f,
    prepare ex_PA zx_flt = Ok (ps, Some e) /\ valid_cols [0] None
    /\ In f (prune_p [(0, 1)] (stored_bounds [(0, 1)]) ps zx_files) /\ frows f = [] /\ zx_B e = true
    /\ scan_table ex_X ex_E zx_B ex_PA [0] [(0, 1)] (stored_bounds [(0, 1)]) false None zx_flt zx_files = Err EEval
    /\ flat (scan_batches ex_X ex_E zx_B ex_PA [0] [(0, 1)] (stored_bounds [(0, 1)]) (chunk 3) None zx_flt zx_files) = Err EEval
    /\ iter_records ex_X ex_E zx_B ex_PA [0] [(0, 1)] (stored_bounds [(0, 1)]) None zx_flt zx_files = Err EEval
    /\ iter_records ex_X ex_E zx_B ex_PA [0] [(0, 1)] (stored_bounds [(0, 1)]) None [ (0, CPlain (AVal (VInt 1))) ] zx_files = Ok [].
Proof.
  eexists. eexists. exists {| frows := []; fcs := true |}.
  split; [vm_compute; reflexivity|]. split; [exact I|]. split; [vm_compute; auto|]. vm_compute. repeat split.
Qed.

(* non-vacuity of C12_value_set_kind_irrelevant: table {a long} of two files holding 7 and 9;
   {"a": ("in", iter([7]))} is the filter {"a": ("in", [7])}: the file holding 9 is pruned, the row 7 is returned (not: every
   file pruned, as when pruning reads the iterator a second time); a dict as value set is refused. *)
Definition it_files : list file := [ {| frows := [ [(0, VInt 7)] ]; fcs := true |}; {| frows := [ [(0, VInt 9)] ]; fcs := true |} ].
Definition it_flt : pyfilter := [ (0, CPairIter (OpStr "in") IOnce [VInt 7]) ].
Definition it_flt_list : pyfilter := [ (0, CPair (OpStr "in") (AList [VInt 7])) ].

Example C12_value_set_nonvacuous :
  same_filter it_flt it_flt_list
  /\ scan_table ex_X ex_E ex_B ex_PA [0] [(0, 1)] (stored_bounds [(0, 1)]) true None it_flt it_files = Ok [ [(0, VInt 7)] ]
  /\ iter_records ex_X ex_E ex_B ex_PA [0] [(0, 1)] (stored_bounds [(0, 1)]) None it_flt it_files = Ok [ [(0, VInt 7)] ]
  /\ (exists ps, parse it_flt = Ok ps /\ prune_p [(0, 1)] (stored_bounds [(0, 1)]) ps it_files = [ {| frows := [ [(0, VInt 7)] ]; fcs := true |} ])
  /\ prepare ex_PA [ (0, CPairIter (OpStr "Not_In") IMap [VInt 7]) ] = Err EParse
  /\ prepare ex_PA [ (0, CPair (OpStr "in") (AVal (VInt 7))) ] = Err EParse.
Proof.
  split.
  { constructor; [|constructor]. split; [reflexivity|]. apply sc_iter; [discriminate|left; reflexivity]. }
  split; [vm_compute; reflexivity|]. split; [vm_compute; reflexivity|].
  (* the parsed filter is given as a term: read back into an existential variable it would be stored in the proof as the
     normal form of `parse it_flt` *)
  split; [exists (match parse it_flt with Ok ps => ps | Err _ => [] end); split; vm_compute; reflexivity|]. split; vm_compute; reflexivity.
Qed.

(* ... nor on a table with a history: table {s string, k long}.  One transaction appends three files ("a"/NULL, "m", "z") -- one manifest of three entries;
   the next deletes the "z" file: the manifest is REWRITTEN with two survivors; the third deletes the "a" file and appends a
   "b" file: rewritten again, plus a new manifest.  The hypotheses of C12_history_sql hold; the manifests hold files 11
   and 13; the string bounds read back after two rewrites are still "m".."m"; {"s": ("<=", "m")} selects k = 3 and k = 5. *)
Definition hx_ids : list (Z * Z) := [(0, 1); (1, 2)].
Definition hx_file (rows : list row) : file := {| frows := rows; fcs := true |}.
Definition hx_f0 := hx_file [ [(0, VStr [97]); (1, VInt 1)]; [(0, VNull); (1, VInt 2)] ].
Definition hx_f1 := hx_file [ [(0, VStr [109]); (1, VInt 3)] ].
Definition hx_f2 := hx_file [ [(0, VStr [122]); (1, VInt 4)] ].
Definition hx_f3 := hx_file [ [(0, VStr [98]); (1, VInt 5)] ].
Definition hx_txs : list tx :=
  [ {| tx_app := [written hx_ids 10 hx_f0; written hx_ids 11 hx_f1; written hx_ids 12 hx_f2]; tx_del := [] |};
    {| tx_app := []; tx_del := [12] |};
    {| tx_app := [written hx_ids 13 hx_f3]; tx_del := [10] |} ].
Definition hx_flt : pyfilter := [ (0, CPair (OpStr "<=") (AVal (VStr [109]))) ].

Lemma hx_wf : forall f, In f [hx_f0; hx_f1; hx_f2; hx_f3] -> wf_file hx_ids (frows f).
Proof. intros f I. apply wf_rows_wf_file. destruct I as [<-|[<-|[<-|[<-|[]]]]]; reflexivity. Qed.

(* a history that registers a path twice (a fourth transaction appends path 11 again): the manifests hold it twice, a scan reads it
   once; the list semantics holds it twice, `dedup` once *)
Definition hx_txs2 : list tx := hx_txs ++ [ {| tx_app := [written hx_ids 11 hx_f1]; tx_del := [] |} ].
Example C12_history_same_path_twice :
  map dpath (map load (concat (run hx_txs2 []))) = [11; 13; 11]
  /\ map dpath (spec_run hx_txs2 []) = [11; 13; 11]
  /\ map dpath (table_files (run hx_txs2 [])) = [11; 13]
  /\ ~ NoDup (paths (concat (map tx_app hx_txs2))).
Proof.
  split; [vm_compute; reflexivity|]. split; [vm_compute; reflexivity|]. split; [vm_compute; reflexivity|].
  vm_compute. intro ND. inversion ND as [|? ? _ ND1]; subst. inversion ND1 as [|? ? NI _]; subst. apply NI. simpl. tauto.
Qed.

Example C12_history_nonvacuous :
  appends_written hx_ids hx_txs
  /\ NoDup (paths (concat (map tx_app hx_txs)))
  /\ map (map spath) (run hx_txs []) = [ [11]; [13] ]
  /\ map (fun e => (spath e, lookup 1 (gen_load_lower (slo e)), lookup 1 (gen_load_upper (shi e)))) (concat (run hx_txs []))
     = [ (11, Some (VStr [109]), Some (VStr [109])); (13, Some (VStr [98]), Some (VStr [98])) ]
  /\ map dpath (spec_run hx_txs []) = [11; 13]
  /\ (exists ps ce, prepare ex_PA hx_flt = Ok (ps, Some ce) /\ refused ex_B (Some ce) = false
        /\ forall f r, In f (map dfile_ (table_files (run hx_txs []))) -> In r (frows f) -> eval3 ex_X ex_E ce r <> None)
  /\ scan_table ex_X ex_E ex_B ex_PA ex_sch hx_ids (stored_bounds hx_ids) true (Some [1]) hx_flt (map dfile_ (table_files (run hx_txs [])))
     = Ok [ [(1, VInt 3)]; [(1, VInt 5)] ].
Proof.
  split.
  { intros t d It Id. simpl in It.
    repeat (destruct It as [<-|It]; [simpl in Id; repeat (destruct Id as [<-|Id]; [split; [apply hx_wf; simpl; tauto | reflexivity]|]); contradiction|]).
    contradiction. }
  split; [vm_compute; repeat constructor; simpl; intuition discriminate|].
  split; [vm_compute; reflexivity|].
  split; [vm_compute; reflexivity|].
  split; [vm_compute; reflexivity|].
  split; [|vm_compute; reflexivity].
  eexists. eexists. split; [vm_compute; reflexivity|]. split; [reflexivity|].
  apply (defined_on_files ex_X ex_E frows). vm_compute. reflexivity.
Qed.
