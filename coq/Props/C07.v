(* Props/C07.v -- Garbage collection fails closed.
   Model: Model/GC.v with a fault oracle `nat -> option fault` indexed by storage-call number
   (FRaise: the call raises an OSError; FRaiseX: it raises an exception that is not an OSError, which the readers' Avro attempt
   does not catch; FBad: exists -> False, read/open -> unparseable bytes, listing -> an extra "../x" entry, stat/delete -> raises);
   any number of faults, anywhere.
   Also: the pointer plane (Model/GCPointer.v), structured damage of the metadata document and of list / manifest records
   (Model/GCDoc.v over the shapes of Gen/GenDoc.v), the regenerated per-marker kernel (Gen/GenGCMarker.v) and listings that fail
   below the backend (Model/LocalList.v).  The examples run on the store of Props/C05.v. *)
From Coq Require Import ZArith String List Bool.
Require Import DS.Model.PyStr DS.Gen.GenNorm DS.Model.GC DS.Proofs.GCProofs DS.Proofs.GCFaultProofs.
Require Import DS.Model.GCPointer DS.Proofs.GCPointerProofs DS.Proofs.PyStrProofs DS.Proofs.GCHistProofs.
Require Import DS.Model.Doc DS.Gen.GenDoc DS.Model.GCDoc DS.Proofs.GCDocProofs.
Require Import DS.Gen.GenGCMarker DS.Proofs.GCMarkerGenProofs. Require Import DS.Proofs.MarkerKeyProofs.
Require Import DS.Model.LocalList.
Require DS.Proofs.ListFacts.
Import ListNotations.
Open Scope string_scope.
Open Scope Z_scope.

(* For EVERY fault oracle: an abort raised while reachability or in-flight protection is being
   established happens before the first delete; and whatever happens (completion, or an abort raised by
   a sweep's listing), every deleted file is unreferenced, not registered by a live transaction and
   older than the grace period -- absorbed faults never shrink protection below the live set; nothing
   else disappears except markers older than the abandonment timeout; and a marker that is still
   present afterwards (fresh, or its stat / delete failed) protected everything it denotes. *)
Theorem C07_fail_closed : forall (tp : string) (grace now timeout : Z) (o : oracle) (snaps : list string) (st : store),
  wf_store snaps st -> gc_safe_spec now grace timeout snaps st (gc_run tp grace now timeout o snaps st).
Proof. exact gc_safe_all_faults. Qed.
Print Assumptions C07_fail_closed.

(* Every damage class of a reachable manifest list or manifest (missing; or present but not parseable as what it must
   be: garbage, empty, truncated Avro, a file of the other kind, a JSON object without its `manifests` / `files` section --
   as_list / as_manifest of CJsonEmpty is None) aborts before the first sweep having deleted nothing --
   under ANY additional faults, and whichever of the two preparatory phases the source runs first. *)
Theorem C07_damage : forall (tp : string) (grace now timeout : Z) (o : oracle) (snaps : list string) (st : store) (k : key),
  wf_store snaps st ->
  (ref_list snaps k /\ damaged_list st k) \/ (ref_manifest snaps st k /\ damaged_manifest st k) ->
  aborted_before_sweep (gc_run tp grace now timeout o snaps st) /\ r_deleted (gc_run tp grace now timeout o snaps st) = [].
Proof.
  intros tp grace now timeout o snaps st k W D. unfold gc_run.
  exact (damaged_aborts_from MARKERS_FIRST tp grace now timeout o snaps (mkG 0 st []) k W D).
Qed.
Print Assumptions C07_damage.

(* Transient failures: a collection that gets as far as the sweeps read every reachable list and manifest with no
   effective fault at all (on a store that had lost at most abandoned markers) -- the only fault a successful read can
   have absorbed is an OSError / garbage on open_file of a file that is in the legacy JSON format anyway (the Avro
   attempt fails either way and the JSON read was fault-free).  Equivalently: any other fault on any exists / open_file /
   read_file of a reachable list or manifest aborts before the first delete. *)
Theorem C07_transient : forall (tp : string) (grace now timeout : Z) (o : oracle) (snaps : list string) (st : store),
  wf_store snaps st ->
  ~ aborted_before_sweep (gc_run tp grace now timeout o snaps st) ->
  exists g mpaths g1 entries g2,
    only_markers_removed now timeout st (g_store g)
    /\ read_all WList o g (norm_set tp snaps) = (Some mpaths, g1)
    /\ read_all WManifest o g1 (norm_set tp mpaths) = (Some entries, g2)
    /\ trace_ext (g_store g) WList g g1 /\ trace_ext (g_store g) WManifest g1 g2.
Proof.
  intros tp grace now timeout o snaps st WF NA. unfold gc_run in NA.
  exact (reach_phase_fault_free_from MARKERS_FIRST tp grace now timeout o snaps (mkG 0 st []) NA).
Qed.
Print Assumptions C07_transient.

(* Partial decodes are never trusted: a reachable manifest list or manifest whose Avro stream yields the records `decoded`
   and THEN fails (a damaged later record, block or sync marker; a read error mid-stream; caught = whether the exception is
   of the class the readers catch and answer with the JSON fallback) is never read as the records decoded so far -- by any
   read, under any fault oracle -- and the collection aborts before the first sweep having deleted nothing. *)
Theorem C07_partial_decode : forall (tp : string) (grace now timeout : Z) (o : oracle) (snaps : list string) (st : store)
    (k : key) (ob : obj) (decoded : list string) (caught : bool),
  wf_store snaps st -> lookup k st = Some ob -> body ob = CPartialAvro decoded caught ->
  ref_list snaps k \/ ref_manifest snaps st k ->
  (forall w o' g, g_store g = st -> fst (read_one w o' g k) = None)
  /\ aborted_before_sweep (gc_run tp grace now timeout o snaps st) /\ r_deleted (gc_run tp grace now timeout o snaps st) = [].
Proof.
  intros tp grace now timeout o snaps st k ob decoded caught W L B R. split.
  - intros w o' g SE. eapply read_one_partial; eauto. rewrite SE. exact L.
  - apply (C07_damage tp grace now timeout o snaps st k W). destruct R as [R|R]; [left|right]; (split; [exact R|]).
    + unfold damaged_list. rewrite L, B. reflexivity.
    + unfold damaged_manifest. rewrite L, B. reflexivity.
Qed.
Print Assumptions C07_partial_decode.

(* The pointer plane, connected to the collector (Model/GCPointer.v collect_pointer = the two resolutions of the pointer, the
   read of the resolved metadata FILE, then Model/GCDoc.v collect_doc / Model/GC.v gc_run on its document).  Storage may hold
   metadata files that were never published (a writer died between writing v(N+1) and flipping the pointer); files are
   identified by name, and the collector's re-check compares metadata CONTENT (`same`), not version numbers.
   With the pointer published at the file p holding the document dp: whatever the first resolution (refresh) was told -- the
   pointer looking missing or garbled, the hinted file reported missing, so that the scan picks the highest version on
   storage -- and whatever exists / listing / stat / read answers both resolutions get, a collection whose second,
   independent read of the pointer is answered (truthfully, or by raising) aborts / refuses having deleted nothing, or runs on
   exactly the manifest lists of the PUBLISHED document and satisfies C07_fail_closed's specification for them, under every
   fault oracle of the collection proper.
   _partial: the hypothesis `a_hint a2 <> PNone` is needed -- see C07_pointer_run_safe_refuted. *)
Theorem C07_pointer_run_safe_partial : forall (ext : string -> jv -> bool) (same : jv -> jv -> bool) (tp : string) (grace now timeout : Z) (o : oracle)
    (a1 a2 : answers) (files : list (mfile jv)) (st : store) (p : mfile jv) (dp : jv),
  (forall a b, same a b = true -> doc_lists a = doc_lists b) ->
  find_file (mf_name p) files = Some p -> mf_body p = Some dp -> accepts ext gen_metadata_shape dp = true ->
  honest p a1 -> honest p a2 -> a_hint a2 <> PNone ->
  wf_store (doc_lists dp) st ->
  match collect_pointer ext same tp grace now timeout o a1 a2 files st with
  | PUse f (DocRun r) => gc_safe_spec now grace timeout (doc_lists dp) st r
  | other => pointer_deleted other = []
  end.
Proof.
  intros ext same tp grace now timeout o a1 a2 files st p dp SL F B A _ H2 N W.
  exact (pointer_run_safe ext same tp grace now timeout o a1 a2 files st p dp SL F B A H2 N W).
Qed.
Print Assumptions C07_pointer_run_safe_partial.

(* The same statement WITHOUT the hypothesis on the second pointer read; it is FALSE of the code: C07_pointer_run_safe_refuted,
   below the example table it is refuted on. *)
Definition C07_pointer_run_safe_full : Prop := pointer_run_safe_full.

(* ... and when there is nothing unpublished above the published file (the scan's choice is p), a pointer lost at both reads
   is harmless: the collection works from p. *)
Theorem C07_pointer_lost_hint_partial : forall (D : Type) (same : D -> D -> bool) (fs : list (mfile D)) (p : mfile D) (a1 a2 : answers) (f : mfile D) (d : D),
  a_hint a1 = PNone -> a_hint a2 = PNone -> scan_pick a1 fs = Some p ->
  collect_resolve same a1 a2 fs = RUse f d -> mf_name f = mf_name p.
Proof.
  intros D same fs p a1 a2 f d H1 _ SP H. exact (resolve_lost_hint_scan D same fs p a1 a2 f d H1 SP H).
Qed.
Print Assumptions C07_pointer_lost_hint_partial.

(* a pointer read that RAISES (at either resolution) never lets the collection run *)
Theorem C07_pointer_raise_aborts : forall (ext : string -> jv -> bool) (same : jv -> jv -> bool) (tp : string) (grace now timeout : Z) (o : oracle)
    (a1 a2 : answers) (files : list (mfile jv)) (st : store),
  a_hint a1 = PRaise \/ a_hint a2 = PRaise ->
  forall f res, collect_pointer ext same tp grace now timeout o a1 a2 files st <> PUse f res.
Proof.
  intros ext same tp grace now timeout o a1 a2 files st H f res. unfold collect_pointer.
  destruct (collect_resolve same a1 a2 (map (parse_file ext) files)) as [| |g d] eqn:R; try discriminate.
  exfalso. exact (resolve_raise_aborts jv same _ a1 a2 H g d R).
Qed.
Print Assumptions C07_pointer_raise_aborts.

(* the metadata file a collection works from is on storage, was read without a failure, is JSON and is accepted by the reader:
   a metadata file that is missing, unparseable or failing transiently is never worked from (and what runs is collect_doc on
   its document: C07_metadata_document_fail_closed below) *)
Theorem C07_pointer_unreadable_never_used : forall (ext : string -> jv -> bool) (same : jv -> jv -> bool) (tp : string) (grace now timeout : Z) (o : oracle)
    (a1 a2 : answers) (files : list (mfile jv)) (st : store) (f : mfile jv) (res : doc_result),
  collect_pointer ext same tp grace now timeout o a1 a2 files st = PUse f res ->
  exists f0 d, find_file (mf_name f) files = Some f0 /\ mf_body f0 = Some d /\ accepts ext gen_metadata_shape d = true
               /\ a_read_raises a1 (mf_name f) = false /\ res = collect_doc ext tp grace now timeout o d st.
Proof.
  intros ext same tp grace now timeout o a1 a2 files st f res H. unfold collect_pointer in H.
  destruct (collect_resolve same a1 a2 (map (parse_file ext) files)) as [| |g d] eqn:R; try discriminate.
  injection H as -> <-.
  destruct (resolve_uses_readable jv same _ a1 a2 f d R) as [F [B RR]].
  rewrite find_file_parse in F. destruct (find_file (mf_name f) files) as [f0|] eqn:F0; [|discriminate].
  simpl in F. inversion F as [E]. rewrite <- E in B. destruct (parse_file_body ext f0 d B) as [B0 A].
  exists f0, d. rewrite <- E in RR. repeat split; auto.
Qed.
Print Assumptions C07_pointer_unreadable_never_used.

(* A marker whose stat or delete fails -- more generally ANY marker that is still present after the run -- kept
   everything it denotes (its payload path, or when the payload is unusable every path its name can denote) out of the
   deleted set; and a marker disappears only when it is older than the abandonment timeout. *)
Theorem C07_marker_keep : forall (tp : string) (grace now timeout : Z) (o : oracle) (snaps : list string) (st : store),
  wf_store snaps st ->
  let r := gc_run tp grace now timeout o snaps st in
  (forall mk ob, lookup mk (g_store (r_final r)) = Some ob -> is_marker_key mk ->
     forall k, marker_denotes mk ob k -> ~ In k (r_deleted r)) /\
  (forall mk ob, lookup mk st = Some ob -> is_marker_key mk -> lookup mk (g_store (r_final r)) = None -> mtime ob < now - timeout).
Proof.
  intros tp grace now timeout o snaps st W r. pose proof (gc_safe_all_faults tp grace now timeout o snaps st W) as SP. split.
  - exact (gs_marker_keep _ _ _ _ _ _ SP).
  - intros mk ob L M N. destruct (gs_store _ _ _ _ _ _ SP mk ob L N) as [D|[Old _]]; [|exact Old].
    exfalso. exact (deleted_not_marker_from MARKERS_FIRST tp grace now timeout o snaps (mkG 0 st []) mk D M).
Qed.
Print Assumptions C07_marker_keep.

(* The writer's marker naming and the collector's fallback agree (both REGENERATED: Gen/GenNorm.v register_marker_path /
   register_marker_payload from Transaction._register_inflight, marker_fallback from GarbageCollector._marker_targets), for
   EVERY path Transaction.append_files accepts (the REGENERATED guard append_accepts_path: any canonical path below data/,
   in any sub-directory, with or without leading slashes): the marker written for it is a marker for the collector, and
   what is protected when that marker's payload CANNOT be read is exactly the registered file.  (C07_marker_keep: a marker
   that is present protects what its key can denote; this theorem: what the key denotes IS what the writer registered.)
   With markers keyed by the file's basename -- the unchanged library -- this is false (C07_basename_marker_fallback_refuted). *)
Theorem C07_registered_marker_fallback_covers : forall (normpath : string -> string) (file : string),
  append_accepts_path normpath file = true ->
  is_marker_key (register_marker_path file)
  /\ marker_fallback (register_marker_path file) (basename (register_marker_path file)) = [resolve (register_marker_payload file)]
  /\ startswith "data/" (resolve (register_marker_payload file)) = true.
Proof. exact accepted_marker_fallback_covers. Qed.
Print Assumptions C07_registered_marker_fallback_covers.

(* ... and for every other file a transaction registers (the manifests and the manifest list of a commit attempt, under
   metadata/manifests/): any table-relative path.  `name_candidates` is the `marker_denotes` of an unreadable marker
   (Model/GC.v) and the content of wf_store's wf_markers: a store holding the marker of ANY registered file satisfies it. *)
Theorem C07_registered_marker_key_denotes : forall (file : string), table_relative (resolve file) ->
  is_marker_key (register_marker_path file)
  /\ name_candidates (register_marker_path file) = [resolve (register_marker_payload file)]
  /\ marker_fallback (register_marker_path file) (basename (register_marker_path file)) = [resolve (register_marker_payload file)].
Proof. exact registered_marker_fallback_covers. Qed.
Print Assumptions C07_registered_marker_key_denotes.

(* The naming of the unchanged library (marker keyed by the file's BASENAME, fallback guessed from it; written down by hand in
   Proofs/MarkerKeyProofs.v): an accepted file in a sub-directory of data/ is not among the paths protected when its marker
   cannot be read. *)
Theorem C07_basename_marker_fallback_refuted :
  exists f, append_accepts_path (fun s => s) f = true
            /\ ~ In (resolve f) (basename_marker_fallback (basename (basename_marker_path f))).
Proof.
  exists "data/p1/x.parquet". split; [reflexivity|]. vm_compute. intros [H|[H|[]]]; discriminate.
Qed.
Print Assumptions C07_basename_marker_fallback_refuted.

(* STRUCTURED damage: the file is still a good JSON / Avro document, but a key is gone, null, or of another type.
   The readers' demands are the shapes regenerated from the source (Gen/GenDoc.v); `ext` is the one external validation
   (Schema.__post_init__), any function.

   The metadata document.  collect() works from metadata_manager.refresh() = json.loads + _dict_to_metadata of the current
   metadata file.  For EVERY document d: either the reader refuses it -- the collection raises having deleted nothing --
   or the collection runs on the manifest lists of ALL the snapshots the document lists (its snapshots section is a list
   and every snapshot in it names its manifest list as a string: nothing was defaulted, no snapshot skipped), and then
   for every fault oracle only unreferenced, unprotected, old files are deleted (C07_fail_closed for those lists). *)
Theorem C07_metadata_document_fail_closed : forall (ext : string -> jv -> bool) (tp : string) (grace now timeout : Z) (o : oracle) (d : jv) (st : store),
  wf_store (doc_lists d) st ->
  match collect_doc ext tp grace now timeout o d st with
  | DocRefused => doc_deleted (collect_doc ext tp grace now timeout o d st) = []
  | DocRun r =>
      (exists items, py_getitem d gen_snapshots_key = Some (JArr items)
                     /\ Forall2 (fun it l => py_getitem it gen_manifest_list_key = Some (JStr l)) items (doc_lists d))
      /\ gc_safe_spec now grace timeout (doc_lists d) st r
  end.
Proof. exact doc_fail_closed. Qed.
Print Assumptions C07_metadata_document_fail_closed.

(* A metadata document that no longer says which manifest lists its snapshots have -- the snapshots section is missing,
   null, of another type (an empty object or string included), or some snapshot carries anything but a string as its
   manifest list -- is refused, whatever else it contains: it never parses as "a table without snapshots". *)
Theorem C07_lost_section_refused : forall (ext : string -> jv -> bool) (tp : string) (grace now timeout : Z) (o : oracle) (d : jv) (st : store),
  section_strings gen_snapshots_key gen_manifest_list_key d = None ->
  collect_doc ext tp grace now timeout o d st = DocRefused.
Proof.
  intros ext tp grace now timeout o d st H. unfold collect_doc.
  destruct (accepts ext gen_metadata_shape d) eqn:A; [|reflexivity]. exfalso.
  destruct (accepted_metadata_names_all_lists ext d A) as [items [G SA]].
  unfold section_strings in H. rewrite G, SA in H. discriminate.
Qed.
Print Assumptions C07_lost_section_refused.

(* A metadata document that contradicts itself about its snapshots -- its current_snapshot_id is set (not null, not -1) and
   none of the snapshots it lists has that id: `snapshots: []` under a set current_snapshot_id, the current snapshot gone from
   the list -- is refused by the collector (GarbageCollectionAborted before anything is deleted), whatever else it contains:
   it never parses as "a table whose other snapshots are garbage".  (The check in collect() is read off the source:
   Gen/GenNorm.v COLLECT_CHECKS_CURRENT_SNAPSHOT; the keys: Gen/GenDoc.v.) *)
Theorem C07_dangling_current_refused : forall (ext : string -> jv -> bool) (tp : string) (grace now timeout : Z) (o : oracle) (d : jv) (st : store),
  dangling_current d -> collect_doc ext tp grace now timeout o d st = DocRefused.
Proof. intros. apply dangling_current_refused. apply dangling_not_listed. assumption. Qed.
Print Assumptions C07_dangling_current_refused.

(* ... and a collection that RUNS worked from the manifest list of the document's current snapshot: the document says that
   there is no snapshot yet, or its current snapshot is one of the listed snapshots and that snapshot's manifest list is among
   the lists the run keeps (doc_lists d: C07_metadata_document_fail_closed gives gc_safe_spec for them). *)
Theorem C07_run_protects_current_snapshot : forall (ext : string -> jv -> bool) (tp : string) (grace now timeout : Z) (o : oracle) (d : jv) (st : store) (r : result),
  collect_doc ext tp grace now timeout o d st = DocRun r ->
  exists c items, py_getitem d gen_current_snapshot_key = Some c /\ py_getitem d gen_snapshots_key = Some (JArr items)
    /\ (current_unset c = true
        \/ exists it l, In it items /\ snapshot_has_id c it = true
                        /\ py_getitem it gen_manifest_list_key = Some (JStr l) /\ In l (doc_lists d)).
Proof.
  intros ext tp grace now timeout o d st r H. unfold collect_doc in H.
  destruct (accepts ext gen_metadata_shape d) eqn:A; [|discriminate].
  rewrite collect_checks_current_snapshot in H. cbn [negb orb] in H.
  destruct (current_listed d) eqn:C; [|discriminate]. clear H. unfold current_listed in C.
  destruct (py_getitem d gen_current_snapshot_key) as [c|]; [|discriminate].
  destruct (accepted_metadata_names_all_lists ext d A) as [items [G SA]]. rewrite G in C.
  exists c, items. split; [reflexivity|]. split; [exact G|].
  apply orb_true_iff in C. destruct C as [C|C]; [left; exact C|right].
  apply existsb_exists in C. destruct C as [it [Hin Hid]].
  destruct (DS.Proofs.ListFacts.Forall2_in_l _ _ _ _ _ it (strings_at_spec _ _ _ SA) Hin) as [l [Hl Pl]].
  exists it, l. auto.
Qed.
Print Assumptions C07_run_protects_current_snapshot.

(* Legacy JSON manifest lists / manifests.  A reachable list / manifest in the legacy JSON format whose document LOST the
   section it consists of -- `manifests` / `files` missing, null, or anything but a list -- is not an empty list / manifest: the
   reader refuses it (regenerated shapes: the section is subscripted and must be a list) and the collection aborts before the
   first sweep having deleted nothing, under any faults. *)
Theorem C07_json_section_lost_aborts : forall (ext : string -> jv -> bool) (tp : string) (grace now timeout : Z) (o : oracle) (snaps : list string)
    (st : store) (k : key) (ob : obj) (d : jv),
  wf_store snaps st -> lookup k st = Some ob ->
  (ref_list snaps k /\ body ob = list_json_content ext d /\ forall l, py_getitem d gen_list_json_key <> Some (JArr l))
  \/ (ref_manifest snaps st k /\ body ob = manifest_json_content ext d /\ forall l, py_getitem d gen_manifest_json_key <> Some (JArr l)) ->
  aborted_before_sweep (gc_run tp grace now timeout o snaps st) /\ r_deleted (gc_run tp grace now timeout o snaps st) = [].
Proof.
  intros ext tp grace now timeout o snaps st k ob d W L H. apply (C07_damage tp grace now timeout o snaps st k W).
  destruct H as [[R [B D]]|[R [B D]]]; [left|right]; (split; [exact R|]).
  - unfold damaged_list. rewrite L, B. apply list_json_section_lost. exact D.
  - unfold damaged_manifest. rewrite L, B. apply manifest_json_section_lost. exact D.
Qed.
Print Assumptions C07_json_section_lost_aborts.

(* Manifest lists and manifests as decoded records.  A reachable list / manifest that is read (as_list / as_manifest of its
   content class) was accepted record by record and every record contributed exactly the path it carries as a string ... *)
Theorem C07_readable_records_complete : forall (ext : string -> jv -> bool) (recs : list jv) (ps : list string),
  (as_list (list_records_content ext recs) = Some ps ->
     forallb (accepts ext gen_list_record_shape) recs = true
     /\ Forall2 (fun r p => py_getitem r gen_list_path_key = Some (JStr p)) recs ps)
  /\ (as_manifest (manifest_records_content ext recs) = Some ps ->
     forallb (accepts ext gen_manifest_record_shape) recs = true
     /\ Forall2 (fun r p => exists h, py_getitem r gen_manifest_file_key = Some h /\ py_getitem h gen_manifest_path_key = Some (JStr p)) recs ps).
Proof. intros ext recs ps. split; [apply list_records_readable|apply manifest_records_readable]. Qed.
Print Assumptions C07_readable_records_complete.

(* ... and a reachable list / manifest with ONE record the reader refuses (a key it subscripts is gone, an enum value is
   not a member, ...) or whose path is not a string (null, 0, false, [], {} ...) aborts the collection before the first
   sweep with nothing deleted -- under any faults. *)
Theorem C07_structured_damage_aborts : forall (ext : string -> jv -> bool) (tp : string) (grace now timeout : Z) (o : oracle) (snaps : list string)
    (st : store) (k : key) (ob : obj) (recs : list jv) (r : jv),
  wf_store snaps st -> lookup k st = Some ob -> In r recs ->
  (ref_list snaps k /\ body ob = list_records_content ext recs
     /\ (accepts ext gen_list_record_shape r = false \/ forall s, py_getitem r gen_list_path_key <> Some (JStr s)))
  \/ (ref_manifest snaps st k /\ body ob = manifest_records_content ext recs
     /\ (accepts ext gen_manifest_record_shape r = false
         \/ forall h s, py_getitem r gen_manifest_file_key = Some h -> py_getitem h gen_manifest_path_key <> Some (JStr s))) ->
  aborted_before_sweep (gc_run tp grace now timeout o snaps st) /\ r_deleted (gc_run tp grace now timeout o snaps st) = [].
Proof.
  intros ext tp grace now timeout o snaps st k ob recs r W L Hin H. apply (C07_damage tp grace now timeout o snaps st k W).
  destruct H as [[R [B D]]|[R [B D]]]; [left|right]; (split; [exact R|]).
  - unfold damaged_list. rewrite L, B. eapply list_records_damaged; eauto.
  - unfold damaged_manifest. rewrite L, B. eapply manifest_records_damaged; eauto.
Qed.
Print Assumptions C07_structured_damage_aborts.

(* a list record without the key its path comes from is refused by the reader (KeyError) *)
Theorem C07_list_record_without_path_refused : forall (ext : string -> jv -> bool) (r : jv),
  py_getitem r gen_list_path_key = None -> accepts ext gen_list_record_shape r = false.
Proof.
  intros ext r H. destruct (accepts ext gen_list_record_shape r) eqn:A; [|reflexivity]. exfalso.
  pose proof gen_list_record_demands_path as D. unfold demands_key in D.
  destruct (field_shape gen_list_path_key (shape_req gen_list_record_shape)) as [s|] eqn:F; [|discriminate].
  destruct (accepts_rec_field ext _ _ _ _ A F) as [fs [x [-> [As _]]]]. simpl in H. congruence.
Qed.
Print Assumptions C07_list_record_without_path_refused.

(* the examples from here on run on the store of Props/C05.v *)
Require Import DS.Props.C05.
(* The examples fix ONE phase order so that the call numbers of their oracles are meaningful: run_with runs gc_run_from false,
   reachability first.  The theorems above are about gc_run = gc_run_from MARKERS_FIRST (Gen/GenNorm.v: true, protection first);
   the `_from` lemmas they come from (Proofs/GCProofs.v, GCFaultProofs.v) hold for both orders. *)
Definition run_with (o : oracle) (st : store) := gc_run_from false "data" 1000 1000000 86400000 o ex_snaps (mkG 0 st []).
(* what a run did.  An example evaluates a run once, through this pair: `(r_out X, r_deleted X)` evaluates X twice. *)
Definition did (r : result) : outcome * list key := (r_out r, r_deleted r).
Lemma did_eq r x : did r = x -> (r_out r, r_deleted r) = x.
Proof. exact (fun H => H). Qed.
Definition ex_damaged : store :=
  map (fun p => if String.eqb (fst p) "metadata/manifests/m2.avro" then (fst p, mkObj 1000 CGarbage) else p) ex_st.
(* Non-vacuity: the example store of C05 (two retained snapshots, a live transaction, orphans) at table location "data":
   a transient failure on the second manifest list aborts with nothing deleted; a failing marker listing aborts; a failing
   read of the live transaction's marker leaves its file protected while the orphans are still removed; and with the
   manifest m2 replaced by garbage the run aborts in the manifest phase. *)
Example C07_nonvacuous :
  wf_store ex_snaps ex_st /\ wf_store ex_snaps ex_damaged
  /\ (r_out (run_with (oracle_of [(5%nat, FRaise)]) ex_st), r_deleted (run_with (oracle_of [(5%nat, FRaise)]) ex_st)) = (Aborted PhLists, [])
  /\ (r_out (run_with (oracle_of [(12%nat, FRaiseX)]) ex_st), r_deleted (run_with (oracle_of [(12%nat, FRaiseX)]) ex_st)) = (Aborted PhMarkers, [])
  /\ (r_out (run_with (oracle_of [(14%nat, FBad)]) ex_st), r_deleted (run_with (oracle_of [(14%nat, FBad)]) ex_st))
       = (Done, ["metadata/manifests/old.avro"; "data/orphan.parquet"])
  /\ (r_out (run_with no_faults ex_damaged), r_deleted (run_with no_faults ex_damaged)) = (Aborted PhManifests, [])
  /\ ref_manifest ex_snaps ex_damaged "metadata/manifests/m2.avro" /\ damaged_manifest ex_damaged "metadata/manifests/m2.avro".
Proof.
  split; [exact (proj1 C05_nonvacuous)|]. split; [apply wf_storeb_sound; vm_compute; reflexivity|].
  split; [apply did_eq; vm_compute; reflexivity|]. split; [apply did_eq; vm_compute; reflexivity|].
  split; [apply did_eq; vm_compute; reflexivity|]. split; [apply did_eq; vm_compute; reflexivity|].
  split; [apply ref_manifestb_sound|]; vm_compute; reflexivity.
Qed.

(* Non-vacuity of C07_partial_decode, and why it matters: in the example store the newest manifest list l2 names m1 and m2.
   If its stream fails after m1 was decoded (ex_partial) the run aborts with nothing deleted; a reader that handed back the
   records decoded so far would make the collector see the list ex_prefix_trusted -- and then the live data file b.parquet
   and its manifest m2 are deleted. *)
Definition replace_body (k : key) (c : content) (st : store) : store :=
  map (fun p => if String.eqb (fst p) k then (fst p, mkObj (mtime (snd p)) c) else p) st.
Definition ex_partial : store := replace_body "metadata/manifests/l2.avro" (CPartialAvro ["metadata/manifests/m1.avro"] true) ex_st.
Definition ex_prefix_trusted : store := replace_body "metadata/manifests/l2.avro" (CList FAvro ["metadata/manifests/m1.avro"]) ex_st.
Example C07_partial_nonvacuous :
  wf_store ex_snaps ex_partial /\ ref_list ex_snaps "metadata/manifests/l2.avro"
  /\ (r_out (run_with no_faults ex_partial), r_deleted (run_with no_faults ex_partial)) = (Aborted PhLists, [])
  /\ referenced ex_snaps ex_st "data/b.parquet"
  /\ In "data/b.parquet" (r_deleted (run_with no_faults ex_prefix_trusted))
  /\ In "metadata/manifests/m2.avro" (r_deleted (run_with no_faults ex_prefix_trusted)).
Proof.
  split; [apply wf_storeb_sound; vm_compute; reflexivity|].
  split; [apply ref_listb_sound; vm_compute; reflexivity|].
  split; [apply did_eq; vm_compute; reflexivity|].
  split; [right; right; apply ref_datab_sound; vm_compute; reflexivity|].
  split; apply (proj1 (str_mem_In _ _)); vm_compute; reflexivity.
Qed.

(* Non-vacuity of the pointer theorems, and what they exclude: the metadata documents of the example table (ex_doc below:
   published, v3) and of the same table after a dead writer's unpublished expiry (v4: only the newest snapshot) on storage.
   Answered truthfully the collection works from v3 and completes; one wrong answer at the first resolution (the pointer
   looking missing: the scan picks v4) is caught by the second (abort); a raising read aborts; a transient failure reading v3
   aborts; only a pointer that looks absent BOTH times makes v4 the table -- and then the published snapshot's manifest list l1
   is deleted (the residual window of C07_pointer_run_safe_refuted). *)
Definition nv_ext (_ : string) (_ : jv) : bool := true.
Definition nv_snapshot (i : Z) (l : string) : jv := JObj [("snapshot_id", JNum i); ("timestamp_ms", JNum 5); ("manifest_list", JStr l)].
Definition nv_doc (cur : jv) (snaps : list jv) : jv :=
  JObj [("location", JStr "data"); ("table_uuid", JStr "u"); ("format_version", JNum 2); ("last_sequence_number", JNum 2);
        ("last_updated_ms", JNum 9); ("last_column_id", JNum 1);
        ("schemas", JArr [JObj [("schema_id", JNum 1); ("fields", JArr [])]]); ("current_schema_id", JNum 1);
        ("partition_specs", JArr [JObj [("spec_id", JNum 0); ("fields", JArr [])]]); ("default_spec_id", JNum 0);
        ("sort_orders", JArr [JObj [("order_id", JNum 1); ("fields", JArr [])]]); ("default_sort_order_id", JNum 1);
        ("properties", JObj []); ("current_snapshot_id", cur); ("snapshot_log", JArr []); ("metadata_log", JArr []);
        ("snapshots", JArr snaps)].
Definition nv_published : jv := nv_doc (JNum 2) [nv_snapshot 1 "metadata/manifests/l1.avro"; nv_snapshot 2 "metadata/manifests/l2.avro"].
Definition nv_leftover : jv := nv_doc (JNum 2) [nv_snapshot 2 "metadata/manifests/l2.avro"].
Definition nv_p : mfile jv := mkMF "v3.metadata.json" 3%nat 100 (Some nv_published).
Definition nv_files : list (mfile jv) := [nv_p; mkMF "v4-0a1b2c3d.metadata.json" 4%nat 200 (Some nv_leftover)].
Definition nv_same (a b : jv) : bool := if list_eq_dec string_dec (doc_lists a) (doc_lists b) then true else false.
Definition nv_truth : answers := mkA (PSome "v3.metadata.json") (fun _ => XTrue) false (fun _ => false) (fun _ => false).
Definition nv_with (h : pans) (rd : string -> bool) : answers := mkA h (fun _ => XTrue) false (fun _ => false) rd.
Definition nv_run (a1 a2 : answers) : presult := collect_pointer nv_ext nv_same "data" 1000 1000000 86400000 no_faults a1 a2 nv_files ex_st.
Definition nv_outcome (r : presult) : string * list key :=
  match r with
  | PAbort => ("abort", []) | PNoTable => ("no table", [])
  | PUse f DocRefused => (mf_name f, [])
  | PUse f (DocRun r) => (mf_name f, r_deleted r)
  end.
Lemma nv_outcome_deleted r : pointer_deleted r = snd (nv_outcome r).
Proof. destruct r as [| |f [|r]]; reflexivity. Qed.
Lemma nv_accepted : accepts nv_ext gen_metadata_shape nv_published = true.
Proof. vm_compute. reflexivity. Qed.
(* both reads find no pointer: the scan makes the unpublished v4 the table, and the run deletes the manifest list of snapshot 1 *)
Lemma nv_lost_lost :
  nv_outcome (nv_run (nv_with PNone (fun _ => false)) (nv_with PNone (fun _ => false)))
  = ("v4-0a1b2c3d.metadata.json", ["metadata/manifests/old.avro"; "metadata/manifests/l1.avro"; "data/orphan.parquet"]).
Proof. vm_compute. reflexivity. Qed.
Example C07_pointer_nonvacuous :
  doc_lists nv_published = ex_snaps /\ wf_store (doc_lists nv_published) ex_st
  /\ accepts nv_ext gen_metadata_shape nv_published = true /\ honest nv_p nv_truth /\ honest nv_p (nv_with PNone (fun _ => false))
  /\ nv_outcome (nv_run nv_truth nv_truth) = ("v3.metadata.json", ["metadata/manifests/old.avro"; "data/orphan.parquet"])
  /\ nv_outcome (nv_run (nv_with PNone (fun _ => false)) nv_truth) = ("abort", [])
  /\ nv_outcome (nv_run (nv_with PRaise (fun _ => false)) nv_truth) = ("abort", [])
  /\ nv_outcome (nv_run nv_truth (nv_with PRaise (fun _ => false))) = ("abort", [])
  /\ nv_outcome (nv_run (nv_with (PSome "v3.metadata.json") (String.eqb "v3.metadata.json")) nv_truth) = ("abort", [])
  /\ fst (nv_outcome (nv_run (nv_with PNone (fun _ => false)) (nv_with PNone (fun _ => false)))) = "v4-0a1b2c3d.metadata.json"
  /\ In "metadata/manifests/l1.avro" (snd (nv_outcome (nv_run (nv_with PNone (fun _ => false)) (nv_with PNone (fun _ => false)))))
  /\ ref_list (doc_lists nv_published) "metadata/manifests/l1.avro".
Proof.
  split; [vm_compute; reflexivity|]. split; [exact (proj1 C05_nonvacuous)|].
  split; [exact nv_accepted|]. split; [left; reflexivity|]. split; [right; left; reflexivity|].
  split; [vm_compute; reflexivity|]. split; [vm_compute; reflexivity|]. split; [vm_compute; reflexivity|].
  split; [vm_compute; reflexivity|]. split; [vm_compute; reflexivity|].
  rewrite nv_lost_lost. split; [reflexivity|]. split; [right; left; reflexivity|].
  apply ref_listb_sound. vm_compute. reflexivity.
Qed.

(* The residual window, stated honestly: C07_pointer_run_safe_partial WITHOUT the hypothesis on the second pointer read is FALSE of the
   code.  A pointer that looks absent at both reads is, for the library, a lost pointer (recovered by scanning: the pointer is
   only a hint, C10); with a dead writer's unpublished higher version on storage the scan makes that version the table and the
   collection deletes files the published metadata references (the witness: the run nv_lost_lost of the example above; on
   the real library: C10's known finding `unpublished-surfaced`, seeded change C07-g). *)
Theorem C07_pointer_run_safe_refuted : ~ C07_pointer_run_safe_full.
Proof.
  set (lost := nv_with PNone (fun _ => false)).
  assert (SL: forall a b, nv_same a b = true -> doc_lists a = doc_lists b).
  { intros a b C. unfold nv_same in C. destruct (list_eq_dec string_dec (doc_lists a) (doc_lists b)); [assumption|discriminate]. }
  (* the run with the pointer lost at both reads deletes l1.avro ... *)
  assert (D: In "metadata/manifests/l1.avro"
               (pointer_deleted (collect_pointer nv_ext nv_same "data" 1000 1000000 86400000 no_faults lost lost nv_files ex_st))).
  { change (collect_pointer _ _ _ _ _ _ _ _ _ _ _) with (nv_run lost lost).
    rewrite nv_outcome_deleted. unfold lost. rewrite nv_lost_lost. right. left. reflexivity. }
  (* ... which the published document references *)
  assert (R: referenced (doc_lists nv_published) ex_st "metadata/manifests/l1.avro").
  { left. apply ref_listb_sound. vm_compute. reflexivity. }
  assert (H: honest nv_p lost) by (right; left; reflexivity).
  exact (pointer_run_safe_full_refuted_by nv_ext nv_same "data" 1000 1000000 86400000 no_faults lost lost nv_files ex_st nv_p nv_published
           "metadata/manifests/l1.avro" SL eq_refl eq_refl nv_accepted H H (proj1 C05_nonvacuous) D R).
Qed.
Print Assumptions C07_pointer_run_safe_refuted.

(* Non-vacuity of C07_registered_marker_fallback_covers / _key_denotes: an accepted file in a sub-directory, a manifest written
   during commit, a marker of an older version (bare name: both directories), and a store holding a sub-directory file with
   its marker is well-formed (wf_markers) *)
Example C07_marker_naming_nonvacuous :
  append_accepts_path (fun s => s) "/data/p1/x.parquet" = true
  /\ register_marker_path "/data/p1/x.parquet" = "metadata/inflight/data/p1/x.parquet.inflight"
  /\ marker_fallback (register_marker_path "/data/p1/x.parquet") (basename (register_marker_path "/data/p1/x.parquet")) = ["data/p1/x.parquet"]
  /\ register_marker_path "/metadata/manifests/manifest_7.avro" = "metadata/inflight/metadata/manifests/manifest_7.avro.inflight"
  /\ name_candidates (register_marker_path "/metadata/manifests/manifest_7.avro") = ["metadata/manifests/manifest_7.avro"]
  /\ marker_fallback "metadata/inflight/f1.parquet.inflight" "f1.parquet.inflight" = ["data/f1.parquet"; "metadata/manifests/f1.parquet"]
  /\ wf_storeb [] [("data/p1/x.parquet", mkObj 0 CData);
                   (register_marker_path "data/p1/x.parquet", mkObj 100 (CMarker (Some (register_marker_payload "data/p1/x.parquet"))))] = true.
Proof. vm_compute. repeat split. Qed.

(* Non-vacuity of the document theorems (ex_ext, ex_doc_with: the document of the pointer example again, nv_ext / nv_doc, with its
   snapshots section variable): a metadata document for the example table is accepted and yields the example's
   manifest lists; the same document with its snapshots section dropped / null / an empty object / an empty string, or with
   one snapshot's manifest list null / 0, is refused; a list record with a null path makes the list unreadable. *)
Definition ex_ext (_ : string) (_ : jv) : bool := true.
Definition ex_snapshot (l : jv) : jv := JObj [("snapshot_id", JNum 1); ("timestamp_ms", JNum 5); ("manifest_list", l)].
Definition ex_doc_with (snaps : option jv) : jv :=
  JObj ([("location", JStr "data"); ("table_uuid", JStr "u"); ("format_version", JNum 2); ("last_sequence_number", JNum 2);
         ("last_updated_ms", JNum 9); ("last_column_id", JNum 1);
         ("schemas", JArr [JObj [("schema_id", JNum 1); ("fields", JArr [])]]); ("current_schema_id", JNum 1);
         ("partition_specs", JArr [JObj [("spec_id", JNum 0); ("fields", JArr [])]]); ("default_spec_id", JNum 0);
         ("sort_orders", JArr [JObj [("order_id", JNum 1); ("fields", JArr [])]]); ("default_sort_order_id", JNum 1);
         ("properties", JObj []); ("current_snapshot_id", JNum 1); ("snapshot_log", JArr []); ("metadata_log", JArr [])]
        ++ match snaps with Some v => [("snapshots", v)] | None => [] end)%list.
Definition ex_doc : jv := ex_doc_with (Some (JArr (map (fun l => ex_snapshot (JStr l)) ex_snaps))).
Definition ex_list_record (p : jv) : jv :=
  JObj [("manifest_path", p); ("manifest_length", JNum 10); ("partition_spec_id", JNum 0); ("content", JNum 0);
        ("added_snapshot_id", JNum 1); ("added_data_files_count", JNum 1); ("existing_data_files_count", JNum 0);
        ("deleted_data_files_count", JNum 0)].
Example C07_document_nonvacuous :
  accepts ex_ext gen_metadata_shape ex_doc = true /\ doc_lists ex_doc = ex_snaps /\ ex_snaps <> []
  /\ (exists r, collect_doc ex_ext "data" 1000 1000000 86400000 no_faults ex_doc ex_st = DocRun r /\ r_out r = Done)
  /\ accepts ex_ext gen_metadata_shape (ex_doc_with None) = false
  /\ accepts ex_ext gen_metadata_shape (ex_doc_with (Some JNull)) = false
  /\ accepts ex_ext gen_metadata_shape (ex_doc_with (Some (JObj []))) = false
  /\ accepts ex_ext gen_metadata_shape (ex_doc_with (Some (JStr ""))) = false
  /\ accepts ex_ext gen_metadata_shape (ex_doc_with (Some (JArr [ex_snapshot JNull]))) = false
  /\ accepts ex_ext gen_metadata_shape (ex_doc_with (Some (JArr [ex_snapshot (JNum 0)]))) = false
  /\ section_strings gen_snapshots_key gen_manifest_list_key (ex_doc_with None) = None
  /\ list_records_content ex_ext [ex_list_record (JStr "metadata/manifests/m1.avro")] = CList FAvro ["metadata/manifests/m1.avro"]
  /\ as_list (list_records_content ex_ext [ex_list_record (JStr "metadata/manifests/m1.avro"); ex_list_record JNull]) = None
  /\ accepts ex_ext gen_list_record_shape (JObj [("manifest_length", JNum 10)]) = false.
Proof.
  split; [vm_compute; reflexivity|]. split; [vm_compute; reflexivity|]. split; [discriminate|].
  split; [apply doc_run_witness; vm_compute; reflexivity|].
  vm_compute. repeat split.
Qed.

(* Non-vacuity of C07_dangling_current_refused / C07_run_protects_current_snapshot / C07_json_section_lost_aborts: the example
   document with its snapshots section emptied in place (`snapshots: []`, current_snapshot_id still 1) is accepted by the
   READER (a well-formed document) and dangling: refused by the collector; with current_snapshot_id null or -1 the same empty
   list is "no snapshot yet" and the collection runs.  A legacy JSON manifest list with its section is read; `{}`, the section
   under another key, null or an empty object in its place are not lists; in the example store with l2 replaced by such a
   document the collection aborts in the list phase. *)
Definition ex_json_list (v : option jv) : jv := JObj (match v with Some x => [("manifests", x)] | None => [("manifestz", JArr [])] end).
Definition ex_json_lost : store := replace_body "metadata/manifests/l2.avro" (list_json_content ex_ext (JObj [])) ex_st.
Example C07_dangling_nonvacuous :
  accepts ex_ext gen_metadata_shape (ex_doc_with (Some (JArr []))) = true /\ dangling_current (ex_doc_with (Some (JArr [])))
  /\ collect_doc ex_ext "data" 1000 1000000 86400000 no_faults (ex_doc_with (Some (JArr []))) ex_st = DocRefused
  /\ ~ dangling_current ex_doc
  /\ (exists r, collect_doc ex_ext "data" 1000 1000000 86400000 no_faults nv_leftover ex_st = DocRun r
                 /\ In "metadata/manifests/l2.avro" (doc_lists nv_leftover))
  /\ list_json_content ex_ext (ex_json_list (Some (JArr [ex_list_record (JStr "metadata/manifests/m1.avro")]))) = CList FJson ["metadata/manifests/m1.avro"]
  /\ as_list (list_json_content ex_ext (JObj [])) = None
  /\ as_list (list_json_content ex_ext (ex_json_list None)) = None
  /\ as_list (list_json_content ex_ext (ex_json_list (Some JNull))) = None
  /\ as_list (list_json_content ex_ext (ex_json_list (Some (JObj [])))) = None
  /\ as_manifest (manifest_json_content ex_ext (JObj [])) = None
  /\ wf_store ex_snaps ex_json_lost /\ ref_list ex_snaps "metadata/manifests/l2.avro"
  /\ (r_out (run_with no_faults ex_json_lost), r_deleted (run_with no_faults ex_json_lost)) = (Aborted PhLists, []).
Proof.
  split; [vm_compute; reflexivity|]. split.
  { exists (JNum 1), []. repeat split; try (vm_compute; reflexivity); [discriminate|intros it []]. }
  split; [vm_compute; reflexivity|]. split.
  { intro D. apply dangling_not_listed in D. vm_compute in D. discriminate D. }
  (* the second `apply` reduces the match of doc_run_witness as far as its head (the document is accepted, its current
     snapshot listed): the run itself is not evaluated *)
  split; [apply doc_run_witness, (proj1 (str_mem_In _ _)); vm_compute; reflexivity|].
  split; [vm_compute; reflexivity|]. split; [vm_compute; reflexivity|]. split; [vm_compute; reflexivity|].
  split; [vm_compute; reflexivity|]. split; [vm_compute; reflexivity|]. split; [vm_compute; reflexivity|].
  split; [apply wf_storeb_sound; vm_compute; reflexivity|].
  split; [apply ref_listb_sound; vm_compute; reflexivity|].
  apply did_eq. vm_compute. reflexivity.
Qed.

(* a marker that cannot be stat'ed.  The per-marker decision kernel of _load_inflight_protection is REGENERATED from the
   source (translator/gen_gcmarker.py -> Gen/GenGCMarker.v: age_ok as a function of the stat's answer -- None = it raised, any
   exception class --, whether the marker is deleted, whether its targets are protected); the translator refuses a loader
   whose markers are not the result of storage.list_files itself (a listing helper that stats or filters entries decides on
   its own which markers the collector sees), whose handlers are narrower than `Exception`, or that calls any other storage
   operation.

   For every cutoff, and whichever way a delete would go: a marker whose stat RAISES counts as fresh, is not deleted, and
   its targets are protected. *)
Theorem C07_marker_stat_failure_protects : forall (cutoff : Z) (del_ok : bool),
  gen_marker_age_ok cutoff None = true
  /\ gen_marker_delete_attempted (gen_marker_age_ok cutoff None) = false
  /\ gen_marker_protects (gen_marker_age_ok cutoff None) del_ok = true.
Proof. intros cutoff del_ok. repeat split. Qed.
Print Assumptions C07_marker_stat_failure_protects.

(* The kernel fails closed in general: the ONLY way a listed marker's targets are not protected is a stat that ANSWERED
   with a time older than the cutoff, followed by a delete of the marker that succeeded. *)
Theorem C07_marker_kernel_fail_closed : forall (cutoff : Z) (st : option Z) (del_ok : bool),
  gen_marker_protects (gen_marker_age_ok cutoff st) del_ok = false ->
  exists t, st = Some t /\ t < cutoff /\ gen_marker_delete_attempted (gen_marker_age_ok cutoff st) = true /\ del_ok = true.
Proof.
  intros cutoff st del_ok H. rewrite gen_age_ok_model in *.
  destruct st as [t|]; [|discriminate H].
  destruct (cutoff <=? t) eqn:E; [discriminate H|].
  apply Z.leb_gt in E. exists t. cbn in H |- *. destruct del_ok; [|discriminate H]. repeat split; assumption.
Qed.
Print Assumptions C07_marker_kernel_fail_closed.

(* The marker loop of the collector model (Model/GC.v markers_loop, over which C07_fail_closed / C07_marker_keep are proved)
   IS the loop built from the regenerated kernel: one step = stat, name test, targets, delete iff the kernel says so,
   targets added iff the kernel says so.  A change of the source's stat-failure branch, age test or delete-failure branch
   changes Gen/GenGCMarker.v and this equation no longer holds. *)
Theorem C07_marker_loop_regenerated : forall (tp : string) (cutoff : Z) (o : oracle) (mp : key) (r : list key) (g : gst) (prot : list key),
  markers_loop tp cutoff o g (mp :: r) prot =
  let (prot1, g1) := marker_step_gen tp cutoff o g mp prot in markers_loop tp cutoff o g1 r prot1.
Proof.
  intros tp cutoff o mp r g prot.
  cbn [markers_loop]. unfold marker_step_gen.
  destruct (do_stat o g (normalize_path tp mp)) as [st_ g1].
  rewrite gen_age_ok_model.
  destruct (negb (endswith INFLIGHT_SUFFIX (basename (normalize_path tp mp)))); [reflexivity|].
  destruct (marker_targets tp o g1 (normalize_path tp mp) (basename (normalize_path tp mp))) as [targets g2].
  destruct (match st_ with Some t => cutoff <=? t | None => true end); cbn [gen_marker_delete_attempted gen_marker_protects].
  - reflexivity.
  - destruct (do_delete o g2 (normalize_path tp mp)) as [[u|] g3]; reflexivity.
Qed.
Print Assumptions C07_marker_loop_regenerated.

(* For EVERY fault oracle (any fault class at the stat, anything before and after) and every list of remaining markers: when
   the stat of a listed marker is faulted, the marker is not deleted (the store after its turn is the store before) and
   everything it denotes (payload path, or the name fallback) is in the protected set the loop returns. *)
Theorem C07_marker_stat_fault_keeps_protection :
  forall (tp : string) (cutoff : Z) (o : oracle) (g : gst) (mp : key) (r : list key) (prot : list key) (f : fault) (prot' : list key) (g' : gst),
  o (g_calls g) = Some f ->
  endswith INFLIGHT_SUFFIX (basename (normalize_path tp mp)) = true ->
  markers_loop tp cutoff o g (mp :: r) prot = (prot', g') ->
  exists T g1 g2,
    do_stat o g (normalize_path tp mp) = (None, g1)
    /\ marker_targets tp o g1 (normalize_path tp mp) (basename (normalize_path tp mp)) = (T, g2)
    /\ g_store g2 = g_store g
    /\ markers_loop tp cutoff o g2 r (T ++ prot)%list = (prot', g')
    /\ (markers_wf (g_store g) -> incl T prot').
Proof.
  intros tp cutoff o g mp r prot f prot' g' HF HS HL.
  assert (HST : exists g1, do_stat o g (normalize_path tp mp) = (None, g1) /\ g_store g1 = g_store g).
  { unfold do_stat, tick. rewrite HF. eexists. split; reflexivity. }
  destruct HST as [g1 [HST HG1]].
  destruct (marker_targets tp o g1 (normalize_path tp mp) (basename (normalize_path tp mp))) as [T g2] eqn:HT.
  assert (HG2 : g_store g2 = g_store g) by (rewrite (marker_targets_store _ _ _ _ _ _ _ HT); exact HG1).
  cbn [markers_loop] in HL. rewrite HST in HL. rewrite HS in HL. cbn [negb] in HL. rewrite HT in HL.
  exists T, g1, g2. repeat split; try assumption.
  intros _. destruct (markers_loop_removes _ _ _ _ _ _ _ _ HL) as [HI _].
  intros k Hk. apply HI. apply in_or_app. left. exact Hk.
Qed.
Print Assumptions C07_marker_stat_fault_keeps_protection.

(* non-vacuity: a store with a live transaction's marker (payload names the data file) whose stat -- storage call 0 -- fails
   with each fault class: the data file is protected and the marker stays; without the fault and with an old marker that is
   deleted, it is not. *)
Definition mk_st : store :=
  [("metadata/inflight/f1.parquet.inflight", mkObj 5 (CMarker (Some "data/f1.parquet"))); ("data/f1.parquet", mkObj 1 CData)].
Definition mk_run (o : oracle) := markers_loop "/t" 100 o (mkG 0 mk_st []) ["metadata/inflight/f1.parquet.inflight"] [].
Example C07_marker_stat_nonvacuous :
  endswith INFLIGHT_SUFFIX (basename (normalize_path "/t" "metadata/inflight/f1.parquet.inflight")) = true
  /\ (fst (mk_run (oracle_of [(0%nat, FRaise)])), map fst (g_store (snd (mk_run (oracle_of [(0%nat, FRaise)])))))
       = (["data/f1.parquet"], ["metadata/inflight/f1.parquet.inflight"; "data/f1.parquet"])
  /\ fst (mk_run (oracle_of [(0%nat, FRaiseX)])) = ["data/f1.parquet"]
  /\ fst (mk_run (oracle_of [(0%nat, FBad)])) = ["data/f1.parquet"]
  /\ (fst (mk_run no_faults), map fst (g_store (snd (mk_run no_faults)))) = ([], ["data/f1.parquet"])
  /\ gen_marker_protects (gen_marker_age_ok 100 (Some 5)) true = false.
Proof. vm_compute. repeat split. Qed.

(* a listing that fails BELOW the backend interface.  LocalStorageBackend.list_files has two places where a failure of the
   operating system can be swallowed -- the guard in front of the walk and os.walk's treatment of directories it cannot scan;
   both are REGENERATED from the source (translator/gen_locallist.py -> Gen/GenLocalList.v) as predicates over the failure's
   class (absent = "the object is not there": FileNotFoundError / NotADirectoryError; otherwise EACCES, EIO, ESTALE, ...).
   Model/LocalList.v local_list_outcome puts them together.  For every combination of failures: a listing that returns
   without raising although something could not be looked at comes only from "not there" failures -- any other failure
   propagates (to the collector: a raising listing call). *)
Theorem C07_local_listing_fails_closed : forall (probe walk : option bool),
  local_list_outcome probe walk = LShort -> probe = Some true \/ (probe = None /\ walk = Some true).
Proof.
  intros [[|]|] [[|]|]; cbn; intro H; try discriminate H; auto.
Qed.
Print Assumptions C07_local_listing_fails_closed.

(* ... and a marker listing that raises -- any exception class, for every fault oracle, whatever it does afterwards -- ends the
   loading of the in-flight protection with "aborted" (the regenerated handler: catches Exception, raises
   GarbageCollectionAborted) and leaves the store as it was. *)
Theorem C07_marker_listing_raise_aborts : forall (tp : string) (timeout now : Z) (o : oracle) (g : gst) (f : fault),
  o (g_calls g) = Some f -> f <> FBad ->
  gen_marker_listing_failure_aborts = true
  /\ fst (load_protection tp timeout now o g) = None
  /\ g_store (snd (load_protection tp timeout now o g)) = g_store g.
Proof.
  intros tp timeout now o g f HF HB.
  split; [reflexivity|].
  unfold load_protection, do_listdir, tick. rewrite HF.
  destruct f; try (exfalso; apply HB; reflexivity); cbn; split; reflexivity.
Qed.
Print Assumptions C07_marker_listing_raise_aborts.

Example C07_local_listing_nonvacuous :
  local_list_outcome (Some false) None = LRaise /\ local_list_outcome None (Some false) = LRaise
  /\ local_list_outcome (Some true) None = LShort /\ local_list_outcome None None = LComplete
  /\ fst (load_protection "/t" 10 100 (oracle_of [(0%nat, FRaise)]) (mkG 0 mk_st [])) = None.
Proof. repeat split; vm_compute; reflexivity. Qed.
