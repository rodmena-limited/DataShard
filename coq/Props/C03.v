(* Props/C03.v -- A crash at any point leaves the table in the pre- or post-operation state.
   The commit machine's invariant is in Proofs/CommitProofs.v, the file plane's in Proofs/FaultProofs.v.

   ECrash a: the process running transaction a dies at a step boundary -- no handler, no `finally`;
   an exclusive flock is dropped by the kernel, a lease lock stays until it lapses.  Crashes may occur
   anywhere in the event list, for any number of concurrent operations (FProto (ev a ECrash)). *)
From Coq Require Import ZArith List.
Require Import DS.Model.Commit DS.Model.Fault DS.Proofs.CommitProofs DS.Proofs.FaultProofs.
Require DS.Model.HintPrim DS.Model.Hint DS.Proofs.HintPadProofs.
Import ListNotations.
Open Scope Z_scope.

(* Reopening (= reading what the pointer names) yields the serial application of exactly the
   operations whose pointer flip happened: an operation that died is reflected (post-state) iff the
   version pointer had already been advanced by it, otherwise not at all (pre-state). *)
Theorem C03_crash_atomic : forall c m0 kind mr r0 next evs,
  sound c -> (forall f, In f r0 -> (f < next)%nat) ->
  let w := fw (frun c (finit m0 kind mr r0 next) evs) in
  m_ops (file w (w_ptr w)) = m_ops m0 ++ map snd (w_hist w)
  /\ NoDup (map snd (w_hist w))
  /\ forall a, (In a (map snd (w_hist w)) <-> flipped (a_pc (w_actors w a)) = true)
            /\ (a_pc (w_actors w a) = PDone Aborted -> ~ In a (map snd (w_hist w)))
            /\ (a_pc (w_actors w a) = PDone AbortedPost -> In a (map snd (w_hist w))).
Proof.
  intros c m0 kind mr r0 next evs Snd _ w. assert (L : Linear c m0 w) by (apply frun_linear; exact Snd).
  destruct (linear_no_lost_update c m0 w L) as [Ops [ND _]]. split; [exact Ops|]. split; [exact ND|].
  intro a. pose proof (Inv_acked c w a (Lin_inv c m0 w L)) as F. split; [symmetry; exact F|]. split.
  - intros P Hin. apply F in Hin. rewrite P in Hin. discriminate.
  - intro P. apply F. rewrite P. reflexivity.
Qed.
Print Assumptions C03_crash_atomic.

(* The reopened table is fully readable: every file referenced by every committed version exists. *)
Theorem C03_readable : forall c m0 kind mr r0 next evs,
  sound c -> (forall f, In f r0 -> (f < next)%nat) ->
  let x := frun c (finit m0 kind mr r0 next) evs in
  forall v, In v (committed (fw x)) -> forall f, In f (refs x v) -> In f (f_present x).
Proof. intros c m0 kind mr r0 next evs Snd A x. apply (finv_present c), reach_finv; assumption. Qed.
Print Assumptions C03_readable.

(* A finished -- in particular a dead -- operation does not keep the exclusive lock. *)
Theorem C03_lock_released : forall c m0 kind mr evs a o,
  lockkind c = Excl -> a_pc (w_actors (run c (init_world m0 kind mr) evs) a) = PDone o ->
  w_lock (run c (init_world m0 kind mr) evs) <> Some a.
Proof.
  intros c m0 kind mr evs a o LK P Hl.
  pose proof (reach_L1 c m0 kind mr evs LK a Hl) as X. rewrite P in X. discriminate.
Qed.
Print Assumptions C03_lock_released.

(* The reopened table accepts new commits: from ANY world in which the lock is free (or gives no
   exclusion), an idle committer's seven protocol steps are all enabled and end in an acknowledged,
   reflected commit on top of the current version. *)
Theorem C03_writable : forall c w b now,
  a_pc (w_actors w b) = PIdle -> (lockkind c = GrantAll \/ w_lock w = None) ->
  exists w', run_strict c w (commit_script b (w_ptr w) now) 0 = inl w'
             /\ a_pc (w_actors w' b) = PDone Success
             /\ w_hist w' = w_hist w ++ [(length (w_files w), b)]
             /\ w_ptr w' = length (w_files w).
Proof. exact can_commit. Qed.
Print Assumptions C03_writable.

(* Non-vacuity: actor 0 dies right after its flip (before releasing the lock), actor 1 dies
   between its metadata write and its flip; the table is [op 0]; actor 2 then commits on top. *)
Definition ev a k := {| e_actor := a; e_kind := k |}.
Definition ex_cfg := {| cas := false; lockkind := Excl |}.
Definition ex_init := finit {| m_ops := []; m_cur := 1; m_lu := 100 |} (fun _ => KFresh) (fun _ => 50%nat) [0; 1]%nat 2%nat.
Example C03_nonvacuous :
  let x := frun ex_cfg ex_init
     ([FWrite 0; FProto (ev 0 (EBegin 0)); FProto (ev 0 (ELockTry true)); FProto (ev 0 (EValidate 0 true));
       FProto (ev 0 (EMetaW 100)); FProto (ev 0 (EFence true)); FProto (ev 0 (EFlip true)); FProto (ev 0 ECrash);
       FWrite 1; FProto (ev 1 (EBegin 1)); FProto (ev 1 (ELockTry true)); FProto (ev 1 (EValidate 1 true));
       FProto (ev 1 (EMetaW 100)); FProto (ev 1 ECrash)]
      ++ map FProto (commit_script 2 1 100))%nat in
  map snd (w_hist (fw x)) = [0; 2]%nat /\ m_ops (file (fw x) (w_ptr (fw x))) = [0; 2]%nat
  /\ a_pc (w_actors (fw x) 0%nat) = PDone AbortedPost /\ a_pc (w_actors (fw x) 1%nat) = PDone Aborted
  /\ a_pc (w_actors (fw x) 2%nat) = PDone Success /\ w_lock (fw x) = None /\ all_present x = true.
Proof. vm_compute. repeat split. Qed.

(* "Reopening" is the resolution of the pointer's content by the REGENERATED parser (Gen/GenHint.v): whitespace around the
   content -- a trailing newline left by a shell or an editor, CR LF, blanks -- is invisible to it, whatever the content is
   (a file name, a legacy number, garbage) and whatever the listing holds.  So the pre-state of a crash may carry its
   pointer in any of these spellings (the fork-and-kill runs start from them) and the theorems above, which speak of
   the pointer's VALUE, apply unchanged.  (This is a statement about the parser -- it is the justification of that harness
   dimension; it is not composed with the commit machine above, whose `file w (w_ptr w)` is the reopen.) *)
Theorem C03_pointer_spelling_invisible :
  forall (a l b : list HintPrim.cp) (es : list Hint.entry),
  HintPadProofs.all_space a -> HintPadProofs.all_space b ->
  Hint.parse_hint (Some (a ++ l ++ b)) = Hint.parse_hint (Some l)
  /\ Hint.resolve (Some (Some (a ++ l ++ b))) es = Hint.resolve (Some (Some l)) es.
Proof. exact (fun a l b es Ha Hb => conj (HintPadProofs.parse_padding a l b Ha Hb) (HintPadProofs.resolve_padding a l b es Ha Hb)). Qed.
Print Assumptions C03_pointer_spelling_invisible.

(* Non-vacuity: "v3-0123abcd.metadata.json" followed by a newline / surrounded by blanks parses to version 3 and the bare name *)
Example C03_spelling_nonvacuous :
  let name := Hint.render_name 3%N [0;1;2;3;10;11;12;13]%N in
  HintPadProofs.all_space [HintPrim.acp 10%N] /\ HintPadProofs.all_space [HintPrim.acp 32%N]
  /\ Hint.parse_hint (Some (name ++ [HintPrim.acp 10%N])) = HintPrim.PRet (Some (3%N, name))
  /\ Hint.parse_hint (Some ([HintPrim.acp 32%N] ++ name ++ [HintPrim.acp 32%N; HintPrim.acp 10%N])) = HintPrim.PRet (Some (3%N, name)).
Proof. vm_compute. repeat split; repeat constructor. Qed.
