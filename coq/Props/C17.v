(* Props/C17.v -- No operation escapes the table root.

   Model: Model/Path.v (symlink file system, CPython's non-strict realpath with its give-up-on-a-loop
   branch, commonpath, relpath, the repaired resolver, _get_arrow_path, list_files, the entry points,
   and the kernel's own path walk `kwalk`).  Gen/GenPath.v is regenerated from the source on every run
   (table directories, which guard each entry point's raw string goes through).

   All statements quantify over EVERY tree (any arrangement of links, loops included), every spelling of
   the table path, every working directory and every path string; the fuel is arbitrary except in the theorems that compare
   with the kernel's walk, which ask for one unit per link of the tree (always available: C17_fuel_sufficient).
   `names q` = no "", "." or ".." component.  Locations are component lists, so /wh and /wh2 differ.

   "Escaping" is judged on the string join_for_resolve builds, not on the string as written: a TRUE ABSOLUTE path such as
   /etc/passwd is stripped of its leading slashes and joined under the table root BY DESIGN (it names <root>/etc/passwd, never
   the system file), so it is accepted or refused exactly as its relative spelling is (C17_absolute_is_rerooted); only the
   parquet read path honours a true absolute string as such, and then only when it resolves under the root (C17_arrow_inside).

   History: the resolver as found trusted os.path.realpath, which does not fail on a symlink loop but
   returns the rest of the path unresolved and lexically normalised; C17_legacy_resolver_refuted keeps the
   witness (loop/../ln_out/secret read a file outside the root).  The repaired resolver (canonical_path)
   is what `resolve` models. *)
From Coq Require Import ZArith List Bool.
Require Import DS.Model.Path DS.Gen.GenPath DS.Proofs.PathProofs DS.Proofs.KernelAgree DS.Proofs.HandleState.
Require Import DS.Model.Str DS.Gen.GenS3 DS.Proofs.S3KeyProofs.
Require DS.Proofs.ListFacts.
Import ListNotations.
Open Scope Z_scope.

(* The containment test `os.path.commonpath([base, full]) == base` is component-wise prefix. *)
Theorem C17_commonpath_prefix : forall b f : loc, names b -> names f ->
  (commonpath2 (abs_str b) (abs_str f) = Some (abs_str b) <-> is_prefix b f = true).
Proof. exact commonpath_prefix. Qed.
Print Assumptions C17_commonpath_prefix.

(* _resolve_path returns only what realpath computed for the joined string, and only when that is
   under the canonical root and has no symlink component at all. *)
Theorem C17_resolve_inside : forall (d : nat) (t : tree) (cwd : loc) (base p : pstr) (q : loc),
  resolve d t cwd base p = Ok q ->
  exists rb, realpath d t cwd base = Ok rb
          /\ realpath d t cwd (join_for_resolve base p) = Ok q
          /\ is_prefix rb q = true /\ no_link_prefix t q = true /\ names q /\ names rb.
Proof. exact resolve_ok. Qed.
Print Assumptions C17_resolve_inside.

(* What the operating system reaches when it is handed a link-free location, or any ancestor of it
   (the directory a temp file is staged in, the root itself): exactly that location, for every budget --
   or an error.  Together with C17_resolve_inside: open/remove/replace/scandir of a resolved path act
   under the canonical root. *)
Theorem C17_resolve_kernel : forall (t : tree) (q : loc), names q -> no_link_prefix t q = true ->
  forall a, is_prefix a q = true -> forall (fuel : nat) (l : loc), kwalk fuel t [] a = Ok l -> l = a.
Proof.
  intros t q Hn Hl a Ha fuel l Hk.
  apply (kwalk_linkfree t a [] fuel l); [eapply names_prefix; eassumption|eapply no_link_prefix_of_prefix; eassumption|exact Hk].
Qed.
Print Assumptions C17_resolve_kernel.

(* A string whose resolution lies outside the canonical root is rejected with the Security error. *)
Theorem C17_reject_outside : forall (d : nat) (t : tree) (cwd : loc) (base p : pstr) (full rb : loc),
  realpath d t cwd (join_for_resolve base p) = Ok full -> realpath d t cwd base = Ok rb ->
  is_prefix rb full = false -> resolve d t cwd base p = Err Security.
Proof. exact resolve_reject. Qed.
Print Assumptions C17_reject_outside.

(* A true absolute string p (it starts with "/") is RE-ROOTED, for every tree, base spelling, working directory and fuel: its
   leading slashes are stripped and the rest -- which is not absolute -- is joined under the base, literally `base ++ lstrip p` for
   a canonical base; the resolver answers for p exactly what it answers for the relative spelling lstrip p; when it answers, the
   answer is the realpath of that JOINED string, link-free and under the canonical root; and when the JOINED string resolves
   outside the root the outcome is the Security error.  Where p itself would lead in the file system never enters. *)
Theorem C17_absolute_is_rerooted : forall (d : nat) (t : tree) (cwd : loc) (base p : pstr),
  is_abs p = true ->
  is_abs (lstrip p) = false
  /\ join_for_resolve base p = os_join base (lstrip p)
  /\ (forall b : loc, names b -> b <> [] -> base = abs_str b -> join_for_resolve base p = abs_str b ++ lstrip p)
  /\ resolve d t cwd base p = resolve d t cwd base (lstrip p)
  /\ (forall q : loc, resolve d t cwd base p = Ok q ->
        exists rb, realpath d t cwd base = Ok rb /\ realpath d t cwd (os_join base (lstrip p)) = Ok q
                /\ is_prefix rb q = true /\ no_link_prefix t q = true)
  /\ (forall full rb : loc, realpath d t cwd (os_join base (lstrip p)) = Ok full -> realpath d t cwd base = Ok rb ->
        is_prefix rb full = false -> resolve d t cwd base p = Err Security).
Proof.
  intros d t cwd base p H.
  pose proof (lstrip_not_abs p) as L. pose proof (join_for_resolve_abs base p H) as J.
  split; [exact L|]. split; [exact J|]. split; [|split; [|split]].
  - intros b Hn Hne ->. rewrite J. exact (os_join_canonical_base b (lstrip p) Hn Hne L).
  - unfold resolve. rewrite J, (join_for_resolve_rel base (lstrip p) L). reflexivity.
  - intros q Hq. destruct (resolve_ok d t cwd base p q Hq) as [rb [H1 [H2 [H3 [H4 _]]]]].
    exists rb. rewrite J in H2. repeat split; assumption.
  - intros full rb H1 H2 H3. rewrite <- J in H1. exact (resolve_reject d t cwd base p full rb H1 H2 H3).
Qed.
Print Assumptions C17_absolute_is_rerooted.

(* The second sentence of the property, against the KERNEL rather than against realpath: whenever the
   operating system itself can walk the joined string (every component exists, no ELOOP), the modelled
   os.path.realpath returns exactly the kernel's location -- its lexical fallbacks (missing component,
   give-up on a loop) are never taken.  Proof: the kernel's finite walk is a nested derivation, realpath
   follows it, and a link being expanded cannot recur inside its own finite expansion. *)
Theorem C17_realpath_agrees_with_kernel : forall (d : nat) (t : tree) (cwd : loc) (s : pstr) (kf : nat) (l : loc),
  (count_links t <= d)%nat ->
  kwalk kf t [] (tl (absolutize cwd s)) = Ok l -> realpath d t cwd s = Ok l.
Proof. exact realpath_agrees_with_kernel. Qed.
Print Assumptions C17_realpath_agrees_with_kernel.

(* Hence: a string that the kernel resolves to a location outside the canonical root is rejected ... *)
Theorem C17_kernel_outside_rejected : forall (d : nat) (t : tree) (cwd : loc) (base p : pstr) (kf : nat) (l rb : loc),
  (count_links t <= d)%nat ->
  kwalk kf t [] (tl (absolutize cwd (join_for_resolve base p))) = Ok l ->
  realpath d t cwd base = Ok rb -> is_prefix rb l = false ->
  resolve d t cwd base p = Err Security.
Proof. exact kernel_outside_rejected. Qed.
Print Assumptions C17_kernel_outside_rejected.

(* ... and is never silently resolved to some other file: when the resolver answers, it answers the
   kernel's own location. *)
Theorem C17_resolve_is_kernel_location : forall (d : nat) (t : tree) (cwd : loc) (base p : pstr) (kf : nat) (l q : loc),
  (count_links t <= d)%nat ->
  kwalk kf t [] (tl (absolutize cwd (join_for_resolve base p))) = Ok l ->
  resolve d t cwd base p = Ok q -> q = l.
Proof.
  intros d t cwd base p kf l q Hd Hk Hr. apply resolve_ok in Hr. destruct Hr as [rb [_ [Er _]]].
  rewrite (realpath_agrees_with_kernel d t cwd _ kf l Hd Hk) in Er. inversion Er. reflexivity.
Qed.
Print Assumptions C17_resolve_is_kernel_location.

(* _get_arrow_path: table-relative / Iceberg-style strings go through the resolver; a true absolute
   string is admitted only when its own resolution is link-free and under the root. *)
Theorem C17_arrow_inside : forall (d : nat) (t : tree) (cwd : loc) (dirs : list comp) (base p : pstr) (q : loc),
  arrow_path d t cwd dirs base p = Ok q ->
  exists rb, realpath d t cwd base = Ok rb /\ is_prefix rb q = true /\ no_link_prefix t q = true /\ names q /\ names rb
          /\ (realpath d t cwd (join_for_resolve base p) = Ok q \/ (is_abs p = true /\ realpath d t cwd p = Ok q)).
Proof. exact arrow_path_ok. Qed.
Print Assumptions C17_arrow_inside.

(* list_files: every returned string is a non-empty sequence of names ('..'-free), and joined to the
   canonical root it is a file (or a link not leading to a directory) strictly below the resolved prefix --
   for the root given directly or through links alike. *)
Theorem C17_listing_relative : forall (d kf : nat) (t : tree) (cwd : loc) (base prefix : pstr) (rs : list pstr) (r : pstr),
  list_files d kf t cwd base prefix = Ok rs -> In r rs ->
  exists rb q, realpath d t cwd base = Ok rb /\ resolve d t cwd base prefix = Ok q
    /\ names r /\ r <> []
    /\ is_prefix q (rb ++ r) = true /\ (rb ++ r) <> q
    /\ In (rb ++ r) (walk_files kf t q)
    /\ walk_is_file kf t (rb ++ r) = true.
Proof. exact list_files_ok. Qed.
Print Assumptions C17_listing_relative.

(* Which directories a listing ENUMERATES (os.scandir): only real directories at or below the resolved
   prefix -- link-free locations under the canonical root, so by C17_resolve_kernel the kernel lists exactly
   them.  A directory symlink below the prefix, pointing inward or outward, is never descended into; no
   foreign directory is scanned and none of its files can be returned (C17_listing_relative). *)
Theorem C17_listing_scans_inside : forall (d : nat) (t : tree) (cwd : loc) (base prefix : pstr) (ds : list loc) (dd : loc),
  list_scans d t cwd base prefix = Ok ds -> In dd ds ->
  exists rb q, realpath d t cwd base = Ok rb /\ resolve d t cwd base prefix = Ok q
    /\ is_prefix q dd = true /\ is_prefix rb dd = true /\ names dd
    /\ lstat t dd = Some Dir /\ no_link_prefix t dd = true.
Proof.
  intros d t cwd base prefix ds dd H Hin. unfold list_scans in H.
  destruct (resolve d t cwd base prefix) as [q|e] eqn:Er; [|discriminate].
  destruct (negb (exists_loc t q)); inversion H; subst; [contradiction|].
  pose proof (resolve_ok _ _ _ _ _ _ Er) as [rb [Eb [_ [Hp _]]]].
  destruct (walk_dirs_in _ _ _ Hin) as [Hq [Hn El]].
  exists rb, q. repeat split; try assumption.
  - eapply is_prefix_trans; eassumption.
  - apply lstat_dir_no_link. exact El.
Qed.
Print Assumptions C17_listing_scans_inside.

(* Every entry point in the table regenerated from the source: its raw string goes through the recorded
   guard, and every location handed to the OS is the guard's result or its parent directory, link-free
   and under the canonical root (os.makedirs may also name an ancestor of the root). *)
Theorem C17_entrypoints : forall (d : nat) (t : tree) (cwd : loc) (base : pstr) (ep : entry) (g : guard) (p : pstr) (accs : list access),
  In (ep, g) gen_entry_guards ->
  run_entry d t cwd gen_table_dirs base ep p = Ok accs ->
  exists rb q, realpath d t cwd base = Ok rb
    /\ guard_result d t cwd gen_table_dirs base rb g p = Ok q
    /\ Forall (fun a => (snd a = q \/ snd a = parent q) /\ touch_ok t rb a) accs.
Proof. intros d t cwd. exact (run_entry_ok d t cwd gen_table_dirs). Qed.
Print Assumptions C17_entrypoints.

(* Histories on one long-lived handle.  The arrangement may change between two uses of the same string (a
   directory inside the root replaced by an outward link, a file by a link, ...).  Whatever was resolved or
   accepted before, the i-th use touches only link-free locations under the canonical root OF THE TREE CURRENT
   AT THAT USE: a handle carries no validated-path state (C17_history_stateless: the outcome of a use is a
   function of its own tree only). *)
Theorem C17_history_inside : forall (d : nat) (cwd : loc) (base : pstr) (steps : list hstep) (i : nat)
                                    (t : tree) (ep : entry) (g : guard) (p : pstr) (accs : list access),
  nth_error steps i = Some (t, ep, p) ->
  In (ep, g) gen_entry_guards ->
  nth_error (run_history d cwd gen_table_dirs base steps) i = Some (Ok accs) ->
  exists rb q, realpath d t cwd base = Ok rb
    /\ guard_result d t cwd gen_table_dirs base rb g p = Ok q
    /\ Forall (fun a => (snd a = q \/ snd a = parent q) /\ touch_ok t rb a) accs.
Proof.
  intros d cwd base steps i t ep g p accs Hs Hg Hr. unfold run_history in Hr.
  rewrite (map_nth_error _ _ _ Hs) in Hr. inversion Hr as [Hr']. eapply run_entry_ok; eassumption.
Qed.
Print Assumptions C17_history_inside.

Theorem C17_history_stateless : forall (d : nat) (cwd : loc) (dirs : list comp) (base : pstr) (pre post : list hstep)
                                       (t : tree) (ep : entry) (p : pstr),
  nth_error (run_history d cwd dirs base (pre ++ (t, ep, p) :: post)) (length pre) = Some (run_entry d t cwd dirs base ep p).
Proof. intros. exact (map_nth_error _ _ _ (ListFacts.nth_error_middle _ pre post (t, ep, p))). Qed.
Print Assumptions C17_history_stateless.

(* Sessions on one long-lived handle over ANY trees: the string of a step is a literal or a NAME AN EARLIER LISTING OF THE SAME
   HANDLE RETURNED (SListed i k) -- the collector sweeping the candidates it listed, a caller registering a file it saw in data/.
   os.walk reports a symlink to a file among a directory's files, so a listing hands out names that lead out of the root.
   (1) The step law: the outcome of a step is run_entry of ITS OWN tree on the string its argument denotes, plus the names it
   returns; nothing else of the past enters -- a handle keeps no record of what it listed, probed or read. *)
Theorem C17_session_stateless : forall (d kf : nat) (cwd : loc) (dirs : list comp) (base : pstr) (pre : list sstep) (s : sstep) (post : list sstep),
  nth_error (run_session d kf cwd dirs base (pre ++ s :: post)) (length pre)
  = Some (session_out d kf cwd dirs base (run_session d kf cwd dirs base pre) s).
Proof. exact session_step_at. Qed.
Print Assumptions C17_session_stateless.

(* (2) Every step of every session that returns touches only link-free locations under the canonical root of the tree current at
   that step, wherever its string came from. *)
Theorem C17_session_inside : forall (d kf : nat) (cwd : loc) (base : pstr) (steps : list sstep) (i : nat)
                                    (t : tree) (ep : entry) (g : guard) (a : sarg) (accs : list access) (ns : list pstr),
  nth_error steps i = Some (t, ep, a) ->
  In (ep, g) gen_entry_guards ->
  nth_error (run_session d kf cwd gen_table_dirs base steps) i = Some (Some (Ok accs), ns) ->
  exists p rb q, sderef (run_session d kf cwd gen_table_dirs base (firstn i steps)) a = Some p
    /\ realpath d t cwd base = Ok rb
    /\ guard_result d t cwd gen_table_dirs base rb g p = Ok q
    /\ Forall (fun x => (snd x = q \/ snd x = parent q) /\ touch_ok t rb x) accs.
Proof.
  intros d kf cwd base steps i t ep g a accs ns Hs Hg Hr.
  rewrite (session_out_at _ _ _ _ _ _ _ _ Hs) in Hr. unfold session_out in Hr.
  destruct (sderef (run_session d kf cwd gen_table_dirs base (firstn i steps)) a) as [p|] eqn:Ed; [|discriminate Hr].
  assert (H2 : run_entry d t cwd gen_table_dirs base ep p = Ok accs) by congruence.
  destruct (run_entry_ok d t cwd gen_table_dirs base ep g p accs Hg H2) as [rb [q [A [B C0]]]].
  exists p, rb, q. repeat split; assumption.
Qed.
Print Assumptions C17_session_inside.

(* (3) A step whose string is a LISTED name that the kernel walks to a location outside the canonical root -- a file symlink
   inside the root pointing out, directly or through further links -- is refused with the Security error by EVERY entry point
   (read, open, size, mtime, exists, write, delete, lock, the parquet read and write paths): having been listed earns a name nothing. *)
Theorem C17_session_listed_name_rejected : forall (d kf : nat) (cwd : loc) (dirs : list comp) (base : pstr) (steps : list sstep) (j : nat)
                                                  (t : tree) (ep : entry) (i k : nat) (r : pstr) (kf' : nat) (l rb : loc),
  nth_error steps j = Some (t, ep, SListed i k) ->
  sderef (run_session d kf cwd dirs base (firstn j steps)) (SListed i k) = Some r ->
  (count_links t <= d)%nat ->
  kwalk kf' t [] (tl (absolutize cwd (join_for_resolve base r))) = Ok l ->
  realpath d t cwd base = Ok rb -> is_prefix rb l = false ->
  exists ns, nth_error (run_session d kf cwd dirs base steps) j = Some (Some (Err Security), ns).
Proof.
  intros d kf cwd dirs base steps j t ep i k r kf' l rb Hs Hd Hc Hk Hb Hout.
  rewrite (session_out_at _ _ _ _ _ _ _ _ Hs). unfold session_out. rewrite Hd.
  pose proof (sderef_listed_relative _ _ _ _ _ _ _ _ _ Hd) as Hrel.
  rewrite (kernel_outside_entry_rejected d t cwd dirs base ep r kf' l rb Hrel Hc Hk Hb Hout). eexists. reflexivity.
Qed.
Print Assumptions C17_session_listed_name_rejected.

(* ... in its simplest form: one listing, then one use of a returned name, same arrangement. *)
Theorem C17_listed_name_rejected : forall (d kf : nat) (t : tree) (cwd : loc) (dirs : list comp) (base prefix : pstr) (rs : list pstr) (r : pstr)
                                          (ep : entry) (kf' : nat) (l rb : loc),
  list_files d kf t cwd base prefix = Ok rs -> In r rs ->
  (count_links t <= d)%nat ->
  kwalk kf' t [] (tl (absolutize cwd (join_for_resolve base r))) = Ok l ->
  realpath d t cwd base = Ok rb -> is_prefix rb l = false ->
  run_entry d t cwd dirs base ep r = Err Security.
Proof.
  intros d kf t cwd dirs base prefix rs r ep kf' l rb Hl Hin Hd Hk Hb Hout.
  assert (Hrel : is_abs r = false).
  { apply (listed_names_relative d kf cwd base t EpList prefix). unfold listed_names. rewrite Hl. exact Hin. }
  exact (kernel_outside_entry_rejected d t cwd dirs base ep r kf' l rb Hrel Hd Hk Hb Hout).
Qed.
Print Assumptions C17_listed_name_rejected.

(* Sessions extend histories: with literal strings only, a session is exactly a history. *)
Theorem C17_session_of_literals_is_history : forall (d kf : nat) (cwd : loc) (dirs : list comp) (base : pstr) (steps : list hstep),
  map fst (run_session d kf cwd dirs base (map (fun s : hstep => let '(t, ep, p) := s in (t, ep, SLit p)) steps))
  = map Some (run_history d cwd dirs base steps).
Proof.
  intros d kf cwd dirs base steps. unfold run_session.
  assert (G : forall acc, map fst (fold_left (session_step d kf cwd dirs base)
                                     (map (fun s : hstep => let '(t, ep, p) := s in (t, ep, SLit p)) steps) acc)
                          = map fst acc ++ map Some (run_history d cwd dirs base steps)).
  { induction steps as [|[[t ep] p] steps IH]; intro acc; simpl.
    - rewrite app_nil_r. reflexivity.
    - rewrite IH. unfold session_step. rewrite map_app. simpl. rewrite <- app_assoc. reflexivity. }
  rewrite G. reflexivity.
Qed.
Print Assumptions C17_session_of_literals_is_history.

(* Why the model's handle is its base string and nothing else -- over the tables REGENERATED FROM THE SOURCE on every run
   (Gen/GenPath.v): every attribute of self that a path guard of DataFileManager or any method of LocalStorageBackend loads is set
   up at construction and is stored into by NO method afterwards (assignment, item assignment / deletion, mutating call). *)
Theorem C17_handle_state_fixed_at_construction : forall c m f : String.string, In (c, m, f) gen_guard_reads ->
  In (c, f) gen_handle_fields /\ forall m' : String.string, ~ In (c, m', f) gen_handle_writes.
Proof. apply reads_disjoint_from_writes. change (guards_read_constructor_state_only = true). reflexivity. Qed.
Print Assumptions C17_handle_state_fixed_at_construction.

(* The object-store backend.  Its root is a KEY PREFIX and keys are opaque strings: over the key mapping regenerated
   from S3StorageBackend._get_s3_key / list_files on every run (Gen/GenS3.v), for EVERY path string -- '..', '.',
   '//', absolute, sibling-prefix names included -- the key of a request is the configured prefix, a '/', and the bytes
   of the path after its leading slashes VERBATIM (no segment is interpreted), so it lies under the table prefix;
   likewise the Prefix= of a listing. *)
Theorem C17_s3_key_under_prefix : forall prefix path : str, nonempty prefix = true ->
  gen_get_s3_key prefix path = (prefix ++ [slash]) ++ lstrip_slash path
  /\ starts_with (gen_get_s3_key prefix path) (prefix ++ [slash]) = true.
Proof. intros prefix path H. split; [exact (s3_key_verbatim prefix path H)|exact (s3_key_under_prefix prefix path H)]. Qed.
Print Assumptions C17_s3_key_under_prefix.

Theorem C17_s3_list_prefix_under_prefix : forall prefix path : str, nonempty prefix = true ->
  starts_with (gen_list_prefix prefix path) (prefix ++ [slash]) = true.
Proof.
  intros prefix path H. unfold gen_list_prefix.
  destruct (nonempty _ && negb _); [apply starts_with_app_l|]; exact (s3_key_under_prefix prefix path H).
Qed.
Print Assumptions C17_s3_list_prefix_under_prefix.

(* The fuel bound is satisfiable: one unit per link in the tree is always enough. *)
Theorem C17_fuel_sufficient : forall (d : nat) (t : tree) (cwd : loc) (base p : pstr),
  (count_links t <= d)%nat ->
  realpath d t cwd p <> Err OutOfFuel /\ resolve d t cwd base p <> Err OutOfFuel.
Proof. intros d t cwd base p H. split; [exact (realpath_fuel d t cwd p H)|exact (resolve_fuel d t cwd base p H)]. Qed.
Print Assumptions C17_fuel_sufficient.

(* A concrete arrangement: non-vacuity, and the refutation of the resolver as found.
   codes: 10 "w"  11 "tbl"  12 "tbl2"  13 "out"  14 "secret"  15 "ln_out"  16 "ln_loop"  17 "ln_in"  18 "f"  19 "lnroot"
     /w/tbl/data/f   /w/tbl/ln_out -> /w/out   /w/tbl/ln_loop -> ln_loop   /w/tbl/ln_in -> data
     /w/tbl2/secret  /w/out/secret             /w/lnroot -> tbl *)
Definition ex_tree : tree :=
  [ ([10], Dir); ([10; 11], Dir); ([10; 11; 3], Dir); ([10; 11; 3; 18], File);
    ([10; 11; 15], Link [0; 10; 13]); ([10; 11; 16], Link [16]); ([10; 11; 17], Link [3]);
    ([10; 12], Dir); ([10; 12; 14], File); ([10; 13], Dir); ([10; 13; 14], File); ([10; 19], Link [11]);
    ([10; 11; 3; 21], Link [0; 10; 13]) ].          (* 21 "ext": /w/tbl/data/ext -> /w/out, an outward DIRECTORY link below data *)
Definition ex_cwd : loc := [10].
Definition ex_base : pstr := [0; 10; 11].          (* "/w/tbl" *)
Definition ex_base_link : pstr := [19].            (* "lnroot", relative to the working directory /w *)

(* The resolver as found (realpath trusted): "ln_loop/../ln_out/secret" is accepted, and the kernel then
   follows ln_out to /w/out/secret, outside the root /w/tbl.  The repaired resolver rejects it. *)
Theorem C17_legacy_resolver_refuted :
  resolve_legacy 3 ex_tree ex_cwd ex_base [16; 2; 15; 14] = Ok [10; 11; 15; 14]
  /\ kwalk 20 ex_tree [] [10; 11; 15; 14] = Ok [10; 13; 14]
  /\ is_prefix [10; 11] [10; 13; 14] = false
  /\ resolve 3 ex_tree ex_cwd ex_base [16; 2; 15; 14] = Err Security.
Proof. vm_compute. repeat split. Qed.
Print Assumptions C17_legacy_resolver_refuted.

(* the same tree after <root>/data was replaced by a link to /w/out (the old directory moved aside) *)
Definition ex_tree_swapped : tree :=
  [ ([10], Dir); ([10; 11], Dir); ([10; 11; 3], Link [0; 10; 13]); ([10; 13], Dir); ([10; 13; 18], File); ([10; 13; 14], File) ].

Example C17_history_nonvacuous :
  run_history 5 ex_cwd gen_table_dirs ex_base
    [ (ex_tree, EpReadDataFile, [3; 18]); (ex_tree_swapped, EpReadDataFile, [3; 18]); (ex_tree, EpReadDataFile, [3; 18]) ]
  = [ Ok [(ARead, [10; 11; 3; 18])]; Err Security; Ok [(ARead, [10; 11; 3; 18])] ].
Proof. vm_compute. reflexivity. Qed.

(* file links inside the root: 22 "imported": /w/tbl/data/imported -> /w/out/secret (absolute, outward);
   23 "chain": /w/tbl/data/chain -> imported (inside link to the outward link);  24 "inlink": /w/tbl/data/inlink -> f (inward) *)
Definition ex_tree_fl : tree :=
  [ ([10], Dir); ([10; 11], Dir); ([10; 11; 3], Dir); ([10; 11; 3; 18], File);
    ([10; 11; 3; 22], Link [0; 10; 13; 14]); ([10; 11; 3; 23], Link [22]); ([10; 11; 3; 24], Link [18]);
    ([10; 13], Dir); ([10; 13; 14], File); ([10; 19], Link [11]) ].

(* A handle that remembers what it listed and skips the boundary check for those names (Model/Path.v resolve_memo -- NOT the library's
   behaviour) is refuted by this tree: after a listing of data/, "data/imported" is answered with the link's own location, the kernel
   follows it to /w/out/secret outside the root /w/tbl; the library's resolver refuses the same string. *)
Theorem C17_memoising_handle_refuted :
  let m := memo_after_listing [] 5 20 ex_tree_fl ex_cwd ex_base [3] in
  resolve_memo m 5 ex_tree_fl ex_cwd ex_base [3; 22] = Ok [10; 11; 3; 22]
  /\ kwalk 20 ex_tree_fl [] [10; 11; 3; 22] = Ok [10; 13; 14]
  /\ is_prefix [10; 11] [10; 13; 14] = false
  /\ resolve 5 ex_tree_fl ex_cwd ex_base [3; 22] = Err Security.
Proof. vm_compute. repeat split. Qed.
Print Assumptions C17_memoising_handle_refuted.

(* a session: list data/ (four names, three of them links), then use every listed name; the outward link, the chain to it are
   refused by every entry point tried, the inward link resolves to its target, a dangling reference executes nothing *)
Example C17_session_nonvacuous :
  run_session 5 20 ex_cwd gen_table_dirs ex_base_link
    [ (ex_tree_fl, EpList, SLit [3]);
      (ex_tree_fl, EpRead, SListed 0 0); (ex_tree_fl, EpRead, SListed 0 1); (ex_tree_fl, EpParquetSource, SListed 0 1);
      (ex_tree_fl, EpSize, SListed 0 2); (ex_tree_fl, EpDelete, SListed 0 3); (ex_tree_fl, EpWrite, SListed 0 1);
      (ex_tree_fl, EpRead, SListed 0 9); (ex_tree_fl, EpRead, SListed 5 0) ]
  = [ (Some (Ok [(AStat, [10; 11; 3]); (AList, [10; 11; 3])]), [[3; 18]; [3; 22]; [3; 23]; [3; 24]]);
      (Some (Ok [(ARead, [10; 11; 3; 18])]), []); (Some (Err Security), []); (Some (Err Security), []);
      (Some (Err Security), []); (Some (Ok [(AStat, [10; 11; 3; 18]); (ARemove, [10; 11; 3; 18])]), []); (Some (Err Security), []);
      (None, []); (None, []) ]
  /\ (count_links ex_tree_fl <= 5)%nat
  /\ kwalk 20 ex_tree_fl [] (tl (absolutize ex_cwd (join_for_resolve ex_base_link [3; 23]))) = Ok [10; 13; 14].
Proof. vm_compute. repeat split; auto 10. Qed.

Example C17_nonvacuous :
  (count_links ex_tree <= 5)%nat
  (* accepted: through an inside link, Iceberg-style, through the symlinked root spelled relatively *)
  /\ resolve 5 ex_tree ex_cwd ex_base [17; 18] = Ok [10; 11; 3; 18]
  /\ resolve 5 ex_tree ex_cwd ex_base [0; 3; 18] = Ok [10; 11; 3; 18]
  /\ resolve 5 ex_tree ex_cwd ex_base_link [3; 2; 17; 18] = Ok [10; 11; 3; 18]
  (* rejected: outward link, sibling whose name has the root's name as a string prefix, '..' chain *)
  /\ resolve 5 ex_tree ex_cwd ex_base [15; 14] = Err Security
  /\ resolve 5 ex_tree ex_cwd ex_base [2; 12; 14] = Err Security
  /\ resolve 5 ex_tree ex_cwd ex_base_link [0; 3; 2; 2; 2; 10; 13; 14] = Err Security
  (* the parquet read path: a true absolute path inside is honoured, outside refused *)
  /\ arrow_path 5 ex_tree ex_cwd gen_table_dirs ex_base [0; 10; 19; 3; 18] = Ok [10; 11; 3; 18]
  /\ arrow_path 5 ex_tree ex_cwd gen_table_dirs ex_base [0; 10; 13; 14] = Err Security
  (* listing under the symlinked root: paths relative to the canonical root *)
  /\ list_files 5 20 ex_tree ex_cwd ex_base_link [0] = Ok [[3; 18]; [16]]
  (* ... and a listing ABOVE the outward directory link data/ext scans /w/tbl and /w/tbl/data only, never /w/out *)
  /\ list_scans 5 ex_tree ex_cwd ex_base_link [0] = Ok [[10; 11]; [10; 11; 3]]
  /\ list_files 5 20 ex_tree ex_cwd ex_base [3] = Ok [[3; 18]]
  /\ list_files 5 20 ex_tree ex_cwd ex_base [3; 21] = Err Security
  (* entry points: a write below the root stages in the parent; a write AT the root is refused *)
  /\ run_entry 5 ex_tree ex_cwd gen_table_dirs ex_base EpWrite [3; 20] = Ok [(AMkdirs, [10; 11; 3]); (ACreateIn, [10; 11; 3]); (AReplace, [10; 11; 3; 20])]
  /\ run_entry 5 ex_tree ex_cwd gen_table_dirs ex_base EpWrite [3; 2] = Err IsRoot
  /\ In (EpWrite, GFileTarget) gen_entry_guards.
Proof. vm_compute. repeat split; try reflexivity; auto 20. Qed.

(* non-vacuity of C17_absolute_is_rerooted: "/w/out/secret" is the true absolute name of an existing file OUTSIDE the root /w/tbl;
   handed to the resolver it names /w/tbl/w/out/secret (a location inside, nothing there yet), as "w/out/secret" does; the kernel
   walks the string itself to /w/out/secret; only the parquet read path takes it as written, and refuses it; with enough '..'
   behind the slash the JOINED string leaves the root and is refused *)
Example C17_absolute_nonvacuous :
  is_abs [0; 10; 13; 14] = true
  /\ join_for_resolve ex_base [0; 10; 13; 14] = [0; 10; 11; 10; 13; 14]
  /\ resolve 5 ex_tree ex_cwd ex_base [0; 10; 13; 14] = Ok [10; 11; 10; 13; 14]
  /\ resolve 5 ex_tree ex_cwd ex_base [10; 13; 14] = Ok [10; 11; 10; 13; 14]
  /\ kwalk 20 ex_tree [] (tl [0; 10; 13; 14]) = Ok [10; 13; 14]
  /\ arrow_path 5 ex_tree ex_cwd gen_table_dirs ex_base [0; 10; 13; 14] = Err Security
  /\ resolve 5 ex_tree ex_cwd ex_base [0; 2; 13; 14] = Err Security.
Proof. vm_compute. repeat split. Qed.

(* non-vacuity of the object-store theorems (string literals need String, imported last: it shadows List.length) *)
From Coq Require Import String.
Example C17_s3_nonvacuous :
  gen_get_s3_key (lit "wh/t"%string) (lit "../t2/data/x"%string) = lit "wh/t/../t2/data/x"%string
  /\ gen_get_s3_key (lit "wh/t"%string) (lit "//etc/passwd"%string) = lit "wh/t/etc/passwd"%string
  /\ gen_list_prefix (lit "wh/t"%string) (lit "../t2"%string) = lit "wh/t/../t2/"%string.
Proof. vm_compute. repeat split. Qed.

(* non-vacuity of the handle-state theorem: the guards do read handle state (the base string, the storage object) *)
Example C17_handle_state_nonvacuous :
  In ("LocalStorageBackend"%string, "_resolve_path"%string, "base_path"%string) gen_guard_reads
  /\ In ("DataFileManager"%string, "_get_arrow_path"%string, "storage"%string) gen_guard_reads.
Proof. unfold gen_guard_reads. split; auto 10 using in_eq, in_cons. Qed.
