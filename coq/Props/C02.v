(* Props/C02.v -- Readers observe only whole committed snapshots.
   The readers' invariant is in Proofs/ReaderProofs.v, the counted code facts in Proofs/ReadResProofs.v.

   Event lists interleave, in any order: every writer-side event of Model/Fault.v (commits of any number of
   transactions, failures, interrupts, crashes, rollbacks) and the readers' steps: start of a read call, a
   pointer resolution, the reads of the files the resolved version names, the return of the call.

   Two facts about the CODE that the model would otherwise only assume are counted on the source on every run
   (translator/gen_readres.py -> Gen/GenReadRes.v) and enter the theorems through Proofs/ReadResProofs.v:
     * [read_budget] = the greatest number of pointer resolutions any read API (scan, to_pandas, scan_batches,
       iter_records, iter_pandas, row_count) makes in one call.  The reader machine is run with THAT budget;
       [C02_snapshot_read] is proved because it is 1, and [C02_snapshot_read_needs_single_resolution] shows the
       same statement is false for a budget of 2 (the unrepaired library: up to 3).
     * [txn_commits_per_attempt] = (1, 1): one attempt of Transaction.commit, whatever operations were queued,
       reaches MetadataManager.commit exactly once (which flips the pointer exactly once: GenCommit.v).

   What a file CONTAINS is not modelled: file names are fresh and files write-once (Model/Fault.v; C04 / C16), so
   contents are a function [content] of the name, universally quantified in [C02_snapshot_read].  That the real
   APIs turn the files of a version into the same rows (filters, projection, batching) is C12 / C13; that the
   rows returned by each real API under real schedules are those of one pointer version is the harness oracle. *)
From Coq Require Import String ZArith List.
Require DS.Model.Meta DS.Gen.GenFileOps.
Require Import DS.Model.Commit DS.Model.Fault DS.Model.Reader DS.Proofs.CommitProofs DS.Proofs.FaultProofs DS.Proofs.ReaderProofs
               DS.Gen.GenReadRes DS.Proofs.ReadResProofs.
Import ListNotations.

(* A read call that has returned (any API: each resolves the pointer [read_budget] = 1 times) resolved the pointer
   at an instant i between its start and its end; none of its file reads failed (it did not raise); the files it read
   are EXACTLY those of the version that was current after i flips, all still present whatever the writers did
   meanwhile; hence, for any contents of the files, the rows it returns are the rows of that one snapshot. *)
Theorem C02_snapshot_read : forall c m0 kind mr r0 next evs,
  sound c -> (forall f, In f r0 -> (f < next)%nat) ->
  let z := rrun c read_budget (rinit (finit m0 kind mr r0 next)) evs in
  forall r e, r_end (r_readers z r) = Some e ->
    exists i st, r_idx (r_readers z r) = Some i /\ r_start (r_readers z r) = Some st
      /\ (st <= i <= e)%nat /\ (e <= length (hist z))%nat
      /\ r_ok (r_readers z r) = true
      /\ r_got (r_readers z r) = refs (rx z) (version_at (hist z) i)
      /\ (forall f, In f (r_got (r_readers z r)) -> In f (f_present (rx z)))
      /\ (forall (row : Type) (content : fid -> list row),
            result_rows content (r_readers z r) = snapshot_rows content (rx z) (version_at (hist z) i)).
Proof. intros c m0 kind mr r0 next evs Snd A z. apply (rinv_snapshot c z), reach_rinv; assumption. Qed.
Print Assumptions C02_snapshot_read.

(* ... and at every instant before it returns: no read has failed, and what it has read so far together with what
   it still has to read is the file list of the ONE version it resolved, every file of which exists. *)
Theorem C02_read_in_progress : forall c m0 kind mr r0 next evs,
  sound c -> (forall f, In f r0 -> (f < next)%nat) ->
  let z := rrun c read_budget (rinit (finit m0 kind mr r0 next)) evs in
  forall r, r_ok (r_readers z r) = true
    /\ forall v, r_vid (r_readers z r) = Some v ->
         exists i, r_idx (r_readers z r) = Some i /\ v = version_at (hist z) i
                   /\ r_got (r_readers z r) ++ r_todo (r_readers z r) = refs (rx z) v
                   /\ (forall f, In f (refs (rx z) v) -> In f (f_present (rx z))).
Proof.
  intros c m0 kind mr r0 next evs Snd A z r. assert (I : RInv c z) by (apply reach_rinv; assumption).
  destruct (RI_r c _ I r) as [_ Dvid _ Dok _]. split; [exact Dok|].
  intros v Hv. destruct (Dvid v Hv) as [i [st [Idx _ _ Ver Comm Files _]]]. exists i. repeat split; auto.
  apply (finv_present c _ (RI_f c _ I) v Comm).
Qed.
Print Assumptions C02_read_in_progress.

(* Every read API resolves the pointer exactly once per call (counted on the source), and all six are covered. *)
Theorem C02_api_single_resolution :
  map fst read_api_resolutions = ["scan"; "to_pandas"; "scan_batches"; "iter_records"; "iter_pandas"; "row_count"]%string
  /\ forall api lo hi, In (api, (lo, hi)) read_api_resolutions -> lo = 1%nat /\ hi = 1%nat.
Proof. exact (conj read_apis_covered every_read_api_resolves_once). Qed.
Print Assumptions C02_api_single_resolution.

(* The single resolution is necessary: with two resolutions per call the conclusion "the files read are those of
   one version" fails (witness: Proofs/ReaderProofs.v two_res_events), and holds with one. *)
Theorem C02_snapshot_read_needs_single_resolution : ~ snapshot_read_full 2 /\ snapshot_read_full 1.
Proof. exact (conj snapshot_read_refuted_for_two_resolutions snapshot_read_holds_for_one_resolution). Qed.
Print Assumptions C02_snapshot_read_needs_single_resolution.

(* Successive reads never move backwards in commit order: if call r1 had returned when call r2 started (two
   successive calls through one handle; stated with the weaker hypothesis that no more flips had happened at r1's
   return than at r2's start), r1 resolved the pointer at an index i1 <= i2, and the flips r1 had seen are a prefix
   of the flips r2 saw. *)
Theorem C02_monotone : forall c m0 kind mr r0 next evs,
  sound c -> (forall f, In f r0 -> (f < next)%nat) ->
  let z := rrun c read_budget (rinit (finit m0 kind mr r0 next)) evs in
  forall r1 r2 e1 s2 i2,
    r_end (r_readers z r1) = Some e1 -> r_start (r_readers z r2) = Some s2 -> (e1 <= s2)%nat ->
    r_idx (r_readers z r2) = Some i2 ->
    exists i1, r_idx (r_readers z r1) = Some i1 /\ (i1 <= i2)%nat
      /\ firstn i1 (hist z) = firstn i1 (firstn i2 (hist z)).
Proof. intros c m0 kind mr r0 next evs Snd A z. apply (rinv_monotone c z), reach_rinv; assumption. Qed.
Print Assumptions C02_monotone.

(* A multi-operation transaction becomes visible all at once or not at all.  Code fact (counted on the source): one
   attempt of Transaction.commit reaches the commit protocol exactly once, snapshot deletion at most once.  Model: a
   transaction is one operation identifier; no transaction flips the pointer twice, and the operations visible after
   the first i flips are the initial ones followed by exactly the transactions of those i flips -- a transaction is in
   no version before its flip and whole in every version from it on. *)
Theorem C02_txn_atomic :
  txn_commits_per_attempt = (1, 1)%nat /\ snd delete_snapshot_commits = 1%nat
  /\ forall c m0 kind mr r0 next evs,
       sound c -> (forall f, In f r0 -> (f < next)%nat) ->
       let w := fw (frun c (finit m0 kind mr r0 next) evs) in
       NoDup (map snd (w_hist w))
       /\ forall i, m_ops (nthf (w_files w) (version_at (w_hist w) i))
                    = m_ops (nthf (w_files w) 0%nat) ++ map snd (firstn i (w_hist w)).
Proof.
  exact (conj txn_one_commit_per_attempt (conj delete_snapshot_at_most_one_commit
           (fun c m0 kind mr r0 next evs Snd _ => txn_visible_whole c m0 kind mr r0 next evs Snd))).
Qed.
Print Assumptions C02_txn_atomic.

(* Non-vacuity.  Reader 0 starts, writer 0 commits, the reader resolves (sees version 1), writer 1 commits, writer 2
   fails and rolls back its file, the reader reads both files of version 1 and returns: i = 1 lies in [0, 2], all
   reads succeeded, what it read is the file list of version 1 ([0; 1]) although version 2 ([0; 1; 2]) is current
   and file 3 came and went.  Reader 1 then starts and resolves: i = 2 >= 1. *)
Definition ev a k := {| e_actor := a; e_kind := k |}.
Definition ex_cfg := {| cas := false; lockkind := Excl |}.
Definition ex_init := rinit (finit {| m_ops := []; m_cur := 1; m_lu := 100 |} (fun _ => KFresh) (fun _ => 50%nat) [0]%nat 1%nat).
Definition ex_events : list revent :=
  ([RStart 0; RSys (FWrite 0)] ++ map (fun e => RSys (FProto e)) (commit_script 0 0 100)
   ++ [RPtr 0; RSys (FWrite 1)] ++ map (fun e => RSys (FProto e)) (commit_script 1 1 100)
   ++ [RSys (FWrite 2); RSys (FProto (ev 2 (EBegin 2))); RSys (FProto (ev 2 EAbort)); RSys (FRollback 2);
       RFile 0; RFile 0; REnd 0; RStart 1; RPtr 1])%nat.
Example C02_nonvacuous :
  let z := rrun ex_cfg read_budget ex_init ex_events in
  r_vid (r_readers z 0%nat) = Some 1%nat /\ r_idx (r_readers z 0%nat) = Some 1%nat /\ r_start (r_readers z 0%nat) = Some 0%nat
  /\ r_end (r_readers z 0%nat) = Some 2%nat /\ r_ok (r_readers z 0%nat) = true /\ r_got (r_readers z 0%nat) = [0; 1]%nat
  /\ refs (rx z) 1%nat = [0; 1]%nat /\ refs (rx z) 2%nat = [0; 1; 2]%nat /\ f_present (rx z) = [2; 1; 0]%nat
  /\ map snd (hist z) = [0; 1]%nat
  /\ r_start (r_readers z 1%nat) = Some 2%nat /\ r_idx (r_readers z 1%nat) = Some 2%nat /\ r_vid (r_readers z 1%nat) = Some 2%nat.
Proof. vm_compute. repeat split. Qed.

(* ... and the two-resolution witness really returns a mixture: file 0 of version 0, then files 0 and 1 of version 1 *)
Example C02_two_resolutions_mix :
  let z := rrun two_res_cfg 2 (rinit (finit {| m_ops := []; m_cur := 1; m_lu := 50 |} (fun _ => KFresh) (fun _ => 50%nat) [0%nat] 1%nat)) two_res_events in
  r_end (r_readers z 0%nat) = Some 1%nat /\ r_got (r_readers z 0%nat) = [0; 0; 1]%nat
  /\ refs (rx z) 0%nat = [0]%nat /\ refs (rx z) 1%nat = [0; 1]%nat.
Proof. vm_compute. repeat split. Qed.

(* A transaction that loses a race is retried by the library.  What a retried attempt publishes is decided by three things;
   the first is a theorem, the other two are FACTS COUNTED ON THE SOURCE by translator/gen_fileops.py (booleans that the
   translator computes from the AST of Transaction.commit / _commit_file_ops on every run -- not theorems about a model of
   the retry loop, which Coq does not have):
     (1) gen_partition -- REGENERATED from the partitioning loop -- maps a queue to exactly its appended files, its paths
         to delete and its largest expiry cutoff, nothing dropped and nothing invented (proved below, for every queue);
     (2) gen_partition_per_attempt: the three accumulators are initialised and filled INSIDE the body of the retry loop
         (after that attempt's refresh()), from self._operations, which commit() never edits;
     (3) gen_partition_args_kept: no statement after the partition loop, in commit() or in _commit_file_ops (which
         receives them), rebinds, augments, aliases or calls a mutating method on an accumulator.
   (2) and (3) are what makes every attempt see (1)'s result of the WHOLE queue; when either is false this theorem no
   longer proves and the check searches for the history (a delete+append transaction losing a race: the scheduled
   oracle of harness/props/c02.py).  The theorem is the conjunction -- it does not pretend to derive "every attempt". *)
Theorem C02_retry_whole_queue :
  (GenFileOps.gen_partition_per_attempt = true /\ GenFileOps.gen_partition_args_kept = true)
  /\ forall ops,
       let '(a, d, e) := GenFileOps.gen_partition ops in
       (forall f, In f a <-> exists fs, In (Meta.TAppend fs) ops /\ In f fs)
       /\ (forall p, In p d <-> exists ps, In (Meta.TDelete ps) ops /\ In p ps)
       /\ (forall c, In (Meta.TExpire c) ops -> exists e', e = Some e' /\ (c <= e')%Z)
       /\ ((forall c, ~ In (Meta.TExpire c) ops) -> e = None).
Proof. exact (conj attempt_facts_hold partition_whole_queue). Qed.
Print Assumptions C02_retry_whole_queue.
