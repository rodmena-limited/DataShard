(* Proofs/C01ResentProofs.v -- C01, "a commit that reported a conflict is not reflected" on conditional-write storage when the
   store's refusal can be the answer to a write it APPLIED (the SDK re-sent a conditional PUT whose first copy landed).
   Stated over Model/FlipFault.v, whose XFlipResent / XReadBack are driven by the regenerated gen_refused_reads_back /
   gen_write_landed.
     * prompt machine (no pointer write lands between an applied-and-refused write and its read-back): holds;
     * every schedule: FALSE -- a second committer commits on top of the applied version before the read-back, the read-back
       sees the successor's name, the first committer is told "conflict", its retry budget is used up (delete_snapshot: 1),
       it reports the conflict to its caller, and its commit is in the version chain.
   The statements and the witness run are here, the two theorems in Props/C01.v.  Also the statement of the lock layer's
   exclusivity without the fork hypothesis (refuted there). *)
From Coq Require Import ZArith List.
Require Import DS.Model.Commit DS.Model.FlipFault.
Require Import DS.Proofs.FlipFaultProofs.
Require Import DS.Gen.GenFileLock DS.Model.ProcLock.
Import ListNotations.

Definition conflict_not_reflected_for (prompt : bool) : Prop :=
  forall c atomic m0 kind mr xs, cas c = true ->
    let X := xrun_p prompt c atomic (xinit (init_world m0 kind mr)) xs in
    forall a, a_pc (w_actors (xw X) a) = PDone Conflict -> ~ In a (map snd (w_hist (xw X))).

(* the two-committer superseded schedule of FlipFaultProofs (C08), committer 0 with retry budget 1 *)
Definition resent_cfg := {| cas := true; lockkind := GrantAll |}.
Definition resent_m0 := {| m_ops := []; m_cur := 1; m_lu := 100%Z |}.
Definition resent_budget (a : aid) : nat := match a with O => 1%nat | _ => 50%nat end.

Lemma resent_witness_accepted :
  match xrun_strict_p false resent_cfg false (xinit (init_world resent_m0 (fun _ => KKeep) resent_budget)) superseded_witness 0 with
  | inl X => a_pc (w_actors (xw X) 0%nat) = PDone Conflict /\ a_pc (w_actors (xw X) 1%nat) = PDone Success
             /\ map snd (w_hist (xw X)) = [0%nat; 1%nat] /\ m_ops (file (xw X) (w_ptr (xw X))) = [0%nat; 1%nat]
             /\ x_misreported X = [0%nat]
  | inr _ => False
  end.
Proof. vm_compute. repeat split; reflexivity. Qed.

Definition lock_exclusive_any_events : Prop :=
  forall (proc : hid -> pid) evs h1 h2,
    let s := lrun gen_lock_disc proc linit evs in lholds s h1 -> lholds s h2 -> h1 = h2.
