(* Proofs/CreateProofs.v -- creating a table is idempotent and race-safe (C18).
   The transitions of Model/Create.v's machine are given as rules (`moves`); everything is a case analysis on them.
   CInv holds of every state one may start from (absent, existing, mid-race) and has one frame lemma (upd_inv) for the
   steps that leave pointer and files alone; RInv is what holds in addition in a race from the absent table.
   `returns_on`: while an invariant pins the table in effect, every call that returns is on it. *)
From Coq Require Import List Bool Arith Lia.
Require Import DS.Model.CommitBase DS.Model.Commit DS.Model.Create DS.Proofs.CommitProofs.
Require DS.Proofs.ListFacts.
Import ListNotations.

(* what the SOURCE does on a refused create-if-absent (regenerated): resolve again, remove the own v0 when another
   table is in effect.  Every proof below that concerns the files a race leaves behind depends on this equation. *)
Lemma conflict_class_eq : conflict_class = CFTableExistsDiscardForeign.
Proof. reflexivity. Qed.

Lemma updc_same a p g : updc a p g a = p.
Proof. unfold updc. rewrite Nat.eqb_refl. reflexivity. Qed.
Lemma updc_other a b p g : b <> a -> updc a p g b = g b.
Proof. unfold updc. intro H. destruct (Nat.eqb_spec b a); [contradiction|reflexivity]. Qed.

Lemma recover_live l j : recover l = Some j -> exists m, nth_error l j = Some m /\ f_live m = true.
Proof.
  revert j. induction l as [|m t IH]; intros j H; simpl in H; [discriminate|].
  destruct (recover t) as [k|] eqn:R.
  - destruct (f_live m && (ver_at t k <? f_ver m)) eqn:B; inversion H; subst j.
    + apply andb_true_iff in B. exists m. simpl. tauto.
    + simpl. apply IH. reflexivity.
  - destruct (f_live m) eqn:B; inversion H; subst j. exists m. simpl. auto.
Qed.

Lemma recover_none l : recover l = None -> forall j m, nth_error l j = Some m -> f_live m = false.
Proof.
  induction l as [|m t IH]; intros H j x N; [destruct j; discriminate|]. simpl in H.
  destruct (recover t) as [k|] eqn:R.
  - destruct (f_live m && (ver_at t k <? f_ver m)); discriminate.
  - destruct (f_live m) eqn:B; [discriminate|]. destruct j; simpl in N; [inversion N; subst; exact B | eapply IH; eauto].
Qed.

Lemma recover_only l f : (forall j m, nth_error l j = Some m -> f_live m = true -> j = f) ->
  (exists m, nth_error l f = Some m /\ f_live m = true) -> recover l = Some f.
Proof.
  intros U [m [N L]]. destruct (recover l) as [j|] eqn:R.
  - destruct (recover_live l j R) as [x [Nx Lx]]. f_equal. eapply U; eauto.
  - rewrite (recover_none l R f m N) in L. discriminate.
Qed.

Lemma kill_length f l : length (kill f l) = length l.
Proof. revert f. induction l as [|m t IH]; intros [|f]; simpl; auto. Qed.

Lemma kill_nth_other f l g : g <> f -> nth_error (kill f l) g = nth_error l g.
Proof.
  (* by cases on whether f and g are 0: both 0 contradicts NE, one of them 0 is by computation, neither is IH *)
  revert f g. induction l as [|m t IH]; intros [|f] [|g] NE; simpl; auto; try congruence; try (apply IH; congruence).
Qed.

Lemma kill_nth_same f l :
  nth_error (kill f l) f = option_map (fun m => {| f_id := f_id m; f_ver := f_ver m; f_live := false |}) (nth_error l f).
Proof. revert f. induction l as [|x t IH]; intros [|f]; simpl; auto. Qed.

Lemma kill_nth_live f l g m : nth_error (kill f l) g = Some m -> f_live m = true -> g <> f /\ nth_error l g = Some m.
Proof.
  intros N L. destruct (Nat.eq_dec g f) as [->|NE]; [|rewrite kill_nth_other in N by exact NE; auto].
  rewrite kill_nth_same in N. destruct (nth_error l f); inversion N; subst m. discriminate L.
Qed.

Lemma nth_error_app_old {A} (l : list A) x f a : nth_error l f = Some a -> nth_error (l ++ [x]) f = Some a.
Proof. intro H. rewrite nth_error_app1; auto. apply nth_error_Some. congruence. Qed.

Lemma nth_error_app_inv {A} (l : list A) x f a : nth_error (l ++ [x]) f = Some a ->
  nth_error l f = Some a \/ (f = length l /\ a = x).
Proof.
  intro H. destruct (Nat.lt_ge_cases f (length l)) as [L|G].
  - rewrite nth_error_app1 in H by exact L. auto.
  - rewrite nth_error_app2 in H by exact G. destruct (f - length l) as [|k] eqn:D; simpl in H.
    + inversion H. right. split; [lia|reflexivity].
    + destruct k; discriminate.
Qed.

Lemma live_nth w f : live w f = true <-> exists m, nth_error (c_files w) f = Some m /\ f_live m = true.
Proof.
  unfold live. destruct (nth_error (c_files w) f) as [m|].
  - split; [eauto | intros [x [E L]]; inversion E; exact L].
  - split; [discriminate | intros [x [E _]]; discriminate].
Qed.

Lemma resolve_live w f : resolve w = Some f -> live w f = true.
Proof.
  unfold resolve. destruct (c_ptr w) as [g|].
  - destruct (live w g) eqn:L.
    + (* the pointer's file is live *) intro E. inversion E; subst f. exact L.
    + (* it is not: recovery *) intro R. apply live_nth, (recover_live _ _ R).
  - (* no pointer: recovery *) intro R. apply live_nth, (recover_live _ _ R).
Qed.

Lemma resolve_none w : resolve w = None -> recover (c_files w) = None.
Proof. unfold resolve. destruct (c_ptr w) as [g|]; [destruct (live w g); [discriminate|]|]; auto. Qed.

Definition own_of (p : cpc) : option nat :=
  match p with CWritten f | CConflict f | CForeign f => Some f | _ => None end.

Definition inLS (p : cpc) : bool :=
  match p with CLocked | CChecked | CWritten _ | CPointed | CConflict _ | CForeign _ | CExists => true | _ => false end.

Definition v0 (a : aid) : mfile := {| f_id := a; f_ver := 0; f_live := true |}.

(* What holds of every state one may start from (absent, existing table, mid-race), any storage configuration.
   own_of p = the file an actor in state p has written and not yet published or removed; inLS p = p lies between Lock and
   Release.
   CI_own     the file an actor holds is its own v0: gives a file's identity at PtrCreate and Discard
   CI_ptr     the pointer names a file on storage that nobody still holds: resolve finds the pointer's file; a Discard
              never removes it
   CI_creates no pointer, no creation yet; never two creations: C18_single_init
   CI_conf    a refused creator saw a pointer, and the pointer stays: its Recheck resolves something
   CI_lock    exclusive lock: whoever is inside holds it (so only one actor is inside: excl_others)
   CI_held    any lock: whoever holds it is inside (a returned caller leaves no lock: settled_unlocked)
   CI_excl    exclusive lock: the holder checked an empty table and writes the only file; nobody is ever refused
   CI_alllive exclusive lock: nothing is ever removed (with CI_excl: Check finding nothing means nothing is there) *)
Record CInv (c : cfg) (w : cworld) : Prop := {
  CI_own : forall a f, own_of (c_pc w a) = Some f -> nth_error (c_files w) f = Some (v0 a);
  CI_ptr : forall f, c_ptr w = Some f -> live w f = true /\ forall a, own_of (c_pc w a) <> Some f;
  CI_creates : (c_ptr w = None -> c_creates w = []) /\ (length (c_creates w) <= 1)%nat;
  CI_conf : forall a f, c_pc w a = CConflict f \/ c_pc w a = CForeign f -> c_ptr w <> None;
  CI_lock : lockkind c = Excl -> forall a, inLS (c_pc w a) = true -> c_lock w = Some a;
  CI_held : forall a, c_lock w = Some a -> inLS (c_pc w a) = true;
  CI_excl : lockkind c = Excl -> forall a,
            (c_pc w a = CChecked -> c_ptr w = None /\ c_files w = [])
            /\ (forall f, c_pc w a = CWritten f -> c_ptr w = None /\ c_files w = [v0 a])
            /\ (forall f, c_pc w a <> CConflict f /\ c_pc w a <> CForeign f);
  CI_alllive : lockkind c = Excl -> forall g m, nth_error (c_files w) g = Some m -> f_live m = true }.

(* is actor b the one (a) whose state was just updated?  Either way the `updc` around its state goes away.  First goal:
   b is replaced by a; second goal: the new hypothesis `NE : b <> a`. *)
Ltac upd b a :=
  destruct (Nat.eq_dec b a) as [?EQ|?NE];
  [first [subst b | rewrite EQ in *]; rewrite ?updc_same in * | rewrite ?updc_other in * by assumption].

(* the transitions of actor a as rules: each guard is stated as what it says about the state (that a refused lock
   attempt found the lock taken plays no part and is left out).  A `destruct` on a proof of `moves` names the guards as
   they are named here (PC, Free, Cas, P) and the file f. *)
Inductive moves (c : cfg) (w : cworld) (a : aid) : cworld -> Prop :=
| M_probe (PC : c_pc w a = CIdle) :
    moves c w a (set w a (if isSome (resolve w) then CDone (table_id w) else CProbedNone))
| M_lock (PC : c_pc w a = CProbedNone) (Free : cfree c w = true) :
    moves c w a {| c_ptr := c_ptr w; c_files := c_files w;
                   c_lock := match lockkind c with GrantAll => c_lock w | _ => Some a end;
                   c_creates := c_creates w; c_pc := updc a CLocked (c_pc w) |}
| M_wait : moves c w a w
| M_check (PC : c_pc w a = CLocked) : moves c w a (set w a (if isSome (resolve w) then CExists else CChecked))
| M_write (PC : c_pc w a = CChecked) :
    moves c w a {| c_ptr := c_ptr w; c_files := c_files w ++ [v0 a]; c_lock := c_lock w; c_creates := c_creates w;
                   c_pc := updc a (CWritten (length (c_files w))) (c_pc w) |}
| M_publish f (PC : c_pc w a = CWritten f) (Cas : cas c = true -> c_ptr w = None) :
    moves c w a {| c_ptr := Some f; c_files := c_files w; c_lock := c_lock w; c_creates := c_creates w ++ [a];
                   c_pc := updc a CPointed (c_pc w) |}
| M_refused f (PC : c_pc w a = CWritten f) (Cas : cas c = true) (P : c_ptr w <> None) : moves c w a (set w a (CConflict f))
| M_recheck f (PC : c_pc w a = CConflict f) : moves c w a (set w a (if in_effect w a then CExists else CForeign f))
| M_discard f (PC : c_pc w a = CForeign f) :
    moves c w a {| c_ptr := c_ptr w; c_files := kill f (c_files w); c_lock := c_lock w; c_creates := c_creates w;
                   c_pc := updc a CExists (c_pc w) |}
| M_release (PC : c_pc w a = CPointed \/ c_pc w a = CExists) :
    moves c w a {| c_ptr := c_ptr w; c_files := c_files w; c_lock := release w a; c_creates := c_creates w;
                   c_pc := updc a CReleased (c_pc w) |}
| M_adopt (PC : c_pc w a = CReleased) : moves c w a (set w a (CDone (table_id w))).

Lemma cstep_moves c w e w' : cstep c w e = Some w' -> moves c w (ce_actor e) w'.
Proof.
  unfold cstep. cbv zeta. rewrite conflict_class_eq. intro H.
  (* every pair of event kind and state; those with a transition are left, then each guard is split *)
  destruct (ce_kind e) as [found|[|]|found| |[|]|same| | | ], (c_pc w (ce_actor e)) eqn:PC; try discriminate H;
    repeat match type of H with (if ?b then _ else _) = Some _ => destruct b eqn:B; try discriminate H end;
    injection H as <-; try (apply eqb_prop in B; subst); try (constructor; auto; fail).
  - (* CPtrCreate true at CWritten f *) apply (M_publish c w _ f PC).
    intros CAS. rewrite CAS in B. destruct (c_ptr w); [discriminate | reflexivity].
  - (* CPtrCreate false at CWritten f *)
    destruct (cas c) eqn:CAS, (c_ptr w) eqn:P; try discriminate. apply (M_refused c w _ f PC CAS). congruence.
Qed.

Lemma own_inj c w a b f : CInv c w -> own_of (c_pc w a) = Some f -> own_of (c_pc w b) = Some f -> a = b.
Proof. intros HI A B. apply (CI_own c w HI) in A, B. rewrite A in B. inversion B. reflexivity. Qed.

Lemma excl_others c w a b : CInv c w -> lockkind c = Excl -> inLS (c_pc w a) = true -> b <> a -> inLS (c_pc w b) = false.
Proof.
  intros HI LK A NE. destruct (inLS (c_pc w b)) eqn:B; [|reflexivity]. apply (CI_lock c w HI LK) in A, B. congruence.
Qed.

Lemma conflict_not_excl c w a f : CInv c w -> c_pc w a = CConflict f \/ c_pc w a = CForeign f -> lockkind c <> Excl.
Proof. intros HI X LK. destruct (proj2 (proj2 (CI_excl c w HI LK a)) f) as [C F]. tauto. Qed.

Lemma publish_no_ptr c w a f : sound c -> CInv c w -> c_pc w a = CWritten f -> (cas c = true -> c_ptr w = None) -> c_ptr w = None.
Proof. intros [CAS|EX] HI PC Cas; [apply (Cas CAS) | apply (proj1 (proj2 (CI_excl c w HI EX a)) f PC)]. Qed.

Lemma resolve_none_excl c w : CInv c w -> lockkind c = Excl -> resolve w = None -> c_ptr w = None /\ c_files w = [].
Proof.
  intros HI LK R. unfold resolve in R. destruct (c_ptr w) as [f|] eqn:P.
  - destruct (CI_ptr c w HI f P) as [L _]. rewrite L in R. discriminate.
  - split; [reflexivity|]. destruct (c_files w) as [|m t] eqn:F; [reflexivity|].
    pose proof (recover_none _ R 0 m eq_refl) as D. pose proof (CI_alllive c w HI LK 0 m) as A. rewrite F in A.
    specialize (A eq_refl). congruence.
Qed.

(* what CInv asks, as far as pointer and files go, of the state p that a step of actor a leads to when the step itself
   leaves pointer and files alone: p names no file that a did not hold before *)
Definition claim_ok c w a p : Prop :=
  (forall f, own_of p = Some f -> own_of (c_pc w a) = Some f)
  /\ (forall f, p = CConflict f \/ p = CForeign f -> c_ptr w <> None)
  /\ (lockkind c = Excl -> (p = CChecked -> c_ptr w = None /\ c_files w = [])
                           /\ (forall f, p = CWritten f -> c_ptr w = None /\ c_files w = [v0 a])
                           /\ (forall f, p <> CConflict f /\ p <> CForeign f)).

(* states that say nothing about storage *)
Definition quiet (p : cpc) : bool := match p with CChecked | CWritten _ | CConflict _ | CForeign _ => false | _ => true end.

Lemma quiet_claim c w a p : quiet p = true -> claim_ok c w a p.
Proof.
  (* for each of the seven quiet states every clause of claim_ok has a premise that names another constructor *)
  intro Q. destruct p; try discriminate Q; (split; [discriminate|]); (split; [intros f [X|X]; discriminate|]);
    repeat split; discriminate.
Qed.

Lemma loser_claim c w a p : own_of p = own_of (c_pc w a) -> c_ptr w <> None -> lockkind c <> Excl -> claim_ok c w a p.
Proof. intros O P NEX. split; [intros f X; congruence|]. split; [auto | contradiction]. Qed.

(* the three clauses of CI_excl hold vacuously of an actor outside Lock..Release; A and B stand for the conclusions of
   the first two *)
Lemma notLS_fields p (A : Prop) (B : nat -> Prop) : inLS p = false ->
  (p = CChecked -> A) /\ (forall f, p = CWritten f -> B f) /\ (forall f, p <> CConflict f /\ p <> CForeign f).
Proof. intro X. destruct p; try discriminate; repeat split; intros; discriminate. Qed.

Lemma lock_frame c w a p : CInv c w -> inLS p = inLS (c_pc w a) ->
  (lockkind c = Excl -> forall b, inLS (updc a p (c_pc w) b) = true -> c_lock w = Some b)
  /\ (forall b, c_lock w = Some b -> inLS (updc a p (c_pc w) b) = true).
Proof.
  intros HI E. split.
  - intros LK b X. apply (CI_lock c w HI LK). upd b a; [rewrite <- E|]; exact X.
  - intros b X. apply (CI_held c w HI) in X. upd b a; [rewrite E|]; exact X.
Qed.

Lemma upd_inv c w a p l : CInv c w -> claim_ok c w a p ->
  (lockkind c = Excl -> forall b, inLS (updc a p (c_pc w) b) = true -> l = Some b) ->
  (forall b, l = Some b -> inLS (updc a p (c_pc w) b) = true) ->
  CInv c {| c_ptr := c_ptr w; c_files := c_files w; c_lock := l; c_creates := c_creates w; c_pc := updc a p (c_pc w) |}.
Proof.
  intros HI [Ho [Hc He]] Hl Hh. constructor; simpl.
  - (* CI_own *) intros b f O. upd b a; [apply Ho in O|]; apply (CI_own c w HI _ f O).
  - (* CI_ptr *)
    intros f P. destruct (CI_ptr c w HI f P) as [L N]. split; [exact L|]. intros b O. upd b a; [apply Ho in O|]; apply (N _ O).
  - (* CI_creates *) exact (CI_creates c w HI).
  - (* CI_conf *) intros b f X. upd b a; [apply (Hc f X) | apply (CI_conf c w HI b f X)].
  - (* CI_lock *) exact Hl.
  - (* CI_held *) exact Hh.
  - (* CI_excl *) intros LK b. upd b a; [apply He; exact LK | apply (CI_excl c w HI LK b)].
  - (* CI_alllive *) exact (CI_alllive c w HI).
Qed.

Lemma set_inv c w a p : CInv c w -> claim_ok c w a p -> inLS p = inLS (c_pc w a) -> CInv c (set w a p).
Proof. intros HI Hp E. destruct (lock_frame c w a p HI E) as [Hl Hh]. apply upd_inv; assumption. Qed.

Lemma release_some w a b : release w a = Some b -> c_lock w = Some b /\ b <> a.
Proof.
  unfold release. destruct (c_lock w) as [l|]; [|discriminate]. destruct (Nat.eqb_spec a l); [discriminate|].
  intro X. inversion X; subst l. auto.
Qed.

Lemma moves_inv c w a w' : sound c -> CInv c w -> moves c w a w' -> CInv c w'.
Proof.
  intros Snd HI H. destruct H.
  - (* M_probe *)
    apply set_inv; [exact HI | | rewrite PC; destruct (isSome (resolve w)); reflexivity].
    apply quiet_claim. destruct (isSome (resolve w)); reflexivity.
  - (* M_lock: the lock was free, so under the exclusive lock nobody else is inside *)
    unfold cfree in Free. apply upd_inv; [exact HI | apply quiet_claim; reflexivity | |].
    + (* CI_lock *)
      intros LK b X. rewrite LK in *. upd b a; [reflexivity|]. rewrite (CI_lock c w HI LK b X) in Free. discriminate.
    + (* CI_held *)
      intros b X. upd b a; [reflexivity|]. destruct (lockkind c).
      * (* Excl: the lock is a's now *) congruence.
      * (* Lease: likewise *) congruence.
      * (* GrantAll: the lock is as it was *) apply (CI_held c w HI b X).
  - (* M_wait *) exact HI.
  - (* M_check: under the exclusive lock, finding nothing means nothing is there *)
    apply set_inv; [exact HI | | rewrite PC; destruct (isSome (resolve w)); reflexivity].
    destruct (resolve w) eqn:R; [apply quiet_claim; reflexivity|]. split; [discriminate|]. split; [intros f [X|X]; discriminate|].
    intro LK. split; [intros _; apply (resolve_none_excl c w HI LK R) | split; [discriminate | split; discriminate]].
  - (* M_write *)
    destruct (lock_frame c w a (CWritten (length (c_files w))) HI) as [Lk Hd]; [rewrite PC; reflexivity|].
    constructor; simpl.
    + (* CI_own: a holds the new last file, the others' files are where they were *)
      intros b f O. upd b a; [|apply nth_error_app_old, (CI_own c w HI b f O)].
      inversion O. apply (ListFacts.nth_error_middle _ _ []).
    + (* CI_ptr: the pointer's file existed before, so it is not the new one *)
      intros f P. destruct (CI_ptr c w HI f P) as [L N]. apply live_nth in L. destruct L as [m [Nf Lm]]. split.
      * apply live_nth. exists m. split; [apply nth_error_app_old|]; assumption.
      * intros b O. upd b a; [|apply (N b O)]. inversion O; subst f.
        assert (length (c_files w) < length (c_files w)) by (apply nth_error_Some; congruence). lia.
    + (* CI_creates *) exact (CI_creates c w HI).
    + (* CI_conf *) intros b f X. upd b a; [destruct X; discriminate | apply (CI_conf c w HI b f X)].
    + (* CI_lock *) exact Lk.
    + (* CI_held *) exact Hd.
    + (* CI_excl: a checked an empty table; nobody else is inside *)
      intros LK b. upd b a.
      * destruct (proj1 (CI_excl c w HI LK a) PC) as [P F]. rewrite F. repeat split; auto; discriminate.
      * apply notLS_fields, (excl_others c w a b HI LK); [rewrite PC; reflexivity | exact NE].
    + (* CI_alllive *)
      intros LK g m N. apply nth_error_app_inv in N. destruct N as [N|[_ ->]]; [apply (CI_alllive c w HI LK g m N) | reflexivity].
  - (* M_publish *)
    pose proof (publish_no_ptr c w a f Snd HI PC Cas) as PN.
    destruct (lock_frame c w a CPointed HI) as [Lk Hd]; [rewrite PC; reflexivity|].
    constructor; simpl.
    + (* CI_own *) intros b g O. upd b a; [discriminate | apply (CI_own c w HI b g O)].
    + (* CI_ptr: the pointer's file is a's v0, which nobody else holds, and a has let go of it *)
      intros g P. inversion P; subst g. split.
      * apply live_nth. exists (v0 a). split; [apply (CI_own c w HI a f); rewrite PC|]; reflexivity.
      * intros b O. upd b a; [discriminate|]. apply NE, (own_inj c w b a f HI O). rewrite PC. reflexivity.
    + (* CI_creates: there was no pointer, so this is the first creation *)
      split; [discriminate|]. rewrite (proj1 (CI_creates c w HI) PN). apply le_n.
    + (* CI_conf *) discriminate.
    + (* CI_lock *) exact Lk.
    + (* CI_held *) exact Hd.
    + (* CI_excl: nobody else is inside *)
      intros LK b. upd b a; [repeat split; discriminate|].
      apply notLS_fields, (excl_others c w a b HI LK); [rewrite PC; reflexivity | exact NE].
    + (* CI_alllive *) exact (CI_alllive c w HI).
  - (* M_refused: under the exclusive lock there is no pointer yet *)
    apply set_inv; [exact HI | | rewrite PC; reflexivity].
    apply loser_claim; [rewrite PC; reflexivity | exact P|].
    intro LK. apply P, (proj1 (proj2 (CI_excl c w HI LK a)) f PC).
  - (* M_recheck *)
    apply set_inv; [exact HI | | rewrite PC; destruct (in_effect w a); reflexivity].
    destruct (in_effect w a); [apply quiet_claim; reflexivity|].
    apply loser_claim; [rewrite PC; reflexivity | apply (CI_conf c w HI a f); auto | apply (conflict_not_excl c w a f HI); auto].
  - (* M_discard: not under the exclusive lock *)
    assert (NEX : lockkind c <> Excl) by (apply (conflict_not_excl c w a f HI); auto).
    destruct (lock_frame c w a CExists HI) as [Lk Hd]; [rewrite PC; reflexivity|].
    constructor; simpl.
    + (* CI_own: the removed file was a's, the others hold other files *)
      intros b g O. upd b a; [discriminate|]. rewrite kill_nth_other; [apply (CI_own c w HI b g O)|].
      intro E. subst g. apply NE, (own_inj c w b a f HI O). rewrite PC. reflexivity.
    + (* CI_ptr: the pointer's file is held by nobody, so it is not the removed one *)
      intros g P. destruct (CI_ptr c w HI g P) as [L N].
      assert (g <> f) by (intro E; subst g; apply (N a); rewrite PC; reflexivity).
      split; [unfold live in *; simpl; rewrite kill_nth_other by assumption; exact L|].
      intros b O. upd b a; [discriminate | apply (N b O)].
    + (* CI_creates *) exact (CI_creates c w HI).
    + (* CI_conf *) intros b g X. upd b a; [destruct X; discriminate | apply (CI_conf c w HI b g X)].
    + (* CI_lock *) exact Lk.
    + (* CI_held *) exact Hd.
    + (* CI_excl *) intro LK. contradiction.
    + (* CI_alllive *) intro LK. contradiction.
  - (* M_release: under the exclusive lock nobody else was inside *)
    assert (A : inLS (c_pc w a) = true) by (destruct PC as [-> | ->]; reflexivity).
    apply upd_inv; [exact HI | apply quiet_claim; reflexivity | |].
    + (* CI_lock *)
      intros LK b X. upd b a; [discriminate|]. rewrite (excl_others c w a b HI LK A NE) in X. discriminate.
    + (* CI_held *)
      intros b X. apply release_some in X. destruct X as [L NE]. rewrite updc_other by exact NE. apply (CI_held c w HI b L).
  - (* M_adopt *) apply set_inv; [exact HI | apply quiet_claim; reflexivity | rewrite PC; reflexivity].
Qed.

Lemma crun_app c w l1 l2 : crun c w (l1 ++ l2) = crun c (crun c w l1) l2.
Proof. apply fold_left_app. Qed.

Lemma crun_ind c (P : cworld -> Prop) : (forall w a w', P w -> moves c w a w' -> P w') ->
  forall evs w, P w -> P (crun c w evs).
Proof.
  intro St. apply (ListFacts.run_skip_preserves _ _ (cstep c) P).
  intros w e w' Pw H. apply (St w (ce_actor e) w' Pw), cstep_moves, H.
Qed.

Lemma crun_inv c w evs : sound c -> CInv c w -> CInv c (crun c w evs).
Proof. intros Snd. apply crun_ind. intros w0 a w1. apply (moves_inv c w0 a w1 Snd). Qed.

Lemma absent_inv c : CInv c absent.
Proof.
  (* nobody holds a file, there is no pointer, nobody is inside: CI_own, CI_ptr, CI_lock, CI_held have no instance *)
  constructor; simpl; try discriminate.
  - (* CI_creates *) split; [auto|lia].
  - (* CI_conf *) intros a f [X|X]; discriminate.
  - (* CI_excl *) intros _ a. repeat split; discriminate.
  - (* CI_alllive *) intros _ [|g] m; discriminate.
Qed.

Lemma chain_nth_error owner n g :
  nth_error (chain owner n) g = if g <=? n then Some {| f_id := owner; f_ver := g; f_live := true |} else None.
Proof.
  unfold chain. rewrite nth_error_map. destruct (Nat.leb_spec g n).
  - rewrite (nth_error_nth' _ 0), seq_nth by (rewrite ?seq_length; lia). reflexivity.
  - rewrite (proj2 (nth_error_None _ _)) by (rewrite seq_length; lia). reflexivity.
Qed.

Lemma chain_live owner n g m : nth_error (chain owner n) g = Some m -> f_id m = owner /\ f_live m = true.
Proof. rewrite chain_nth_error. destruct (g <=? n); [|discriminate]. intro E. inversion E. auto. Qed.

(* the hypothesis CInv of C18_pointer_stable and C18_same_table_published holds of an existing table *)
Lemma existing_inv c owner n lost : CInv c (existing_n owner n lost).
Proof.
  (* nobody holds a file, nobody is inside: CI_own, CI_lock, CI_held have no instance *)
  constructor; simpl; try discriminate.
  - (* CI_ptr *) intros f P. split; [|discriminate]. destruct lost; inversion P; subst f. unfold live. simpl.
    rewrite chain_nth_error, Nat.leb_refl. reflexivity.
  - (* CI_creates *) split; [auto|lia].
  - (* CI_conf *) intros a f [X|X]; discriminate.
  - (* CI_excl *) intros _ a. repeat split; discriminate.
  - (* CI_alllive *) intros _ g m N. apply (chain_live owner n g m N).
Qed.

Lemma moves_ptr_stable c w a w' g : sound c -> CInv c w -> moves c w a w' -> c_ptr w = Some g -> c_ptr w' = Some g.
Proof.
  intros Snd HI H P. destruct H; try exact P.
  (* M_publish with a pointer already present: impossible *)
  rewrite (publish_no_ptr c w a f Snd HI PC Cas) in P. discriminate.
Qed.

Lemma moves_identity c w a w' : moves c w a w' -> forall g u, identity w g = Some u -> identity w' g = Some u.
Proof.
  intros H g u X. destruct H; try exact X; unfold identity in *; simpl.
  - (* M_write *) destruct (nth_error (c_files w) g) eqn:N; [|discriminate]. rewrite (nth_error_app_old _ _ _ _ N). exact X.
  - (* M_discard *)
    destruct (nth_error (c_files w) g) as [m|] eqn:N; [|discriminate]. destruct (Nat.eq_dec g f) as [->|NE].
    + rewrite kill_nth_same, N. exact X.
    + rewrite kill_nth_other by exact NE. rewrite N. exact X.
Qed.

Lemma moves_returns c w a w' b x : moves c w a w' -> c_pc w' b = CDone x -> c_pc w b = CDone x \/ table_id w = x.
Proof.
  intros H D. destruct (Nat.eq_dec b a) as [->|NE].
  - (* a itself: M_wait changes nothing; the rules not listed leave a in a state other than CDone *)
    destruct H; simpl in D; rewrite ?updc_same in D; auto; try discriminate D.
    + (* M_probe *) destruct (isSome (resolve w)); inversion D. auto.
    + (* M_check *) destruct (isSome (resolve w)); discriminate.
    + (* M_recheck *) destruct (in_effect w a); discriminate.
    + (* M_adopt *) inversion D. auto.
  - (* a bystander keeps its state *)
    left. destruct H; simpl in D; rewrite ?updc_other in D by exact NE; exact D.
Qed.

Lemma returns_on c (P : cworld -> Prop) u :
  (forall w a w', P w -> moves c w a w' -> P w') -> (forall w, P w -> table_id w = Some u) ->
  forall w1 evs, P w1 ->
  P (crun c w1 evs) /\ forall a x, c_pc (crun c w1 evs) a = CDone x -> c_pc w1 a = CDone x \/ x = Some u.
Proof.
  intros St T w1 evs P1.
  apply (crun_ind c (fun w => P w /\ forall a x, c_pc w a = CDone x -> c_pc w1 a = CDone x \/ x = Some u)); [|auto].
  intros w b w' [Pw A] H. split; [apply (St w b w' Pw H)|]. intros a x D.
  destruct (moves_returns c w b w' a x H D) as [X| <-]; [apply (A a x X) | right; apply (T w Pw)].
Qed.

Definition published c f u (w : cworld) : Prop := CInv c w /\ c_ptr w = Some f /\ identity w f = Some u.

Lemma published_step c f u w a w' : sound c -> published c f u w -> moves c w a w' -> published c f u w'.
Proof.
  intros Snd [HI [P Id]] H.
  split; [eapply moves_inv; eauto|]. split; [eapply moves_ptr_stable; eauto | eapply moves_identity; eauto].
Qed.

Lemma published_table_id c f u w : published c f u w -> table_id w = Some u.
Proof. intros [HI [P Id]]. destruct (CI_ptr c w HI f P) as [L _]. unfold table_id, resolve. rewrite P, L. exact Id. Qed.

Definition one_identity (owner : aid) (l : list mfile) : Prop :=
  (forall g m, nth_error l g = Some m -> f_live m = true -> f_id m = owner)
  /\ (exists g m, nth_error l g = Some m /\ f_live m = true).

Lemma table_id_owner owner w : one_identity owner (c_files w) -> table_id w = Some owner.
Proof.
  intros [A [g [m [N L]]]]. unfold table_id. destruct (resolve w) as [f|] eqn:R.
  - apply resolve_live, live_nth in R. destruct R as [x [Nx Lx]].
    unfold identity. rewrite Nx. simpl. f_equal. apply (A f x Nx Lx).
  - apply resolve_none in R. rewrite (recover_none _ R g m N) in L. discriminate.
Qed.

Lemma table_id_files w u : table_id w = Some u -> c_files w <> [].
Proof.
  unfold table_id, identity. destruct (resolve w) as [f|]; [|discriminate]. destruct (c_files w); [destruct f; discriminate | discriminate].
Qed.

Definition settled (w : cworld) : Prop := forall a, at_rest (c_pc w a) = true.

Lemma moves_settled c w a w' u : settled w -> table_id w = Some u -> moves c w a w' ->
  w' = w \/ w' = set w a (CDone (Some u)).
Proof.
  intros St T H. pose proof (St a) as Rest. destruct H; auto; try (rewrite PC in Rest; discriminate Rest).
  - (* M_probe *) rewrite T. unfold table_id in T. destruct (resolve w); [auto | discriminate].
  - (* M_release *) destruct PC as [PC|PC]; rewrite PC in Rest; discriminate.
Qed.

Definition untouched (w0 w : cworld) : Prop :=
  c_files w = c_files w0 /\ c_ptr w = c_ptr w0 /\ c_creates w = c_creates w0 /\ settled w.

Lemma untouched_table_id owner w0 w : one_identity owner (c_files w0) -> untouched w0 w -> table_id w = Some owner.
Proof. intros OI [F _]. apply table_id_owner. rewrite F. exact OI. Qed.

Lemma untouched_step c owner w0 w a w' : one_identity owner (c_files w0) -> untouched w0 w -> moves c w a w' -> untouched w0 w'.
Proof.
  intros OI U H.
  destruct (moves_settled c w a w' owner (proj2 (proj2 (proj2 U))) (untouched_table_id owner w0 w OI U) H) as [-> | ->]; [exact U|].
  destruct U as [F [P [C St]]]. repeat split; auto. intro b. simpl. upd b a; [reflexivity | apply St].
Qed.

Lemma chain_one_identity owner n : one_identity owner (chain owner n).
Proof.
  split.
  - intros g m N _. apply (chain_live owner n g m N).
  - exists n. eexists. rewrite chain_nth_error, Nat.leb_refl. split; reflexivity.
Qed.

(* the states after a successful pointer creation *)
Definition past (p : cpc) : bool := match p with CPointed | CReleased | CDone _ => true | _ => false end.

(* What holds in addition in a race from the absent table.
   R_orphan  every file on storage is the pointer's or still held by its writer (a loser has removed its own before it
             returns): at rest only the pointer's file is left (settled_orphan, C18_race_leaves_one_table)
   R_creator the pointer's file is the one creator's (C18_exactly_one_init), who is past its pointer creation: a refused
             creator's Recheck never finds its own table in effect
   R_nodead  without a pointer nothing has been removed: at rest, files without a pointer are impossible (settled_files_ptr) *)
Record RInv (w : cworld) : Prop := {
  R_orphan : forall g m, nth_error (c_files w) g = Some m -> f_live m = true ->
             c_ptr w = Some g \/ own_of (c_pc w (f_id m)) = Some g;
  R_creator : forall f, c_ptr w = Some f ->
              exists u, identity w f = Some u /\ c_creates w = [u] /\ past (c_pc w u) = true;
  R_nodead : c_ptr w = None -> forall g m, nth_error (c_files w) g = Some m -> f_live m = true }.

Lemma absent_rinv : RInv absent.
Proof.
  constructor; simpl.
  - (* R_orphan: there is no file *) intros [|g] m N; discriminate N.
  - (* R_creator: there is no pointer *) discriminate.
  - (* R_nodead: there is no file *) intros _ [|g] m N; discriminate N.
Qed.

(* RInv does not look at the lock: l is arbitrary *)
Lemma upd_rinv w a p l : RInv w ->
  own_of p = own_of (c_pc w a) -> (past (c_pc w a) = true -> past p = true) ->
  RInv {| c_ptr := c_ptr w; c_files := c_files w; c_lock := l; c_creates := c_creates w; c_pc := updc a p (c_pc w) |}.
Proof.
  intros R Ho Hp. constructor; simpl.
  - (* R_orphan *)
    intros g m N L. destruct (R_orphan w R g m N L) as [X|X]; [auto|]. right. upd (f_id m) a; [congruence | exact X].
  - (* R_creator *)
    intros f P. destruct (R_creator w R f P) as [u [Id [C Pa]]]. exists u. split; [exact Id|]. split; [exact C|].
    upd u a; [auto | exact Pa].
  - (* R_nodead *) exact (R_nodead w R).
Qed.

Lemma moves_rinv c w a w' : sound c -> CInv c w -> RInv w -> moves c w a w' -> RInv w'.
Proof.
  intros Snd HI R H.
  (* for R_creator where a file is written or removed: the pointer's file keeps its identity *)
  pose proof (moves_identity c w a w' H) as Idn. destruct H.
  - (* M_probe *)
    apply upd_rinv; [exact R | rewrite PC; destruct (isSome (resolve w)); reflexivity | rewrite PC; discriminate].
  - (* M_lock *) apply upd_rinv; [exact R | rewrite PC; reflexivity | rewrite PC; discriminate].
  - (* M_wait *) exact R.
  - (* M_check *)
    apply upd_rinv; [exact R | rewrite PC; destruct (isSome (resolve w)); reflexivity | rewrite PC; discriminate].
  - (* M_write *)
    constructor; simpl.
    + (* R_orphan *) intros g m N L. apply nth_error_app_inv in N. destruct N as [N|[-> ->]].
      * destruct (R_orphan w R g m N L) as [X|X]; [auto|]. right. upd (f_id m) a; [rewrite PC in X; discriminate | exact X].
      * right. simpl. rewrite updc_same. reflexivity.
    + (* R_creator *) intros g P. destruct (R_creator w R g P) as [u [Id [C Pa]]]. exists u. split; [apply Idn, Id|]. split; [exact C|].
      upd u a; [rewrite PC in Pa; discriminate | exact Pa].
    + (* R_nodead *) intros P g m N. apply nth_error_app_inv in N. destruct N as [N|[_ ->]]; [apply (R_nodead w R P g m N) | reflexivity].
  - (* M_publish *)
    pose proof (publish_no_ptr c w a f Snd HI PC Cas) as PN.
    rewrite (proj1 (CI_creates c w HI) PN). constructor; simpl.
    + (* R_orphan *) intros g m N L. destruct (R_orphan w R g m N L) as [X|X]; [congruence|].
      upd (f_id m) a; [rewrite PC in X; inversion X; auto | auto].
    + (* R_creator *)
      intros g P. inversion P; subst g. exists a. unfold identity. simpl. rewrite (CI_own c w HI a f) by (rewrite PC; reflexivity).
      rewrite updc_same. repeat split; reflexivity.
    + (* R_nodead *) discriminate.
  - (* M_refused *)
    apply upd_rinv; [exact R | rewrite PC; reflexivity | rewrite PC; discriminate].
  - (* M_recheck: the pointer's file is its creator's, who is past creation; a is not, so the table in effect is not a's *)
    assert (NS : in_effect w a = false).
    { destruct (c_ptr w) as [g|] eqn:P; [|exfalso; apply (CI_conf c w HI a f); auto].
      destruct (R_creator w R g P) as [u [Id [_ Pa]]].
      unfold in_effect. rewrite (published_table_id c g u w (conj HI (conj P Id))).
      destruct (Nat.eqb_spec u a) as [->|NE]; [|reflexivity]. rewrite PC in Pa. discriminate. }
    rewrite NS. apply upd_rinv; [exact R | rewrite PC; reflexivity | rewrite PC; discriminate].
  - (* M_discard *)
    constructor; simpl.
    + (* R_orphan *) intros g m N L. destruct (kill_nth_live _ _ _ _ N L) as [NE N0].
      destruct (R_orphan w R g m N0 L) as [X|X]; [auto|]. right.
      upd (f_id m) a; [rewrite PC in X; inversion X; congruence | exact X].
    + (* R_creator *) intros g P. destruct (R_creator w R g P) as [u [Id [C Pa]]]. exists u. split; [apply Idn, Id|]. split; [exact C|].
      upd u a; [rewrite PC in Pa; discriminate | exact Pa].
    + (* R_nodead *) intro P. exfalso. apply (CI_conf c w HI a f); auto.
  - (* M_release *) apply upd_rinv; [exact R | destruct PC as [-> | ->]; reflexivity | reflexivity].
  - (* M_adopt *) apply upd_rinv; [exact R | rewrite PC; reflexivity | reflexivity].
Qed.

Lemma moves_files_nonempty c w a w' : moves c w a w' -> c_files w <> [] -> c_files w' <> [].
Proof.
  intros H F. destruct H; try exact F; simpl.
  - (* M_write *) destruct (c_files w); discriminate.
  - (* M_discard *) destruct (c_files w); [contradiction | destruct f; discriminate].
Qed.

(* a caller that returned on a table left a metadata file behind it: files are never forgotten *)
Lemma returned_files c evs a u : c_pc (crun c absent evs) a = CDone (Some u) -> c_files (crun c absent evs) <> [].
Proof.
  revert a u. apply (crun_ind c (fun w => forall a u, c_pc w a = CDone (Some u) -> c_files w <> [])); [|discriminate].
  intros w b w' A H a u D. apply (moves_files_nonempty c w b w' H).
  destruct (moves_returns c w b w' a (Some u) H D) as [X|X]; [apply (A a u X) | apply (table_id_files w u X)].
Qed.

Lemma crun_rinv c evs : sound c -> CInv c (crun c absent evs) /\ RInv (crun c absent evs).
Proof.
  intro Snd. apply (crun_ind c (fun w => CInv c w /\ RInv w)).
  - intros w a w' [HI R] H. split; [eapply moves_inv; eauto | eapply moves_rinv; eauto].
  - split; [apply absent_inv | apply absent_rinv].
Qed.

Lemma settled_orphan w g m : RInv w -> settled w -> nth_error (c_files w) g = Some m -> f_live m = true -> c_ptr w = Some g.
Proof.
  intros R St N L. destruct (R_orphan w R g m N L) as [X|X]; [exact X|].
  specialize (St (f_id m)). destruct (c_pc w (f_id m)); discriminate.
Qed.

Lemma settled_unlocked c w : CInv c w -> settled w -> c_lock w = None.
Proof.
  intros HI St. destruct (c_lock w) as [a|] eqn:L; [|reflexivity]. pose proof (CI_held c w HI a L) as X. specialize (St a).
  destruct (c_pc w a); discriminate.
Qed.

Lemma one_live_identity w f u : live w f = true -> (forall g, live w g = true -> g = f) -> identity w f = Some u ->
  one_identity u (c_files w).
Proof.
  intros L U Id. apply live_nth in L. destruct L as [m [N Lm]]. split; [|eauto].
  intros g x Ng Lx. assert (g = f) by (apply U, live_nth; eauto). subst g.
  unfold identity in Id. rewrite N in *. inversion Ng; subst x. inversion Id. reflexivity.
Qed.

Lemma sole_file w f : RInv w -> settled w -> c_ptr w = Some f -> forall g, live w g = true -> g = f.
Proof.
  intros R St P g L. apply live_nth in L. destruct L as [m [N L]]. pose proof (settled_orphan w g m R St N L). congruence.
Qed.

Lemma sole_recover w f : live w f = true -> (forall g, live w g = true -> g = f) -> recover (c_files w) = Some f.
Proof. intros L U. apply recover_only; [|apply live_nth, L]. intros g m N Lm. apply U, live_nth. eauto. Qed.

(* without a pointer nothing was ever removed (R_nodead) and every file is still held (R_orphan): not at rest *)
Lemma settled_files_ptr w : RInv w -> settled w -> c_files w <> [] -> c_ptr w <> None.
Proof.
  intros R St F P. destruct (c_files w) as [|m t] eqn:Fl; [contradiction|].
  assert (N : nth_error (c_files w) 0 = Some m) by (rewrite Fl; reflexivity).
  rewrite (settled_orphan w 0 m R St N (R_nodead w R P 0 m N)) in P. discriminate.
Qed.

(* a second metadata file is never written, and the pointer is created on the file recovery finds anyway *)
Lemma moves_table_id_excl c w a w' u : lockkind c = Excl -> CInv c w -> moves c w a w' ->
  table_id w = Some u -> table_id w' = Some u.
Proof.
  intros LK HI H T. destruct H; try exact T.
  - (* M_write *) destruct (proj1 (CI_excl c w HI LK a) PC) as [_ F]. destruct (table_id_files w u T F).
  - (* M_publish *)
    destruct (proj1 (proj2 (CI_excl c w HI LK a)) f PC) as [P F].
    pose proof (CI_own c w HI a f) as Of. rewrite PC in Of. specialize (Of eq_refl).
    unfold table_id, resolve, identity, live in *. simpl. rewrite P, F in *.
    destruct f as [|[|f]]; try discriminate Of. exact T.
  - (* M_discard *) destruct (conflict_not_excl c w a f HI); auto.
Qed.

(* all callers that returned saw one identity, whatever the lock: false (Props/C18.v C18_same_table_full_refuted) *)
Definition same_table_full : Prop := forall c evs, sound c ->
  let w := crun c absent evs in
  forall a b u u', c_pc w a = CDone (Some u) -> c_pc w b = CDone (Some u') -> u = u'.

Definition cev a k := {| ce_actor := a; ce_kind := k |}.
Definition solo_events (a : aid) : list cevent :=
  {| ce_actor := a; ce_kind := CProbe false |}
  :: map (fun k => {| ce_actor := a; ce_kind := k |}) creator_events ++ [{| ce_actor := a; ce_kind := CAdopt |}].

Lemma crun_strict_step c w e w' evs i : cstep c w e = Some w' -> crun_strict c w (e :: evs) i = crun_strict c w' evs (S i).
Proof. intro H. simpl. rewrite H. reflexivity. Qed.

Lemma cfree_unlocked c w : c_lock w = None -> cfree c w = true.
Proof. unfold cfree. intros ->. destruct (lockkind c); reflexivity. Qed.

Lemma solo_run c a : exists w', crun_strict c absent (solo_events a) 0 = inl w' /\ c_creates w' = [a] /\ c_pc w' a = CDone (Some a)
                   /\ c_ptr w' = Some 0 /\ map f_id (c_files w') = [a].
Proof.
  unfold solo_events, creator_events, map, app.
  (* every event of the script is enabled: the actor stands where its last event left it, the lock is free, there is
     no pointer *)
  repeat (erewrite crun_strict_step
            by (unfold cstep; cbn; rewrite ?updc_same, ?cfree_unlocked by reflexivity; destruct (cas c); reflexivity)).
  eexists. split; [reflexivity|]. cbn. rewrite updc_same. repeat split; reflexivity.
Qed.
