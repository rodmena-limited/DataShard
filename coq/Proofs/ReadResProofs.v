(* Proofs/ReadResProofs.v -- the facts about the CODE that C02 rests on.
   (1) What the counts regenerated into Gen/GenReadRes.v say.  Every lemma is a computation on the regenerated values:
   after a library change that makes a read API resolve the pointer more than once, or a transaction attempt reach the
   commit protocol more than once, this file stops compiling and the C02 theorems that cite it are reported as unproved.
   (2) What one attempt of Transaction.commit hands to the commit protocol is the WHOLE operation queue: every appended
   file, every path to delete, the largest cutoff -- and nothing else.  Over the regenerated partition (Gen/GenFileOps.v
   gen_partition); that every attempt of the retry loop recomputes it from the unchanged queue and that nothing edits the
   result afterwards are two facts counted on the source (gen_partition_per_attempt, gen_partition_args_kept). *)
From Coq Require Import List String Arith Bool.
Require Import DS.Gen.GenReadRes.
Import ListNotations.
Local Open Scope string_scope.

(* the greatest number of pointer resolutions any read API makes in one call *)
Definition read_budget : nat := fold_right Nat.max 0%nat (map (fun p => snd (snd p)) read_api_resolutions).

Lemma read_budget_one : read_budget = 1%nat.
Proof. reflexivity. Qed.

Lemma read_apis_covered :
  map fst read_api_resolutions = ["scan"; "to_pandas"; "scan_batches"; "iter_records"; "iter_pandas"; "row_count"].
Proof. reflexivity. Qed.

Lemma every_read_api_resolves_once : forall api lo hi,
  In (api, (lo, hi)) read_api_resolutions -> lo = 1%nat /\ hi = 1%nat.
Proof.
  intros api lo hi H.
  assert (F : forallb (fun p => Nat.eqb (fst (snd p)) 1 && Nat.eqb (snd (snd p)) 1) read_api_resolutions = true) by reflexivity.
  rewrite forallb_forall in F. specialize (F _ H). simpl in F.
  apply andb_prop in F. destruct F as [A B]. apply Nat.eqb_eq in A. apply Nat.eqb_eq in B. auto.
Qed.

Lemma txn_one_commit_per_attempt : txn_commits_per_attempt = (1, 1)%nat.
Proof. reflexivity. Qed.

Lemma delete_snapshot_at_most_one_commit : snd delete_snapshot_commits = 1%nat.
Proof. reflexivity. Qed.

(* Part (2).  Its imports and Z_scope start here, so that the statements of part (1) read as they do without them. *)
From Coq Require Import ZArith Lia.
Require Import DS.Model.Meta DS.Gen.GenFileOps DS.Proofs.FileOpsGenProofs.
Local Open Scope Z_scope.

Lemma tx_adds_spec ops f : In f (tx_adds ops) <-> exists fs, In (TAppend fs) ops /\ In f fs.
Proof.
  unfold tx_adds. rewrite in_flat_map. split.
  - intros [o [Ho Hf]]. destruct o as [fs|ps|c]; try contradiction. exists fs. split; assumption.
  - intros [fs [Ho Hf]]. exists (TAppend fs). split; assumption.
Qed.

Lemma tx_dels_spec ops p : In p (tx_dels ops) <-> exists ps, In (TDelete ps) ops /\ In p ps.
Proof.
  unfold tx_dels. rewrite in_flat_map. split.
  - intros [o [Ho Hf]]. destruct o as [fs|ps|c]; try contradiction. exists ps. split; assumption.
  - intros [ps [Ho Hf]]. exists (TDelete ps). split; assumption.
Qed.

(* the function Meta.tx_expire folds over the queue, from None *)
Definition expire_step (acc : option Z) (o : txop) : option Z :=
  match o with TExpire c => Some (match acc with None => c | Some a => Z.max a c end) | _ => acc end.

Lemma expire_fold_ge ops : forall a, exists e, fold_left expire_step ops (Some a) = Some e /\ a <= e.
Proof.
  induction ops as [|o ops IH]; intro a; cbn [fold_left].
  - exists a. split; [reflexivity | lia].
  - destruct o as [fs|ps|c]; cbn [expire_step]; try apply IH.
    destruct (IH (Z.max a c)) as [e [He Hle]]. exists e. split; [exact He | lia].
Qed.

Lemma expire_fold_covers ops : forall acc c, In (TExpire c) ops -> exists e, fold_left expire_step ops acc = Some e /\ c <= e.
Proof.
  induction ops as [|o ops IH]; intros acc c Hin; [contradiction|]. cbn [fold_left].
  destruct Hin as [-> | Hin]; [|apply IH; exact Hin].
  cbn [expire_step]. destruct acc as [a|].
  - destruct (expire_fold_ge ops (Z.max a c)) as [e [He Hle]]. exists e. split; [exact He | lia].
  - apply expire_fold_ge.
Qed.

Lemma expire_fold_none ops : (forall c, ~ In (TExpire c) ops) -> fold_left expire_step ops None = None.
Proof.
  induction ops as [|o ops IH]; intros H; [reflexivity|]. cbn [fold_left].
  destruct o as [fs|ps|c]; cbn [expire_step].
  - apply IH. intros c Hc. apply (H c). right. exact Hc.
  - apply IH. intros c Hc. apply (H c). right. exact Hc.
  - exfalso. apply (H c). left. reflexivity.
Qed.

Lemma partition_whole_queue ops :
  let '(a, d, e) := gen_partition ops in
  (forall f, In f a <-> exists fs, In (TAppend fs) ops /\ In f fs)
  /\ (forall p, In p d <-> exists ps, In (TDelete ps) ops /\ In p ps)
  /\ (forall c, In (TExpire c) ops -> exists e', e = Some e' /\ c <= e')
  /\ ((forall c, ~ In (TExpire c) ops) -> e = None).
Proof.
  rewrite gen_partition_agrees.
  split; [intro f; apply tx_adds_spec|]. split; [intro p; apply tx_dels_spec|].
  split; [intros c Hc; apply (expire_fold_covers ops None c Hc) | apply expire_fold_none].
Qed.

Lemma attempt_facts_hold : gen_partition_per_attempt = true /\ gen_partition_args_kept = true.
Proof. split; reflexivity. Qed.
