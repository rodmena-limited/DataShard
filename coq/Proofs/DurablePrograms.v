(* Proofs/DurablePrograms.v -- Part B of C16: the library's programs follow the publish discipline.

   For every well-formed history `ops` (Durable.wf), trace_of ops is accepted by Durable.checks, and
   the ghost state it ends in knows every published file with its intended content.  Together with
   Part A (DurableProofs.v) this gives the ops-level theorems of Props/C16.v. *)
From Coq Require Import NArith List Bool Arith Lia Permutation.
Require Import DS.Model.Durable DS.Proofs.DurableProofs.
Require DS.Proofs.ListFacts.
Import ListNotations.
Open Scope N_scope.

(* a state the directory fsync of somebody else's publish leaves alone *)
Definition settled (s : pstate) : Prop := forall c0, s <> Linked c0 false.

Lemma publish_ok : forall g d n c,
  tmps g (T d n) = None ->
  forallb (ref_ok g) (refs c) = true ->
  (st g (P d n) = Fresh \/ (P d n = PTR /\ st g PTR <> Dead)) ->
  exists g', checks g (publish_meta (P d n) c) = Some g'
    /\ (forall t, tmps g' t = tmps g t)
    /\ st g' (P d n) = Linked c true
    /\ (forall x, x <> P d n -> settled (st g x) -> st g' x = st g x)
    /\ (forall x, refd g' x = refd g x || mem x (refs c)).
Proof.
  intros g d n c Ht Hr Hq.
  unfold publish_meta, gen_write_file. cbn [tmp_of dir_of checks].
  (* run the five calls: each check reads tmps at T d n, which the call before it has set *)
  cbn [check]. rewrite Ht. cbn [checks check tmps]. rewrite upd_t_same. cbn [checks check tmps app].
  rewrite upd_t_same. cbn [checks check tmps st refd]. rewrite upd_t_same.
  unfold ref_ok in Hr |- *. cbn [st]. rewrite Hr. cbn [andb].
  assert (Hq' : match st g (P d n) with Fresh => true | Linked _ _ => path_eqb (P d n) PTR | Dead => false end = true).
  { destruct Hq as [->|[E Hd]]; [reflexivity|]. rewrite E in *. destruct (st g PTR); try reflexivity. congruence. }
  rewrite Hq'. cbn [checks check tmps st refd].
  eexists. split; [reflexivity|]. cbn [tmps st refd]. repeat split.
  - intro t. unfold upd_t. destruct (path_eqb_spec t (T d n)) as [->|]; auto.
  - rewrite N.eqb_refl. now rewrite upd_s_same.
  - intros x Hx Hnf. rewrite upd_s_other by auto. destruct (dir_of x =? d); auto.
    destruct (st g x) as [|c0 [|]|] eqn:E; auto. elim (Hnf c0). reflexivity.
Qed.

Lemma name_ok_spec : forall p, name_ok p = true -> is_final p = true /\ p <> PTR.
Proof.
  intros p H. unfold name_ok in H. apply andb_prop in H as [H1 H2]. split; auto.
  intro E. subst. now rewrite path_eqb_refl in H2.
Qed.

(* The ghost state between two publishes agrees with a ledger of what the history has done so far --
   used: final names taken; F: files published (not markers); M: markers currently present.
     g_tmps      no temp is open (every publish closes or removes its own)
     g_fresh     a name not yet taken is Fresh, so the next publish may rename onto it
     g_files     a published file is durably linked with its content (a later file, or the pointer, may refer to it)
     g_marks     a marker is durably linked, referenced by nothing and not a file (so its Unlink is accepted)
     g_refd      only published files are referenced (with the final ledger: intended_tie)
     g_ptr       the pointer is Fresh or durably linked: never Dead, so it may be replaced, and settled
   Names outside F, M and the pointer are unconstrained once used: a file left behind by a publish whose DIRECTORY
   fsync failed stays linked, its entry not (yet) durable, referenced by nothing. *)
Record Ledger (used : list path) (F : list pubfile) (M : list path) (g : ghost) : Prop := {
  g_tmps : forall t, tmps g t = None;
  g_fresh : forall q, q <> PTR -> ~ In q used -> st g q = Fresh;
  g_files : forall f, In f F -> st g (pf_path f) = Linked (pf_content f) true /\ name_ok (pf_path f) = true;
  g_marks : forall m, In m M ->
      (exists c, st g m = Linked c true) /\ name_ok m = true /\ refd g m = false /\ ~ In m (map pf_path F);
  g_refd : forall r, refd g r = true -> In r (map pf_path F);
  g_ptr : st g PTR = Fresh \/ exists c, st g PTR = Linked c true
}.

Lemma Ledger_init : Ledger [] [] [] g0.
Proof. constructor; simpl; intros; try discriminate; try tauto; auto. Qed.

Lemma Ledger_mono : forall used F M g used' F' M', Ledger used F M g ->
  incl used used' -> (forall f, In f F <-> In f F') -> incl M' M -> Ledger used' F' M' g.
Proof.
  intros used F M g used' F' M' [Gtmps Gfresh Gfiles Gmarks Grefd Gptr] Hu Hf Hm.
  assert (Hp : forall r, In r (map pf_path F) <-> In r (map pf_path F')).
  { intro r. rewrite !in_map_iff. split; intros [f [E Hin]]; exists f; split; auto; now apply Hf. }
  constructor; auto.
  - (* g_files *) intros f Hin. apply Gfiles. now apply Hf.
  - (* g_marks *) intros m Hin. rewrite <- Hp. auto.
  - (* g_refd *) intros r Hr. apply Hp. auto.
Qed.

Lemma Ledger_ptr_used : forall used F M g, Ledger (PTR :: used) F M g -> Ledger used F M g.
Proof.
  intros used F M g [Gtmps Gfresh Gfiles Gmarks Grefd Gptr]. constructor; auto.
  (* g_fresh *) intros q Hq Hn. apply Gfresh; auto. intros [E|E]; [now apply Hq|now apply Hn].
Qed.

Lemma Ledger_fresh_out : forall used F M g p, Ledger used F M g -> st g p = Fresh ->
  refd g p = false /\ ~ In p (map pf_path F) /\ ~ In p M.
Proof.
  intros used F M g p H Hp.
  assert (HF : ~ In p (map pf_path F)).
  { intro E. apply in_map_iff in E as [f [<- Hf]]. destruct (g_files _ _ _ _ H f Hf). congruence. }
  repeat split; auto.
  - destruct (refd g p) eqn:E; auto. elim HF. now apply (g_refd _ _ _ _ H).
  - intro E. destruct (g_marks _ _ _ _ H p E) as [[c A] _]. congruence.
Qed.

(* One step of a program, seen from the ledger.  p is either a new name, about which Ledger then claims nothing, or the
   pointer, which must end up durably linked. *)
Lemma Ledger_step : forall used F M g g' p, Ledger used F M g ->
  (forall t, tmps g' t = None) ->
  (forall x, x <> p -> settled (st g x) -> st g' x = st g x) ->
  (forall x, refd g' x = true -> refd g x = true \/ In x (map pf_path F)) ->
  (p <> PTR -> st g p = Fresh) ->
  (p = PTR -> exists c, st g' PTR = Linked c true) ->
  Ledger (p :: used) F M g'.
Proof.
  intros used F M g g' p H Ht K Hr Hfr Hptr.
  assert (KL : forall x c, st g x = Linked c true -> name_ok x = true -> st g' x = st g x).
  { intros x c E Nx. apply K; [|intros c0 E0; congruence]. intros ->.
    destruct (path_eq_dec p PTR) as [E1|E1]; [apply name_ok_spec in Nx; tauto|]. rewrite Hfr in E; congruence. }
  assert (KP : p <> PTR -> st g' PTR = st g PTR).
  { intro Hp. apply K; auto. intros c0 E. destruct (g_ptr _ _ _ _ H) as [E'|[c E']]; congruence. }
  constructor; auto.
  - (* g_fresh *) intros q Hq Hn. assert (E : st g q = Fresh) by (apply (g_fresh _ _ _ _ H); auto; intro; apply Hn; now right).
    rewrite K; auto; [intros ->; apply Hn; now left|intros c0 E0; congruence].
  - (* g_files *) intros f Hf. destruct (g_files _ _ _ _ H f Hf) as [A B]. rewrite (KL _ _ A B). auto.
  - (* g_marks *) intros m Hm. destruct (g_marks _ _ _ _ H m Hm) as [[c A] [B [C D]]]. rewrite (KL _ _ A B).
    split; [exists c; exact A|]. split; [exact B|]. split; [|exact D].
    destruct (refd g' m) eqn:E; auto. destruct (Hr m E); congruence.
  - (* g_refd *) intros r E. destruct (Hr r E); auto. now apply (g_refd _ _ _ _ H).
  - (* g_ptr *) destruct (path_eq_dec p PTR) as [E1|E1]; [right; exact (Hptr E1)|]. rewrite KP by auto. apply (g_ptr _ _ _ _ H).
Qed.

Lemma refs_ok_of_Ledger : forall used F M g c, Ledger used F M g ->
  (forall r, In r (refs c) -> In r (map pf_path F)) -> forallb (ref_ok g) (refs c) = true.
Proof.
  intros used F M g c H Hr. apply forallb_forall. intros r Hin. specialize (Hr r Hin).
  apply in_map_iff in Hr as [f [E Hf]]. subst r. destruct (g_files _ _ _ _ H f Hf) as [A B].
  destruct (name_ok_spec _ B) as [B1 B2]. unfold ref_ok. rewrite B1, A, (path_eqb_neq _ _ B2). reflexivity.
Qed.

Lemma pub_any : forall used F M g p c, Ledger used F M g ->
  p = PTR \/ (name_ok p = true /\ ~ In p used) ->
  (forall r, In r (refs c) -> In r (map pf_path F)) ->
  exists g', checks g (publish_meta p c) = Some g' /\ Ledger (p :: used) F M g'
    /\ st g' p = Linked c true /\ (forall x, refd g' x = refd g x || mem x (refs c)).
Proof.
  intros used F M g p c H Hp Hr.
  assert (Hfr : p <> PTR -> st g p = Fresh).
  { intro E. destruct Hp as [Hp|[_ Hp]]; [tauto|]. now apply (g_fresh _ _ _ _ H). }
  assert (Hd : exists d n, p = P d n).
  { destruct Hp as [->|[Hp _]]; [now exists 0, 0|]. apply name_ok_spec in Hp as [Hp _]. destruct p; [eauto|discriminate]. }
  destruct Hd as [d [n ->]].
  destruct (publish_ok g d n c (g_tmps _ _ _ _ H _) (refs_ok_of_Ledger _ _ _ _ _ H Hr)) as [g' [Hc [T1 [S1 [K R1]]]]].
  { destruct (path_eq_dec (P d n) PTR) as [E|E]; [right; split; auto|left; auto]. destruct (g_ptr _ _ _ _ H) as [E'|[c0 E']]; congruence. }
  exists g'. split; [exact Hc|]. split; [|split; assumption]. eapply Ledger_step; eauto.
  - intro t. rewrite T1. apply (g_tmps _ _ _ _ H).
  - intros x E. rewrite R1 in E. apply orb_true_iff in E as [E|E]; auto. right. apply Hr. now apply mem_In.
  - intros <-. eauto.
Qed.

Lemma Ledger_add_file : forall used F M g p c, Ledger used F M g -> name_ok p = true ->
  st g p = Linked c true -> ~ In p M -> Ledger used (mkPub p c :: F) M g.
Proof.
  intros used F M g p c [Gtmps Gfresh Gfiles Gmarks Grefd Gptr] Hn Hs Hm. constructor; auto.
  - (* g_files *) intros f [<-|Hf]; auto.
  - (* g_marks *) intros m Hin. destruct (Gmarks m Hin) as [A [B [C D]]]. repeat split; auto. intros [<-|E]; auto.
  - (* g_refd *) intros r Hr. right. auto.
Qed.

Lemma Ledger_add_mark : forall used F M g p c, Ledger used F M g -> name_ok p = true ->
  st g p = Linked c true -> refd g p = false -> ~ In p (map pf_path F) -> Ledger used F (p :: M) g.
Proof.
  intros used F M g p c [Gtmps Gfresh Gfiles Gmarks Grefd Gptr] Hn Hs Hr Hf. constructor; auto.
  (* g_marks *) intros m [<-|Hm]; eauto.
Qed.

Lemma pub_entry : forall used F M g (mark : bool) f, Ledger used F M g ->
  name_ok (pf_path f) = true -> ~ In (pf_path f) used ->
  (if mark then refs (pf_content f) = [] else forall r, In r (refs (pf_content f)) -> In r (map pf_path F)) ->
  exists g', checks g (publish_meta (pf_path f) (pf_content f)) = Some g'
    /\ Ledger (pf_path f :: used) (if mark then F else f :: F) (if mark then pf_path f :: M else M) g'.
Proof.
  intros used F M g mark [p c] H Hn Hu Hr. simpl in *.
  destruct (Ledger_fresh_out _ _ _ _ p H) as [A [B C]]. { apply (g_fresh _ _ _ _ H); auto. now apply name_ok_spec. }
  destruct (pub_any used F M g p c H) as [g' [Hc [HG [Sp R]]]]; auto.
  { destruct mark; auto. rewrite Hr. intros r []. }
  exists g'. split; auto. destruct mark.
  - (* a marker *) apply (Ledger_add_mark _ _ _ _ p c HG Hn Sp); [|exact B]. rewrite R, A, Hr. reflexivity.
  - (* a file *) now apply Ledger_add_file.
Qed.

(* What every operation starts with: new files published one after the other, each tagged as a marker (true) or as a
   file that later files, and the pointer, may refer to (false). *)
Definition plan := list (bool * pubfile).
Definition plan_calls (l : plan) : list call := flat_map (fun e => publish_meta (pf_path (snd e)) (pf_content (snd e))) l.
(* what a plan adds to the ledger: to `used`, to F, to M *)
Definition names (l : plan) : list path := map (fun e => pf_path (snd e)) l.
Definition files (l : plan) : list pubfile := map snd (filter (fun e => negb (fst e)) l).
Definition marks (l : plan) : list path := map (fun e => pf_path (snd e)) (filter fst l).

Fixpoint pubs_ok (avail : list path) (l : list pubfile) : Prop :=
  match l with
  | [] => True
  | f :: l' => (forall r, In r (refs (pf_content f)) -> In r avail) /\ pubs_ok (pf_path f :: avail) l'
  end.

Lemma pubs_ok_incl : forall l avail avail', pubs_ok avail l -> incl avail avail' -> pubs_ok avail' l.
Proof.
  induction l as [|f l IH]; simpl; intros avail avail' H Hi; auto.
  destruct H as [H1 H2]. split; auto. eapply IH; eauto. intros x [<-|Hx]; [now left|right; auto].
Qed.

Lemma pub_plan : forall l used F M g, Ledger used F M g ->
  NoDup (names l) -> (forall p, In p (names l) -> name_ok p = true /\ ~ In p used) ->
  (forall f, In (true, f) l -> refs (pf_content f) = []) -> pubs_ok (map pf_path F) (files l) ->
  exists g', checks g (plan_calls l) = Some g' /\ Ledger (names l ++ used) (files l ++ F) (marks l ++ M) g'.
Proof.
  induction l as [|[mark f] l IH]; intros used F M g H Hd Hn Hm Hp; [simpl; eauto|].
  inversion Hd as [|? ? D1 D2]; subst. destruct (Hn (pf_path f) (or_introl eq_refl)) as [N1 N2].
  destruct (pub_entry used F M g mark f H N1 N2) as [g1 [C1 G1]].
  { destruct mark; [apply Hm; now left|apply Hp]. }
  destruct (IH _ _ _ g1 G1 D2) as [g2 [C2 G2]].
  - intros p Hin. destruct (Hn p (or_intror Hin)) as [A B]. split; auto. intros [<-|E]; auto.
  - intros f' Hin. apply Hm. now right.
  - destruct mark; [exact Hp|apply Hp].
  - exists g2. split; [cbn [plan_calls flat_map snd]; rewrite checks_app, C1; exact C2|].
    (* the lists of G2 and of the goal differ only in where the new name stands: three membership facts, one per list,
       for a marker and for a file *)
    eapply Ledger_mono; [exact G2| | |]; clear; destruct mark; unfold names, files, marks, incl; simpl; intros.
    all: rewrite ?in_app_iff in *; simpl In in *; rewrite ?in_app_iff in *; tauto.
Qed.

Lemma del_marker : forall used F M g m, Ledger used F M g -> In m M ->
  exists g', check g (Unlink m) = Some g' /\ Ledger used F (remove path_eq_dec m M) g'.
Proof.
  intros used F M g m H Hm. destruct (g_marks _ _ _ _ H m Hm) as [[c0 A] [B [C D]]].
  destruct (name_ok_spec _ B) as [Hf Hp]. destruct m as [d n|]; [|discriminate].
  cbn [check]. rewrite (path_eqb_neq _ _ Hp), C, A. cbn [negb andb].
  eexists. split; [reflexivity|]. destruct H as [Gtmps Gfresh Gfiles Gmarks Grefd Gptr]. constructor; cbn [tmps st refd]; auto.
  - (* g_fresh *) intros q Hq Hnin. rewrite upd_s_other; auto. intro E. subst q. rewrite Gfresh in A; auto. discriminate.
  - (* g_files *) intros f Hin. destruct (Gfiles f Hin) as [A1 B1]. split; auto. rewrite upd_s_other; auto.
    intro E. apply D. apply in_map_iff. eauto.
  - (* g_marks *) intros m' Hm'. apply in_remove in Hm' as [Hm' Hne]. destruct (Gmarks m' Hm') as [[c1 A1] [B1 [C1 D1]]].
    repeat split; auto. exists c1. rewrite upd_s_other; auto.
  - (* g_ptr *) rewrite upd_s_other; auto.
Qed.

Lemma del_markers : forall ms used F M g, Ledger used F M g -> incl ms M -> NoDup ms ->
  exists g', checks g (map Unlink ms) = Some g' /\ Ledger used F [] g'.
Proof.
  induction ms as [|m ms IH]; intros used F M g H Hin Hnd.
  - exists g. split; [reflexivity|]. eapply Ledger_mono; eauto using incl_refl, incl_nil_l. tauto.
  - inversion Hnd as [|? ? N1 N2]; subst.
    destruct (del_marker used F M g m H (Hin m (or_introl eq_refl))) as [g1 [C1 G1]].
    destruct (IH used F _ g1 G1) as [g2 [C2 G2]]; auto.
    { intros m' Hm'. apply in_in_remove; [intros ->; auto|apply Hin; now right]. }
    exists g2. cbn [map checks]. now rewrite C1.
Qed.

Lemma nodup_b_spec : forall l, nodup_b l = true -> NoDup l.
Proof.
  induction l as [|x l IH]; simpl; intro H; constructor; apply andb_prop in H as [H1 H2]; auto.
  intro Hin. apply mem_In in Hin. rewrite Hin in H1. discriminate.
Qed.

(* the three conditions every operation puts on its names, read in the order l' in which the names are published *)
Lemma names_spec : forall used l l', Permutation l l' ->
  forallb name_ok l && nodup_b l && forallb (fun p => negb (mem p used)) l = true ->
  NoDup l' /\ forall p, In p l' -> name_ok p = true /\ ~ In p used.
Proof.
  intros used l l' Hl H. apply andb_prop in H as [H W3]. apply andb_prop in H as [W1 W2].
  split; [exact (Permutation_NoDup Hl (nodup_b_spec _ W2))|]. intros p Hp. apply (Permutation_in _ (Permutation_sym Hl)) in Hp.
  split; [exact (proj1 (forallb_forall _ _) W1 _ Hp)|].
  intro Hu. apply mem_In in Hu. apply (proj1 (forallb_forall _ _) W3) in Hp. rewrite Hu in Hp. discriminate.
Qed.

Lemma no_refs_spec : forall f, no_refs f = true -> refs (pf_content f) = [].
Proof. intros f H. unfold no_refs in H. destruct (refs (pf_content f)); [reflexivity|discriminate]. Qed.

Lemma wf_pubs_spec : forall l avail, wf_pubs avail l = true -> pubs_ok avail l.
Proof.
  induction l as [|f l IH]; simpl; intros avail H; auto.
  apply andb_prop in H as [H1 H2]. split; auto.
  intros r Hr. apply mem_In. exact (proj1 (forallb_forall _ _) H1 _ Hr).
Qed.

Lemma incl_rev_l : forall {A} (l m : list A), incl l m -> incl (rev l) m.
Proof. intros A l m H x Hx. apply H. now apply in_rev. Qed.

Definition mk_path (it : item) : path := pf_path (it_marker it).
Definition fl_path (it : item) : path := pf_path (it_file it).

(* marker, file, marker, file ...; in a transaction that is rolled back the files are removed like the markers *)
Definition pairs (rolled_back : bool) (its : list item) : plan :=
  flat_map (fun it => [(true, it_marker it); (rolled_back, it_file it)]) its.

(* Today the data writer and write_file issue the same calls and have the same cleanup handler (Gen/GenDurable.v), so
   whether a publish is a data file's shows neither here nor in fail_trace_eq: publish_data and publish_meta compute to
   the same five calls, and both gen_*_fallible compute to 5, the bound of failed_ghost. *)
Lemma pairs_calls : forall d m its, flat_map (pub_item d) its = plan_calls (pairs m its).
Proof. intros d m its. induction its as [|it its IH]; [reflexivity|]. destruct d; simpl; now rewrite IH. Qed.

Lemma pairs_names : forall m its, Permutation (names (pairs m its)) (map mk_path its ++ map fl_path its).
Proof.
  intros m its. induction its as [|it its IH]; simpl; [constructor|].
  apply perm_skip. now apply Permutation_cons_app.
Qed.

Lemma pairs_kept : forall its, files (pairs false its) = map it_file its /\ marks (pairs false its) = map mk_path its.
Proof.
  induction its as [|it its [IH1 IH2]]; [auto|].
  split; [exact (f_equal (cons (it_file it)) IH1)|exact (f_equal (cons (mk_path it)) IH2)].
Qed.

Definition all_marks (l : plan) : Prop := Forall (fun e => fst e = true) l.

Lemma all_marks_spec : forall l, all_marks l -> files l = [] /\ marks l = names l.
Proof.
  induction 1 as [|[m f] l E _ [IH1 IH2]]; [auto|]. simpl in E. subst m.
  split; [exact IH1|exact (f_equal (cons (pf_path f)) IH2)].
Qed.

Lemma pairs_all_marks : forall its, all_marks (pairs true its).
Proof. induction its; repeat constructor; auto. Qed.

Lemma pairs_true : forall m its f, In (true, f) (pairs m its) ->
  exists it, In it its /\ (f = it_marker it \/ m = true /\ f = it_file it).
Proof.
  intros m its f H. apply in_flat_map in H as [it [Hit [E|[E|[]]]]]; inversion E; subst; eauto.
Qed.

Lemma pairs_no_refs : forall m its f, forallb (fun it => no_refs (it_marker it) && no_refs (it_file it)) its = true ->
  In (true, f) (pairs m its) -> refs (pf_content f) = [].
Proof.
  intros m its f W Hf. apply pairs_true in Hf as [it [Hit E]]. pose proof (proj1 (forallb_forall _ _) W _ Hit) as Nr. simpl in Nr.
  apply andb_prop in Nr as [N1 N2]. destruct E as [->|[_ ->]]; now apply no_refs_spec.
Qed.

Lemma names_app : forall a b, names (a ++ b) = names a ++ names b.
Proof. intros. apply map_app. Qed.

Lemma Ledger_perm : forall l l' used F M g, Ledger (l ++ used) F M g -> Permutation l' l -> Ledger (l' ++ used) F M g.
Proof.
  intros l l' used F M g H Hp. eapply Ledger_mono; [exact H| |tauto|apply incl_refl].
  apply incl_app_app; [|apply incl_refl]. intros x. apply Permutation_in. now symmetry.
Qed.

Lemma wf_commit_ptr : forall used avail c, wf_commit used avail c = true -> refs (c_ptr c) = [pf_path (c_meta c)].
Proof.
  intros used avail c H. unfold wf_commit in H. apply andb_prop in H as [_ H].
  destruct (refs (c_ptr c)) as [|v [|? ?]]; try discriminate. destruct (path_eqb_spec v (pf_path (c_meta c))); [now subst|discriminate].
Qed.

Theorem commit_ok : forall c used F g,
  wf_commit used (map pf_path F) c = true -> Ledger used F [] g ->
  exists g1 g', checks g (commit_body c) = Some g1 /\ checks g1 (commit_cleanup c) = Some g'
    /\ st g1 PTR = Linked (c_ptr c) true
    /\ Ledger (names_of_commit c ++ used) (files_of_commit c ++ F) [] g'.
Proof.
  intros c used F g Hwf HG. pose proof (wf_commit_ptr _ _ _ Hwf) as Hptr. unfold wf_commit in Hwf.
  apply andb_prop in Hwf as [Hwf _]. apply andb_prop in Hwf as [Hwf W5]. apply andb_prop in Hwf as [Hwf W4].
  set (its := items c) in *.
  (* marker and file of every item, then the metadata file; then the pointer; then the markers go *)
  set (l := pairs false its ++ [(false, c_meta c)]).
  assert (Ef : files l = files_of_commit c /\ marks l = map mk_path its).
  { unfold l, files, marks. rewrite !filter_app, !map_app. destruct (pairs_kept its) as [E1 E2].
    unfold files, marks in E1, E2. rewrite E1, E2. split; [reflexivity|apply app_nil_r]. }
  destruct Ef as [Ef Em].
  assert (Pn : Permutation (names_of_commit c) (names l)).
  { unfold names_of_commit, files_of_commit, l. fold its. rewrite names_app, map_app, map_map, app_assoc.
    apply Permutation_app_tail. symmetry. apply pairs_names. }
  assert (Eb : commit_body c = plan_calls l ++ publish_meta PTR (c_ptr c)).
  { unfold commit_body, l, its, items. rewrite (pairs_calls true false), !(pairs_calls false false).
    unfold pairs, plan_calls. rewrite !flat_map_app. cbn [flat_map snd]. now rewrite app_nil_r, <- !app_assoc. }
  destruct (names_spec _ _ _ Pn Hwf) as [Hnd Hn].
  destruct (pub_plan l used F [] g HG Hnd Hn) as [g2 [C2 G2]].
  - intros f Hf. unfold l in Hf. apply in_app_or in Hf as [Hf|[Hf|[]]]; [|discriminate].
    apply pairs_true in Hf as [it [Hit [->|[? _]]]]; [|discriminate].
    exact (no_refs_spec _ (proj1 (forallb_forall _ _) W4 _ Hit)).
  - rewrite Ef. now apply wf_pubs_spec.
  - rewrite Ef, Em, app_nil_r in G2.
    destruct (pub_any _ _ _ g2 PTR (c_ptr c) G2 (or_introl eq_refl)) as [g3 [C3 [G3 [S3 _]]]].
    { intros r Hr. rewrite Hptr in Hr. destruct Hr as [<-|[]].
      unfold files_of_commit. rewrite !map_app, !in_app_iff. left. right. now left. }
    destruct (del_markers (map mk_path its) _ _ _ g3 G3 (incl_refl _)) as [g4 [C4 G4]].
    { exact (proj1 (proj1 (ListFacts.NoDup_app _ _ _) (Permutation_NoDup (Permutation_sym Pn) Hnd))). }
    exists g3, g4. split; [now rewrite Eb, checks_app, C2|]. split.
    { unfold commit_cleanup. fold its. rewrite <- (map_map mk_path Unlink). exact C4. }
    split; [exact S3|]. apply Ledger_ptr_used in G4. now apply (Ledger_perm (names l)).
Qed.

Lemma abort_trace_eq : forall its,
  abort_trace its = plan_calls (pairs true its) ++ map Unlink (map fl_path its ++ map mk_path its).
Proof. intro its. unfold abort_trace. now rewrite (pairs_calls true true), map_app, !map_map. Qed.

Theorem abort_ok : forall its used F g, wf_abort used its = true -> Ledger used F [] g ->
  exists g', checks g (abort_trace its) = Some g' /\ Ledger (names_of_abort its ++ used) F [] g'.
Proof.
  intros its used F g Hwf HG. unfold wf_abort in Hwf. apply andb_prop in Hwf as [Hwf W4].
  pose proof (pairs_names true its) as Pn. change (map mk_path its ++ map fl_path its) with (names_of_abort its) in Pn.
  apply (names_spec _ _ _ (Permutation_sym Pn)) in Hwf as [Hnd Hn].
  destruct (all_marks_spec _ (pairs_all_marks its)) as [Ef Em].
  destruct (pub_plan (pairs true its) used F [] g HG Hnd Hn) as [g1 [C1 G1]].
  - intros f. now apply pairs_no_refs.
  - rewrite Ef. exact I.
  - rewrite Ef, Em, app_nil_r in G1.
    destruct (del_markers (map fl_path its ++ map mk_path its) _ _ _ g1 G1) as [g2 [C2 G2]].
    + intros m Hm. apply (Permutation_in _ (Permutation_sym Pn)). apply in_app_or in Hm. apply in_or_app. tauto.
    + exact (Permutation_NoDup (Permutation_trans Pn (Permutation_app_comm _ _)) Hnd).
    + exists g2. split; [|now apply (Ledger_perm (names (pairs true its)))].
      now rewrite abort_trace_eq, checks_app, C1.
Qed.

Lemma tmps_closed : forall (f : path -> option (content * bool)) p,
  (forall t, t <> p -> f t = None) -> forall t, upd_t f p None t = None.
Proof. intros f p H t. destruct (path_eqb_spec t p) as [->|Hne]; [apply upd_t_same|rewrite upd_t_other; auto]. Qed.

(* A publish of a new name whose k-th call fails, on the ghost alone.  For k < 4 the calls issued (Create, Write, Fsync
   and the handler's Unlink) act on the temp file only; for k = 4 (the directory fsync fails) the Rename was issued:
   the name is linked, its entry not durable, and the handler finds no temp to remove. *)
Lemma failed_ghost : forall g d n c k, (forall t, tmps g t = None) -> refs c = [] -> st g (P d n) = Fresh -> (k < 5)%nat ->
  exists g', checks g (failed_of (publish_meta (P d n) c) (gen_write_file_on_error (T d n)) (T d n) k) = Some g'
    /\ (forall t, tmps g' t = None) /\ (forall x, x <> P d n -> st g' x = st g x) /\ (forall x, refd g' x = refd g x).
Proof.
  intros g d n c k Ht Hrc Hfr Hk.
  unfold failed_of, publish_meta, gen_write_file, gen_write_file_on_error. cbn [tmp_of dir_of].
  (* run the calls: each check reads tmps at T d n, which the call before it has set *)
  destruct k as [|[|[|[|[|k]]]]]; [| | | | |lia]; cbn [firstn tmp_live]; rewrite ?path_eqb_refl; cbn [app];
    do 5 (cbn [checks check tmps st refd forallb andb app]; rewrite ?Ht, ?upd_t_same, ?Hrc, ?Hfr);
    (eexists; split; [reflexivity|]); cbn [tmps st refd].
  (* only T d n was ever set, and it ends closed *)
  all: split; [first [exact Ht|apply tmps_closed; intros t Hne; rewrite ?upd_t_other by exact Hne; apply Ht]|].
  - (* Create fails: nothing was issued *) auto.
  - (* Write fails: Create; Unlink *) auto.
  - (* Fsync fails: Create; Write; Unlink *) auto.
  - (* Rename fails: Create; Write; Fsync; Unlink *) auto.
  - (* the directory fsync fails: Create; Write; Fsync; Rename *)
    split; [intros x Hx; now rewrite upd_s_other|intro x; apply orb_false_r].
Qed.

(* On the ledger: the name is used up; if it stays linked (k = 4) it is one of the names nothing is claimed about. *)
Lemma failed_ok : forall used F M g f k, Ledger used F M g -> (k < 5)%nat ->
  name_ok (pf_path f) = true -> ~ In (pf_path f) used -> refs (pf_content f) = [] ->
  exists g', checks g (failed_of (publish_meta (pf_path f) (pf_content f)) (gen_write_file_on_error (tmp_of (pf_path f)))
                                 (tmp_of (pf_path f)) k) = Some g'
    /\ Ledger (pf_path f :: used) F M g'.
Proof.
  intros used F M g [p c] k H Hk Hn Hu Hrc. simpl in *.
  destruct (name_ok_spec _ Hn) as [Hf Hp]. destruct p as [d n|]; [|discriminate].
  assert (Hfr : st g (P d n) = Fresh) by (apply (g_fresh _ _ _ _ H); auto).
  destruct (failed_ghost g d n c k (g_tmps _ _ _ _ H) Hrc Hfr Hk) as [g' [Hc [T1 [S1 R1]]]].
  exists g'. split; [exact Hc|]. apply (Ledger_step used F M g g' (P d n) H T1); auto.
  - intros x E. rewrite R1 in E. auto.
  - intro E. contradiction.
Qed.

(* A transaction whose append failed.  The publish that fails is the marker's or, after the marker's, the data file's;
   what was published before it is rolled back as in an abort.  fail_ok below makes the four moves of abort_ok (pub_plan on an
   all-marks plan, del_markers on a permutation of its names, Ledger_perm) with the failing publish (failed_ok) in between. *)
Definition failing (mk : pubfile) (fl : option pubfile) : pubfile := match fl with None => mk | Some f => f end.
Definition fail_extra (mk : pubfile) (fl : option pubfile) : plan := match fl with None => [] | Some _ => [(true, mk)] end.
Definition fail_plan (its : list item) (mk : pubfile) (fl : option pubfile) : plan := pairs true its ++ fail_extra mk fl.
Definition fail_unlinks (its : list item) (mk : pubfile) (fl : option pubfile) : list path :=
  map fl_path its ++ map mk_path its ++ names (fail_extra mk fl).

Lemma fail_trace_eq : forall its mk fl k, fail_trace its mk fl k =
  plan_calls (fail_plan its mk fl)
  ++ failed_of (publish_meta (pf_path (failing mk fl)) (pf_content (failing mk fl)))
               (gen_write_file_on_error (tmp_of (pf_path (failing mk fl)))) (tmp_of (pf_path (failing mk fl))) k
  ++ map Unlink (fail_unlinks its mk fl).
Proof.
  intros its mk fl k. unfold fail_trace, fail_plan, fail_unlinks, fail_extra, failing, plan_calls. rewrite (pairs_calls true true).
  unfold plan_calls. destruct fl; rewrite flat_map_app, !map_app, !map_map; simpl; rewrite <- ?app_assoc, ?app_nil_r; reflexivity.
Qed.

Lemma fail_names : forall its mk fl,
  Permutation (names_of_fail its mk fl) (pf_path (failing mk fl) :: names (fail_plan its mk fl))
  /\ Permutation (names (fail_plan its mk fl)) (fail_unlinks its mk fl).
Proof.
  intros its mk fl. pose proof (pairs_names true its) as Pn. unfold fail_plan, fail_unlinks. rewrite names_app. split.
  - assert (E : names_of_fail its mk fl = (names_of_abort its ++ names (fail_extra mk fl)) ++ [pf_path (failing mk fl)])
      by (destruct fl; unfold names_of_fail; simpl; now rewrite <- app_assoc).
    rewrite E. symmetry. etransitivity; [|apply Permutation_cons_append]. apply perm_skip, Permutation_app_tail. exact Pn.
  - rewrite app_assoc. apply Permutation_app_tail. rewrite Pn. apply Permutation_app_comm.
Qed.

Theorem fail_ok : forall its mk fl k used F g, wf_fail used its mk fl k = true -> Ledger used F [] g ->
  exists g', checks g (fail_trace its mk fl k) = Some g' /\ Ledger (names_of_fail its mk fl ++ used) F [] g'.
Proof.
  intros its mk fl k used F g Hwf HG. unfold wf_fail in Hwf.
  apply andb_prop in Hwf as [Hwf W7]. apply andb_prop in Hwf as [Hwf W6]. apply andb_prop in Hwf as [Hwf W5].
  apply andb_prop in Hwf as [Hwf W4].
  destruct (fail_names its mk fl) as [Pn Pm]. apply (names_spec _ _ _ Pn) in Hwf as [Hnd Hn']. set (l := fail_plan its mk fl) in *. set (ff := failing mk fl) in *.
  assert (Hk : (k < 5)%nat) by (destruct fl; apply Nat.ltb_lt in W7; exact W7).
  assert (Hff : no_refs ff = true) by (destruct fl; assumption).
  assert (Hl : all_marks l).
  { apply Forall_app. split; [apply pairs_all_marks|]. destruct fl; repeat constructor. }
  destruct (all_marks_spec l Hl) as [Ef Em].
  inversion Hnd as [|? ? D1 D2]; subst.
  destruct (pub_plan l used F [] g HG D2) as [g1 [C1 G1]].
  - intros p Hp. apply Hn'. now right.
  - intros f Hf. apply in_app_or in Hf as [Hf|Hf].
    + now apply pairs_no_refs in Hf.
    + destruct fl; simpl in Hf; [|contradiction]. destruct Hf as [Hf|[]]. inversion Hf; subst. now apply no_refs_spec.
  - rewrite Ef. exact I.
  - rewrite Ef, Em, app_nil_r in G1. destruct (Hn' _ (or_introl eq_refl)) as [N1 N2].
    destruct (failed_ok _ F _ g1 ff k G1 Hk N1) as [g2 [C2 G2]]; [intro E; apply in_app_or in E as [E|E]; auto|now apply no_refs_spec|].
    destruct (del_markers (fail_unlinks its mk fl) _ _ _ g2 G2) as [g3 [C3 G3]].
    + intros m Hm. exact (Permutation_in _ (Permutation_sym Pm) Hm).
    + exact (Permutation_NoDup Pm D2).
    + exists g3. split; [rewrite fail_trace_eq; fold l ff; now rewrite checks_app, C1, checks_app, C2|].
      apply (Ledger_perm (pf_path ff :: names l)); auto.
Qed.

Lemma op_ok : forall o used F g, wf_op used (map pf_path F) o = true -> Ledger used F [] g ->
  exists g', checks g (trace_of_op o) = Some g' /\ Ledger (names_of_op o ++ used) (files_of_op o ++ F) [] g'.
Proof.
  intros [c|its|its mk fl k] used F g Hwf HG; cbn [wf_op trace_of_op names_of_op files_of_op app] in *.
  - (* OCommit *) destruct (commit_ok c used F g Hwf HG) as [g1 [g' [C1 [C2 [_ HG']]]]]. exists g'. split; auto.
    unfold trace_of_commit. now rewrite checks_app, C1.
  - (* OAbort *) now apply abort_ok.
  - (* OFail *) now apply fail_ok.
Qed.

Fixpoint used_after (used : list path) (ops : list op) : list path :=
  match ops with [] => used | o :: ops' => used_after (names_of_op o ++ used) ops' end.
Fixpoint files_after (F : list pubfile) (ops : list op) : list pubfile :=
  match ops with [] => F | o :: ops' => files_after (files_of_op o ++ F) ops' end.

Lemma wf_from_app : forall l1 l2 used F, wf_from used (map pf_path F) (l1 ++ l2) =
  wf_from used (map pf_path F) l1 && wf_from (used_after used l1) (map pf_path (files_after F l1)) l2.
Proof.
  induction l1 as [|o l1 IH]; intros l2 used F; simpl; [reflexivity|]. now rewrite <- map_app, IH, andb_assoc.
Qed.

Lemma files_after_In : forall ops F f, In f (files_after F ops) <-> In f (files_of ops) \/ In f F.
Proof.
  induction ops as [|o ops IH]; intros F f; simpl; [tauto|]. rewrite IH, !in_app_iff. tauto.
Qed.

Theorem history_ok : forall ops used F g, wf_from used (map pf_path F) ops = true -> Ledger used F [] g ->
  exists g', checks g (trace_of ops) = Some g' /\ Ledger (used_after used ops) (files_after F ops) [] g'.
Proof.
  induction ops as [|o ops IH]; intros used F g Hwf HG; [simpl; eauto|].
  cbn [wf_from] in Hwf. apply andb_prop in Hwf as [W1 W2].
  destruct (op_ok o used F g W1 HG) as [g1 [C1 G1]].
  rewrite <- map_app in W2. destruct (IH _ _ g1 W2 G1) as [g2 [C2 G2]].
  exists g2. split; [|exact G2]. unfold trace_of. cbn [flat_map]. rewrite checks_app, C1. exact C2.
Qed.

Lemma wf_checks : forall ops, wf ops = true ->
  exists g' used', checks g0 (trace_of ops) = Some g' /\ Ledger used' (files_of ops) [] g'.
Proof.
  intros ops H. destruct (history_ok ops [] [] g0 H Ledger_init) as [g' [C HG]].
  exists g', (used_after [] ops). split; [exact C|]. eapply Ledger_mono; [exact HG|apply incl_refl| |apply incl_refl].
  intro f. rewrite files_after_In. simpl. tauto.
Qed.

(* what a name other than the pointer can become once it is linked with content c0 *)
Definition was (c0 : content) (s : pstate) : Prop := (exists b, s = Linked c0 b) \/ s = Dead.

Lemma check_mono : forall g c g', check g c = Some g' ->
  (forall k, refd g k = true -> refd g' k = true)
  /\ (forall k c0, k <> PTR -> was c0 (st g k) -> was c0 (st g' k)).
Proof.
  intros g c g' H. destruct (check_inv _ _ _ H) as [c t v _|d n d' n' c1 _ _ Hq|dd|d n c1 b _ _ _|dd]; cbn [st refd]; auto.
  - (* ck_rename *) split; [intros k ->; reflexivity|]. intros k c0 Hp Hk. unfold upd_s. destruct (path_eqb_spec k (P d' n')) as [->|]; auto.
    destruct Hq as [Hq|[_ Hq]]; [|contradiction]. rewrite Hq in Hk. destruct Hk as [[b Hk]|Hk]; discriminate.
  - (* ck_fsyncdir *) split; auto. intros k c0 _ [[b Hk]|Hk]; rewrite Hk; destruct (dir_of k =? dd); unfold was; eauto.
  - (* ck_unlink *) split; auto. intros k c0 _ Hk. unfold upd_s. destruct (path_eqb k (P d n)); unfold was; auto.
Qed.

Lemma checks_mono : forall tr g g', checks g tr = Some g' ->
  (forall k, refd g k = true -> refd g' k = true)
  /\ (forall k c0, k <> PTR -> was c0 (st g k) -> was c0 (st g' k)).
Proof.
  induction tr as [|c tr IH]; intros g g' H; simpl in H.
  - inversion H; subst. auto.
  - destruct (check g c) as [g1|] eqn:E; [|discriminate].
    destruct (check_mono _ _ _ E) as [A1 A2]. destruct (IH _ _ H) as [B1 B2]. split; auto.
Qed.

Lemma lookup_pub_some : forall l k c, lookup_pub k l = Some c -> exists f, In f l /\ pf_path f = k /\ pf_content f = c.
Proof.
  induction l as [|f l IH]; simpl; intros k c H; [discriminate|].
  destruct (path_eqb_spec k (pf_path f)).
  - inversion H; subst. eauto.
  - destruct (IH _ _ H) as [f' [A B]]. eauto.
Qed.

Lemma lookup_pub_in : forall l f, In f l -> exists c, lookup_pub (pf_path f) l = Some c.
Proof.
  induction l as [|f0 l IH]; simpl; intros f H; [contradiction|].
  destruct (path_eqb_spec (pf_path f) (pf_path f0)); [eauto|]. destruct H as [->|H]; [congruence|auto].
Qed.

(* what a prefix's ghost knows about a referenced file is what the history intends *)
Lemma intended_tie : forall ops g1 g' used' tr2 k c,
  Ledger used' (files_of ops) [] g' -> checks g1 tr2 = Some g' ->
  refd g1 k = true -> st g1 k = Linked c true -> k <> PTR ->
  intended ops k = Some c.
Proof.
  intros ops g1 g' used' tr2 k c HG Hc Hr Hs Hp.
  destruct (checks_mono _ _ _ Hc) as [M1 M2].
  pose proof (g_refd _ _ _ _ HG k (M1 k Hr)) as Hin. apply in_map_iff in Hin as [f [E Hf]].
  destruct (lookup_pub_in (files_of ops) f Hf) as [c' Hl]. rewrite E in Hl.
  unfold intended. rewrite Hl. f_equal.
  destruct (lookup_pub_some _ _ _ Hl) as [f' [A [B C]]].
  destruct (g_files _ _ _ _ HG f' A) as [Sf _]. rewrite B, C in Sf.
  destruct (M2 k c Hp) as [[b' Hb]|Hd]; [rewrite Hs; left; eauto|congruence|congruence].
Qed.

(* The headline statement for ANY trace the discipline accepts with a final ghost state that knows exactly the
   history's files: trace_of ops itself, or a refinement of it. *)
Theorem durable_prefix_tr : forall ops tr g' u', checks g0 tr = Some g' -> Ledger u' (files_of ops) [] g' ->
  forall n es, calls_of es = firstn n tr ->
  exists s', run fs0 es = Some s' /\ safe_state s' /\
    forall v, pointer (power_loss s') = Some v ->
    forall k, reachable_from ops v k ->
      exists c, intended ops k = Some c /\ content_at (power_loss s') k = Some c /\ content_at (vol s') k = Some c.
Proof.
  intros ops tr g' u' Hc HG n es Hes.
  destruct (checks_prefix tr n g0 g' Hc) as [g1 [H1 H2]].
  rewrite <- Hes in H1. destruct (Inv_run es g0 fs0 g1 H1 Inv_init) as [s' [Hr HI]].
  exists s'. split; auto. split; [eapply Inv_safe; eauto|].
  intros v Hv k Hk. unfold pointer, content_at, power_loss in Hv.
  destruct (entry (dur s') PTR) as [i|] eqn:Hi; [|discriminate].
  destruct (refs (data (dur s') i)) as [|v0 [|? ?]] eqn:Hrf; try discriminate. inversion Hv; subst v0.
  assert (Hrv : refd g1 v = true). { eapply (i_ptr _ _ HI); eauto. rewrite Hrf. now left. }
  (* every name reachable in the history's own reference graph is referenced in the ghost *)
  assert (Rk : refd g1 k = true).
  { induction Hk as [v|v k k' Hk IH [c [Hic Hin]]]; auto.
    specialize (IH Hv Hrf Hrv). destruct (refd_durable _ _ _ HI IH) as [c0 [j [A [B _]]]].
    assert (Ic : intended ops k = Some c0) by (eapply intended_tie; eauto). rewrite Ic in Hic. inversion Hic; subst c0.
    eapply refd_refs; eauto. }
  destruct (refd_durable _ _ _ HI Rk) as [c [j [A [B [C [D [E F]]]]]]]. exists c.
  split; [eapply intended_tie; eauto|]. unfold content_at, power_loss. rewrite C, E, D, F. auto.
Qed.

Definition no_ptr_rename (c : call) : Prop := forall t, c <> Rename t PTR.

Lemma check_ptr_stable : forall g c g' cp, check g c = Some g' -> no_ptr_rename c ->
  st g PTR = Linked cp true -> st g' PTR = Linked cp true.
Proof.
  intros g c g' cp H Hn Hs. destruct (check_inv _ _ _ H) as [c t v _|d n d' n' c1 _ _ _|dd|d n c1 b Hp _ _|dd]; cbn [st]; auto.
  - (* ck_rename *) rewrite upd_s_other; auto. intro E. apply (Hn (T d n)). now rewrite <- E.
  - (* ck_fsyncdir *) rewrite Hs. destruct (dir_of PTR =? dd); reflexivity.
  - (* ck_unlink *) rewrite upd_s_other; auto.
Qed.

Lemma checks_ptr_stable : forall tr g g' cp, checks g tr = Some g' -> Forall no_ptr_rename tr ->
  st g PTR = Linked cp true -> st g' PTR = Linked cp true.
Proof.
  induction tr as [|c tr IH]; intros g g' cp H Hf Hs; simpl in H.
  - inversion H; subst; auto.
  - destruct (check g c) as [g1|] eqn:E; [|discriminate]. inversion Hf; subst.
    eapply IH; eauto. eapply check_ptr_stable; eauto.
Qed.

(* What acknowledgement rests on, for the history's own trace and for every refinement of it. *)
Theorem acked_tr : forall A B g2 gF cp v,
  checks g0 A = Some g2 -> st g2 PTR = Linked cp true -> refs cp = [v] ->
  checks g2 B = Some gF -> Forall no_ptr_rename B ->
  forall n es, (length A <= n)%nat -> calls_of es = firstn n (A ++ B) ->
  exists s', run fs0 es = Some s' /\ pointer (power_loss s') = Some v /\ pointer (vol s') = Some v.
Proof.
  intros A B g2 gF cp v CA S2 Hv CB HB n es Hn Hes.
  rewrite firstn_app, (firstn_all2 A) in Hes by exact Hn.
  destruct (checks_prefix B (n - length A) g2 gF CB) as [gk [Ck _]].
  assert (Hck : checks g0 (calls_of es) = Some gk) by (rewrite Hes, checks_app, CA; exact Ck).
  destruct (Inv_run es g0 fs0 gk Hck Inv_init) as [s' [Hr HI]]. exists s'. split; auto.
  assert (Sk : st gk PTR = Linked cp true).
  { eapply checks_ptr_stable; [exact Ck|now apply ListFacts.Forall_firstn|exact S2]. }
  destruct (i_linked _ _ HI 0 0 _ _ Sk) as [i [V1 V2]]. specialize (V2 eq_refl).
  destruct (i_vol _ _ HI 0 0 i V1) as [c' [b' [E1 [E2 E3]]]]. fold PTR in E1. rewrite Sk in E1. inversion E1 as [[Ec Eb]]. rewrite <- Ec in E2, E3.
  unfold pointer, content_at, power_loss. fold PTR in V1, V2. rewrite V1, V2, E2, E3, Hv. auto.
Qed.

Definition is_abort (o : op) : bool := match o with OCommit _ => false | _ => true end.

Lemma plan_no_ptr : forall l, (forall p, In p (names l) -> p <> PTR) -> Forall no_ptr_rename (plan_calls l).
Proof.
  intros l H. apply Forall_flat_map, Forall_forall. intros e He.
  assert (Hp : pf_path (snd e) <> PTR) by (apply H; now apply (in_map (fun e => pf_path (snd e)))).
  repeat constructor; intros t E; try discriminate. inversion E; subst; auto.
Qed.

Lemma unlinks_no_ptr : forall ms, Forall no_ptr_rename (map Unlink ms).
Proof. intro ms. apply Forall_map, Forall_forall. intros m _ t E. discriminate. Qed.

Lemma failed_no_ptr : forall prog oe tmp k, Forall no_ptr_rename prog -> Forall no_ptr_rename oe ->
  Forall no_ptr_rename (failed_of prog oe tmp k).
Proof.
  intros prog oe tmp k H Ho. unfold failed_of. apply Forall_app. split; [now apply ListFacts.Forall_firstn|].
  destruct (tmp_live (firstn k prog) tmp false); [exact Ho|constructor].
Qed.

(* a rolled-back or failed transaction renames onto its own new names only *)
Lemma abort_no_ptr : forall o used avail, wf_op used avail o = true -> is_abort o = true ->
  Forall no_ptr_rename (trace_of_op o).
Proof.
  intros [c|its|its mk fl k] used avail Hwf Ha; [discriminate| |]; cbn [wf_op trace_of_op] in *.
  - (* OAbort *) unfold wf_abort in Hwf. apply andb_prop in Hwf as [Hwf _].
    apply (names_spec _ _ _ (Permutation_sym (pairs_names true its))) in Hwf as [_ Hn].
    rewrite abort_trace_eq. apply Forall_app. split; [|apply unlinks_no_ptr].
    apply plan_no_ptr. intros p Hp. now apply name_ok_spec, Hn.
  - (* OFail *) unfold wf_fail in Hwf. do 4 (apply andb_prop in Hwf as [Hwf _]).
    apply (names_spec _ _ _ (proj1 (fail_names its mk fl))) in Hwf as [_ Hn].
    assert (Hn' : forall p, In p (pf_path (failing mk fl) :: names (fail_plan its mk fl)) -> p <> PTR)
      by (intros p Hp; now apply name_ok_spec, Hn).
    rewrite fail_trace_eq. apply Forall_app. split; [apply plan_no_ptr; intros; apply Hn'; now right|].
    apply Forall_app. split; [|apply unlinks_no_ptr]. apply failed_no_ptr; [|repeat constructor; intros t E; discriminate].
    apply (plan_no_ptr [(true, failing mk fl)]). intros p [<-|[]]. apply Hn'. now left.
Qed.

Lemma aborts_no_ptr : forall rest used avail, forallb is_abort rest = true -> wf_from used avail rest = true ->
  Forall no_ptr_rename (trace_of rest).
Proof.
  induction rest as [|o rest IH]; intros used avail Ha Hwf; simpl in *; [constructor|].
  apply andb_prop in Ha as [A1 A2]. apply andb_prop in Hwf as [W1 W2].
  apply Forall_app. split; [eapply abort_no_ptr|eapply IH]; eauto.
Qed.

Lemma trace_of_acked : forall ops c rest, trace_of (ops ++ OCommit c :: rest) =
  (trace_of ops ++ commit_body c) ++ (commit_cleanup c ++ trace_of rest).
Proof.
  intros. unfold trace_of. rewrite flat_map_app. cbn [flat_map trace_of_op]. unfold trace_of_commit. now rewrite <- !app_assoc.
Qed.

Lemma acked_checks : forall ops c rest, forallb is_abort rest = true -> wf (ops ++ OCommit c :: rest) = true ->
  exists g2 gF, checks g0 (trace_of ops ++ commit_body c) = Some g2 /\ st g2 PTR = Linked (c_ptr c) true
    /\ refs (c_ptr c) = [pf_path (c_meta c)]
    /\ checks g2 (commit_cleanup c ++ trace_of rest) = Some gF
    /\ Forall no_ptr_rename (commit_cleanup c ++ trace_of rest).
Proof.
  intros ops c rest Hab Hwf. change (wf_from [] (map pf_path []) (ops ++ OCommit c :: rest) = true) in Hwf.
  rewrite wf_from_app in Hwf. apply andb_prop in Hwf as [W1 W2].
  destruct (history_ok ops [] [] g0 W1 Ledger_init) as [g1 [C1 G1]].
  cbn [wf_from wf_op] in W2. apply andb_prop in W2 as [W2 W3].
  destruct (commit_ok c _ _ g1 W2 G1) as [g2 [g3 [C2 [C3 [S2 G3]]]]].
  rewrite <- map_app in W3. destruct (history_ok rest _ _ g3 W3 G3) as [gF [CF _]].
  exists g2, gF. split; [now rewrite checks_app, C1|]. split; [exact S2|]. split; [exact (wf_commit_ptr _ _ _ W2)|].
  split; [now rewrite checks_app, C3|]. apply Forall_app. split; [|eapply aborts_no_ptr; eauto].
  unfold commit_cleanup. rewrite <- (map_map mk_path Unlink). apply unlinks_no_ptr.
Qed.

Theorem acked_durable_aborts : forall ops c rest, forallb is_abort rest = true ->
  wf (ops ++ OCommit c :: rest) = true ->
  forall n es, (length (trace_of ops ++ commit_body c) <= n)%nat ->
  calls_of es = firstn n (trace_of (ops ++ OCommit c :: rest)) ->
  exists s', run fs0 es = Some s' /\ pointer (power_loss s') = Some (pf_path (c_meta c)) /\ pointer (vol s') = Some (pf_path (c_meta c)).
Proof.
  intros ops c rest Hab Hwf n es Hn Hes.
  destruct (acked_checks ops c rest Hab Hwf) as [g2 [gF [CA [S2 [Hv [CB HB]]]]]].
  rewrite trace_of_acked in Hes. exact (acked_tr _ _ g2 gF _ _ CA S2 Hv CB HB n es Hn Hes).
Qed.

Theorem acked_durable : forall ops c, wf (ops ++ [OCommit c]) = true ->
  forall n es, (length (trace_of ops ++ commit_body c) <= n)%nat ->
  calls_of es = firstn n (trace_of (ops ++ [OCommit c])) ->
  exists s', run fs0 es = Some s' /\ pointer (power_loss s') = Some (pf_path (c_meta c)) /\ pointer (vol s') = Some (pf_path (c_meta c)).
Proof. intros ops c. exact (acked_durable_aborts ops c [] eq_refl). Qed.
