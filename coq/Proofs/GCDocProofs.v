(* Proofs/GCDocProofs.v -- the collector over documents (Model/GCDoc.v): a document whose structure lost what
   reachability is decided from is REFUSED (the collection raises having deleted nothing), and a collection that runs
   worked from ALL the document's snapshots / entries -- nothing defaulted, nothing skipped.

   The lemmas of the first part are generic in the shape (induction over items / fields); the `gen_*` lemmas read the
   demands off the REGENERATED shapes (Gen/GenDoc.v) by computation: when the source stops demanding a section they
   no longer check, and the theorems of Props/C07.v stated through them are unproved. *)
From Coq Require Import List Bool String.
Require Import DS.Gen.GenNorm DS.Model.GC DS.Model.Doc DS.Gen.GenDoc DS.Model.GCDoc.
Require Import DS.Proofs.GCProofs.
Import ListNotations.
Open Scope string_scope.
Open Scope Z_scope.

Section Generic.
  Variable ext : string -> jv -> bool.

  Lemma req_ok_field : forall req fs k s,
    req_ok ext req fs = true -> field_shape k req = Some s -> exists x, assoc k fs = Some x /\ accepts ext s x = true.
  Proof.
    induction req as [|k' s' r IH]; intros fs k s Hok Hf; simpl in Hf; [discriminate|].
    simpl in Hok. apply andb_true_iff in Hok. destruct Hok as [H1 H2].
    destruct (String.eqb k k') eqn:E.
    - apply String.eqb_eq in E. subst k'. inversion Hf; subst s'. destruct (assoc k fs) as [x|]; [|discriminate].
      exists x. split; [reflexivity|exact H1].
    - eapply IH; eauto.
  Qed.

  Lemma accepts_rec_field : forall sh v k s,
    accepts ext sh v = true -> field_shape k (shape_req sh) = Some s ->
    exists fs x, v = JObj fs /\ assoc k fs = Some x /\ accepts ext s x = true.
  Proof.
    intros sh v k s Ha Hf. destruct sh; simpl in Hf; try discriminate.
    simpl in Ha. destruct v; try discriminate. apply andb_true_iff in Ha. destruct Ha as [Hr _].
    destruct (req_ok_field _ _ _ _ Hr Hf) as [x [A B]]. exists fs, x. auto.
  Qed.

  Lemma accepted_list_section : forall sh sec item d,
    field_shape sec (shape_req sh) = Some (SSeq true item) -> accepts ext sh d = true ->
    exists l, py_getitem d sec = Some (JArr l) /\ forallb (accepts ext item) l = true.
  Proof.
    intros sh sec item d F A. destruct (accepts_rec_field _ _ _ _ A F) as [fs [x [-> [As Ax]]]].
    simpl in Ax. destruct x; try discriminate. exists l. auto.
  Qed.

  Lemma accepts_str : forall v, accepts ext SStr v = true -> exists s, v = JStr s.
  Proof. intros v H. destruct v; try discriminate. eauto. Qed.

  Lemma items_strings : forall item k l,
    field_shape k (shape_req item) = Some SStr -> forallb (accepts ext item) l = true -> exists ps, strings_at k l = Some ps.
  Proof.
    intros item k l Hf. induction l as [|it r IH]; intro H; [exists []; reflexivity|].
    simpl in H. apply andb_true_iff in H. destruct H as [H1 H2]. destruct (IH H2) as [ps Hps].
    destruct (accepts_rec_field _ _ _ _ H1 Hf) as [fs [x [-> [A B]]]]. destruct (accepts_str _ B) as [s ->].
    exists (s :: ps). simpl. rewrite A, Hps. reflexivity.
  Qed.

  Lemma demands_section_strings_sound : forall sh sec k d,
    demands_section_strings sh sec k = true -> accepts ext sh d = true ->
    exists items ps, py_getitem d sec = Some (JArr items) /\ strings_at k items = Some ps.
  Proof.
    intros sh sec k d D A. unfold demands_section_strings in D.
    destruct (field_shape sec (shape_req sh)) as [s|] eqn:F; [|discriminate].
    destruct s as [| | | |strict item|]; try discriminate. destruct strict; [|discriminate].
    destruct (field_shape k (shape_req item)) as [s2|] eqn:F2; [|discriminate]. destruct s2; try discriminate.
    destruct (accepted_list_section _ _ _ _ F A) as [l [G Hl]]. destruct (items_strings _ _ _ F2 Hl) as [ps Hps]. eauto.
  Qed.

  Lemma demands_list_section_sound : forall sh sec d,
    demands_list_section sh sec = true -> accepts ext sh d = true -> exists l, py_getitem d sec = Some (JArr l).
  Proof.
    intros sh sec d D A. unfold demands_list_section in D.
    destruct (field_shape sec (shape_req sh)) as [s|] eqn:F; [|discriminate].
    destruct s as [| | | |strict item|]; try discriminate. destruct strict; [|discriminate].
    destruct (accepted_list_section _ _ _ _ F A) as [l [G _]]. eauto.
  Qed.
End Generic.

Lemma strings_at_spec : forall k items ps, strings_at k items = Some ps ->
  Forall2 (fun it p => py_getitem it k = Some (JStr p)) items ps.
Proof.
  intros k items. induction items as [|it r IH]; intros ps H; simpl in H.
  - inversion H. constructor.
  - destruct (py_getitem it k) as [v|] eqn:G; [|discriminate]. destruct v; try discriminate.
    destruct (strings_at k r) as [ss|] eqn:St; [|discriminate]. inversion H; subst. constructor; [exact G|apply IH; reflexivity].
Qed.

Lemma strings_at_none : forall k items it, In it items -> (forall s, py_getitem it k <> Some (JStr s)) -> strings_at k items = None.
Proof.
  intros k items it. induction items as [|a r IH]; intros Hin Hn; [destruct Hin|]. simpl.
  destruct Hin as [->|Hin].
  - destruct (py_getitem it k) as [v|] eqn:G; [|reflexivity]. destruct v; try reflexivity. exfalso. eapply Hn; eauto.
  - rewrite (IH Hin Hn). destruct (py_getitem a k) as [v|]; [destruct v|]; reflexivity.
Qed.

Lemma strings_at2_spec : forall k1 k2 recs ps, strings_at2 k1 k2 recs = Some ps ->
  Forall2 (fun r p => exists h, py_getitem r k1 = Some h /\ py_getitem h k2 = Some (JStr p)) recs ps.
Proof.
  intros k1 k2 recs. induction recs as [|r rest IH]; intros ps H; simpl in H.
  - inversion H. constructor.
  - destruct (py_getitem r k1) as [h|] eqn:G1; [|discriminate].
    destruct (py_getitem h k2) as [v|] eqn:G2; [|discriminate]. destruct v; try discriminate.
    destruct (strings_at2 k1 k2 rest) as [ss|] eqn:St; [|discriminate]. inversion H; subst.
    constructor; [exists h; auto|apply IH; reflexivity].
Qed.

Lemma strings_at2_none : forall k1 k2 recs r, In r recs ->
  (forall h s, py_getitem r k1 = Some h -> py_getitem h k2 <> Some (JStr s)) -> strings_at2 k1 k2 recs = None.
Proof.
  intros k1 k2 recs r. induction recs as [|a rest IH]; intros Hin Hn; [destruct Hin|]. simpl.
  destruct Hin as [->|Hin].
  - destruct (py_getitem r k1) as [h|] eqn:G1; [|reflexivity].
    destruct (py_getitem h k2) as [v|] eqn:G2; [|reflexivity]. destruct v; try reflexivity. exfalso. eapply Hn; eauto.
  - rewrite (IH Hin Hn). destruct (py_getitem a k1) as [h|]; [|reflexivity]. destruct (py_getitem h k2) as [v|]; [destruct v|]; reflexivity.
Qed.

Lemma gen_metadata_demands_snapshot_lists : demands_section_strings gen_metadata_shape gen_snapshots_key gen_manifest_list_key = true.
Proof. reflexivity. Qed.

Lemma gen_list_record_demands_path : demands_key gen_list_record_shape gen_list_path_key = true.
Proof. reflexivity. Qed.

(* the reader subscripts record[file_key][path_key]: the nested record shape demands the path key *)
Lemma gen_manifest_record_demands_path :
  match field_shape gen_manifest_file_key (shape_req gen_manifest_record_shape) with
  | Some h => demands_key h gen_manifest_path_key
  | None => false
  end = true.
Proof. reflexivity. Qed.

Lemma gen_list_json_demands_section : demands_list_section gen_list_json_shape gen_list_json_key = true.
Proof. reflexivity. Qed.
Lemma gen_manifest_json_demands_section : demands_list_section gen_manifest_json_shape gen_manifest_json_key = true.
Proof. reflexivity. Qed.

Lemma accepted_metadata_names_all_lists : forall ext d, accepts ext gen_metadata_shape d = true ->
  exists items, py_getitem d gen_snapshots_key = Some (JArr items) /\ strings_at gen_manifest_list_key items = Some (doc_lists d).
Proof.
  intros ext d A.
  destruct (demands_section_strings_sound ext _ _ _ d gen_metadata_demands_snapshot_lists A) as [items [ps [G St]]].
  exists items. split; [exact G|]. unfold doc_lists, section_strings. rewrite G, St. reflexivity.
Qed.

Lemma doc_fail_closed : forall ext tp grace now timeout o d st,
  wf_store (doc_lists d) st ->
  match collect_doc ext tp grace now timeout o d st with
  | DocRefused => doc_deleted (collect_doc ext tp grace now timeout o d st) = []
  | DocRun r =>
      (exists items, py_getitem d gen_snapshots_key = Some (JArr items)
                     /\ Forall2 (fun it l => py_getitem it gen_manifest_list_key = Some (JStr l)) items (doc_lists d))
      /\ gc_safe_spec now grace timeout (doc_lists d) st r
  end.
Proof.
  intros ext tp grace now timeout o d st W. unfold collect_doc.
  destruct (accepts ext gen_metadata_shape d) eqn:A; [|reflexivity].
  destruct (negb COLLECT_CHECKS_CURRENT_SNAPSHOT || current_listed d); [|reflexivity]. split.
  - destruct (accepted_metadata_names_all_lists ext d A) as [items [G St]]. exists items. split; [exact G|apply strings_at_spec; exact St].
  - apply gc_safe_all_faults. exact W.
Qed.

(* how an example shows that a collection on a document ran and what its run was like: evaluating the match decides both at
   once, and no run has to be written down (the device of GCRaceProofs.some_witness) *)
Lemma doc_run_witness (x : doc_result) (P : result -> Prop) :
  match x with DocRun r => P r | DocRefused => False end -> exists r, x = DocRun r /\ P r.
Proof. destruct x; [contradiction | eauto]. Qed.

(* The current snapshot.  collect() refuses a metadata whose current_snapshot_id names none of the snapshots it lists:
   read off the source (Gen/GenNorm.v; false when collect() makes no such check -- then dangling_current_refused, and with
   it Props/C07.v C07_dangling_current_refused and C07_run_protects_current_snapshot, no longer check) *)
Lemma collect_checks_current_snapshot : COLLECT_CHECKS_CURRENT_SNAPSHOT = true.
Proof. reflexivity. Qed.

Lemma dangling_current_refused : forall ext tp grace now timeout o d st,
  current_listed d = false -> collect_doc ext tp grace now timeout o d st = DocRefused.
Proof.
  intros ext tp grace now timeout o d st H. unfold collect_doc. rewrite collect_checks_current_snapshot, H.
  destruct (accepts ext gen_metadata_shape d); reflexivity.
Qed.

(* the specification's `dangling_current` makes the computed test current_listed false, so that dangling_current_refused applies
   (CURRENT_UNSET_NUM, the number the source compares with, is -1: by computation) *)
Lemma dangling_not_listed : forall d, dangling_current d -> current_listed d = false.
Proof.
  intros d [c [items [Gc [Gs [Nn [N1 Hno]]]]]]. unfold current_listed. rewrite Gc, Gs.
  apply orb_false_iff. split.
  - unfold current_unset. destruct c; try exact N1. contradiction.
  - destruct (existsb (snapshot_has_id c) items) eqn:E; [|reflexivity]. exfalso.
    apply existsb_exists in E. destruct E as [it [Hin Hid]]. unfold snapshot_has_id in Hid.
    destruct (py_getitem it gen_snapshot_id_key) as [i|] eqn:Gi; [|discriminate].
    rewrite (Hno it Hin i Gi) in Hid. discriminate.
Qed.

Lemma list_json_section_lost : forall ext d,
  (forall l, py_getitem d gen_list_json_key <> Some (JArr l)) -> as_list (list_json_content ext d) = None.
Proof.
  intros ext d H. unfold list_json_content. destruct (accepts ext gen_list_json_shape d) eqn:A; [|reflexivity]. exfalso.
  destruct (demands_list_section_sound ext _ _ d gen_list_json_demands_section A) as [l G]. exact (H l G).
Qed.

Lemma manifest_json_section_lost : forall ext d,
  (forall l, py_getitem d gen_manifest_json_key <> Some (JArr l)) -> as_manifest (manifest_json_content ext d) = None.
Proof.
  intros ext d H. unfold manifest_json_content. destruct (accepts ext gen_manifest_json_shape d) eqn:A; [|reflexivity]. exfalso.
  destruct (demands_list_section_sound ext _ _ d gen_manifest_json_demands_section A) as [l G]. exact (H l G).
Qed.

Lemma list_records_readable : forall ext recs ps, as_list (list_records_content ext recs) = Some ps ->
  forallb (accepts ext gen_list_record_shape) recs = true
  /\ Forall2 (fun r p => py_getitem r gen_list_path_key = Some (JStr p)) recs ps.
Proof.
  intros ext recs ps H. unfold list_records_content in H.
  destruct (forallb (accepts ext gen_list_record_shape) recs) eqn:A; [|discriminate].
  destruct (strings_at gen_list_path_key recs) as [qs|] eqn:St; [|discriminate].
  simpl in H. inversion H; subst. split; [reflexivity|apply strings_at_spec; exact St].
Qed.

Lemma manifest_records_readable : forall ext recs ps, as_manifest (manifest_records_content ext recs) = Some ps ->
  forallb (accepts ext gen_manifest_record_shape) recs = true
  /\ Forall2 (fun r p => exists h, py_getitem r gen_manifest_file_key = Some h /\ py_getitem h gen_manifest_path_key = Some (JStr p)) recs ps.
Proof.
  intros ext recs ps H. unfold manifest_records_content in H.
  destruct (forallb (accepts ext gen_manifest_record_shape) recs) eqn:A; [|discriminate].
  destruct (strings_at2 gen_manifest_file_key gen_manifest_path_key recs) as [qs|] eqn:St; [|discriminate].
  simpl in H. inversion H; subst. split; [reflexivity|apply strings_at2_spec; exact St].
Qed.

Lemma list_records_damaged : forall ext recs r, In r recs ->
  accepts ext gen_list_record_shape r = false \/ (forall s, py_getitem r gen_list_path_key <> Some (JStr s)) ->
  as_list (list_records_content ext recs) = None.
Proof.
  intros ext recs r Hin D. unfold list_records_content.
  destruct (forallb (accepts ext gen_list_record_shape) recs) eqn:A; [|reflexivity]. destruct D as [H|H].
  - rewrite forallb_forall in A. rewrite (A r Hin) in H. discriminate.
  - rewrite (strings_at_none _ _ _ Hin H). reflexivity.
Qed.

Lemma manifest_records_damaged : forall ext recs r, In r recs ->
  accepts ext gen_manifest_record_shape r = false
  \/ (forall h s, py_getitem r gen_manifest_file_key = Some h -> py_getitem h gen_manifest_path_key <> Some (JStr s)) ->
  as_manifest (manifest_records_content ext recs) = None.
Proof.
  intros ext recs r Hin D. unfold manifest_records_content.
  destruct (forallb (accepts ext gen_manifest_record_shape) recs) eqn:A; [|reflexivity]. destruct D as [H|H].
  - rewrite forallb_forall in A. rewrite (A r Hin) in H. discriminate.
  - rewrite (strings_at2_none _ _ _ _ Hin H). reflexivity.
Qed.

