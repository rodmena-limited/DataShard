(* Proofs/TextBounds.v -- stored statistics need not be exact, they must be SOUND.

   file pruning (filters._file_may_match, GenPrune.gen_try_body) reads the bounds a writer stored.  The scan APIs
   return the SQL answer for ANY stored bounds under which no expression prunes a file holding a selected row
   (`expr_bounds_ok`): exact min / max (C13), or -- for text columns -- any lower bound below every value and any
   upper bound above every value (conservative bounds, e.g. a PREFIX of the minimum as lower bound).
   A prefix of the maximum as upper bound is not sound: C12_prefix_upper_bound_refuted. *)
From Coq Require Import QArith List.
Require Import DS.Model.Value DS.Gen.GenPrune DS.Model.Prune DS.Proofs.PruneProofs.
Require Import DS.Model.Filter DS.Proofs.FilterProofs.
Import ListNotations.
Open Scope Z_scope.

Definition expr_bounds_ok (X : value -> value -> bool) (lo hi : list (Z * value)) (ids : list (Z * Z)) (rows : list row) (e : fexpr) : Prop :=
  forall cid fmin fmax,
    lookup (fcol e) ids = Some cid -> lookup cid lo = Some fmin -> lookup cid hi = Some fmax ->
    gen_try_body (fop_ e) fmin fmax (fsval e) (flval e) = Some false ->
    forall r, In r rows -> selected X (fop_ e) (cell r (fcol e)) (fsval e) (flval e) = false.

Section SoundBounds.
  Variable X : value -> value -> bool.
  Variable ids : list (Z * Z).
  Variable bounds : file -> list (Z * value) * list (Z * value).

  Definition bounds_sound (es : list fexpr) (files : list file) : Prop :=
    forall f e, In f files -> In e es -> expr_bounds_ok X (fst (bounds f)) (snd (bounds f)) ids (frows f) e.

  (* so that FilterProofs.api_sql applies (the hypothesis of PruneProofs.may_match_sound is expr_bounds_ok written out) *)
  Lemma bounds_sound_safe es files : bounds_sound es files -> forall f, In f files -> prune_safe X ids bounds es f.
  Proof. intros BS f I. exact (may_match_sound X _ _ ids (frows f) es (fun e Ie => BS f e I Ie)). Qed.
End SoundBounds.

Definition text_or_null (v : value) : Prop := is_null v = true \/ exists s, v = VStr s.

Lemma text_expr_sound X l h op sval lval v :
  text_or_null v -> (is_null v = false -> vle (VStr l) v /\ vle v (VStr h)) ->
  gen_try_body op (VStr l) (VStr h) sval lval = Some false -> selected X op v sval lval = false.
Proof.
  intros TX BT G. destruct (is_null v) eqn:Nv; [exact (null_unselected X op _ _ sval lval v Nv G)|].
  destruct (BT eq_refl) as [Lo Hi]. destruct TX as [N|[s ->]]; [congruence|].
  exact (enclosed_sound X op _ _ sval lval _ Lo Hi eq_refl eq_refl G).
Qed.

Lemma lex_prefix_le (n : nat) (s : list Z) : lex_cmp (firstn n s) s <> Gt.
Proof.
  revert n. induction s as [|a s IH]; intros [|n]; simpl; try discriminate.
  rewrite Z.compare_refl. apply IH.
Qed.
