(* Proofs/FaultProofs.v -- a failed, interrupted or crashed commit never damages committed data (C04, C03).
   Two facts carry everything: the file plane only grows ([grows]: history, metadata files and reference lists gain
   entries at the end, a flipped or finished transaction stays so), and the invariant [FInv] of every reachable world. *)
From Coq Require Import List Bool Arith Lia.
Require Import DS.Model.Commit DS.Model.Fault DS.Proofs.ListFacts DS.Proofs.CommitProofs.
Import ListNotations.

Definition pcof (x : fworld) (a : aid) : pc := a_pc (w_actors (fw x) a).

Definition extends {A} (l l' : list A) : Prop := exists t, l' = l ++ t.

Lemma extends_refl {A} (l : list A) : extends l l.
Proof. exists []. symmetry. apply app_nil_r. Qed.

Lemma extends_trans {A} (l1 l2 l3 : list A) : extends l1 l2 -> extends l2 l3 -> extends l1 l3.
Proof. intros [t ->] [u ->]. exists (t ++ u). symmetry. apply app_assoc. Qed.

Lemma extends_nth {A} (l l' : list A) n d : extends l l' -> (n < length l)%nat -> nth n l' d = nth n l d.
Proof. intros [t ->] L. apply app_nth1. exact L. Qed.

Lemma comm_extends h h' v : extends h h' -> In v (comm h) -> In v (comm h').
Proof. intros [t ->] [E|H]; [left; exact E | right; rewrite map_app; apply in_or_app; left; exact H]. Qed.

Lemma refs_app_old x l v : (v < length (f_refs x))%nat -> nth v (f_refs x ++ [l]) [] = refs x v.
Proof. intro H. unfold refs. apply app_nth1. exact H. Qed.

Lemma in_nth_snoc {A} (L : list (list A)) l v f : In f (nth v (L ++ [l]) []) -> In f (nth v L []) \/ In f l.
Proof.
  destruct (Nat.lt_ge_cases v (length L)) as [Lt|Ge]; [rewrite app_nth1 by exact Lt; auto|].
  rewrite app_nth2 by exact Ge. destruct (v - length L)%nat as [|[|k]]; simpl; auto; intros [].
Qed.

Lemma in_remove_all del l f : In f (remove_all del l) <-> In f l /\ ~ In f del.
Proof.
  unfold remove_all. rewrite filter_In, negb_true_iff, (existsb_eqb_not_In _ Nat.eqb Nat.eqb_eq). reflexivity.
Qed.

Lemma step_mono c w e w' : step c w e = Some w' ->
  extends (w_files w) (w_files w') /\ extends (w_hist w) (w_hist w')
  /\ forall b, (flipped (a_pc (w_actors w b)) = true -> flipped (a_pc (w_actors w' b)) = true)
            /\ (forall o, a_pc (w_actors w b) = PDone o -> a_pc (w_actors w' b) = PDone o).
Proof.
  intro St. destruct (step_cases c _ _ _ St) as [Oth Shape].
  split; [|split; [|intro b; split; [|intro o; exact (step_pdone_stable c w e w' b o St)]]].
  - destruct Shape; rewrite Fi; [eexists; reflexivity | apply extends_refl | apply extends_refl].
  - destruct Shape; rewrite Hi; [apply extends_refl | eexists; reflexivity | apply extends_refl].
  - (* a bystander is untouched; the acting committer is not flipped before its write, is after its flip, else keeps `flipped` *)
    destruct (Nat.eq_dec b (e_actor e)) as [->|NE]; [|rewrite (Oth b NE); auto].
    destruct Shape; [rewrite PC; discriminate | rewrite PC'; reflexivity | rewrite Fl; auto].
Qed.

Record grows (x x' : fworld) : Prop := {
  G_files : extends (w_files (fw x)) (w_files (fw x'));
  G_hist : extends (w_hist (fw x)) (w_hist (fw x'));
  G_refs : extends (f_refs x) (f_refs x');
  G_flip : forall b, flipped (pcof x b) = true -> flipped (pcof x' b) = true;
  G_done : forall b o, pcof x b = PDone o -> pcof x' b = PDone o }.

Lemma grows_refl x : grows x x.
Proof. constructor; auto using extends_refl. Qed.

Lemma grows_trans x y z : grows x y -> grows y z -> grows x z.
Proof. intros [A1 A2 A3 A4 A5] [B1 B2 B3 B4 B5]. constructor; eauto using extends_trans. Qed.

Lemma fstep_grows c x ev x' : fstep c x ev = Some x' -> grows x x'.
Proof.
  intro H. destruct ev as [e|a|a]; simpl in H.
  - destruct (step c (fw x) e) as [w'|] eqn:St; [|discriminate]. injection H as <-.
    destruct (step_mono c _ _ _ St) as [Fi [Hi Act]]. constructor; simpl; auto; try apply Act.
    (* G_refs: only EMetaW at PValidated appends *)
    destruct (e_kind e); try apply extends_refl. destruct (a_pc _); try apply extends_refl. eexists; reflexivity.
  - destruct (can_write _); [|discriminate]. injection H as <-. constructor; simpl; auto using extends_refl.
  - destruct (can_rollback _); [|discriminate]. injection H as <-. constructor; simpl; auto using extends_refl.
Qed.

Lemma frun_grows c x evs : grows x (frun c x evs).
Proof.
  apply (run_skip_preserves _ _ (fstep c) (grows x)); [|apply grows_refl].
  intros y e y' G E. apply (grows_trans x y y' G), (fstep_grows c y e y' E).
Qed.

Lemma grows_refs x x' v : grows x x' -> (v < length (f_refs x))%nat -> refs x' v = refs x v.
Proof. intros G L. apply (extends_nth _ _ _ _ (G_refs x x' G) L). Qed.

Lemma fstep_refs_len c x e x' : fstep c x e = Some x' -> (length (f_refs x) <= length (f_refs x'))%nat.
Proof. intro H. destruct (G_refs x x' (fstep_grows c x e x' H)) as [t ->]. rewrite app_length. lia. Qed.

(* a file is safe from rollback when the transaction that wrote it has flipped the pointer (or it was there at the start) *)
Definition safe (x : fworld) (f : fid) : Prop :=
  match f_owner x f with None => True | Some b => flipped (pcof x b) = true end.

(* FI_inv: the commit machine's invariant.  FI_len: one reference list per metadata file.  FI_own: a file in a transaction's
   write list is owned by it; FI_alloc, FI_refa: owned and referenced files were allocated (below f_next, so FWrite's file is
   fresh).  FI_dead: only a transaction that may still roll back (never flipped) has run the deleting rollback.
   FI_k1: what a committed version references is safe.  FI_k2: what a version written but not yet flipped references is
   safe or its writer's own -- and becomes safe at the flip.  FI_pres: a file goes only with its writer's rollback. *)
Record FInv (c : cfg) (x : fworld) : Prop := {
  FI_inv : Inv c (fw x);
  FI_len : length (f_refs x) = length (w_files (fw x));
  FI_own : forall a f, In f (f_written x a) -> f_owner x f = Some a;
  FI_alloc : forall f a, f_owner x f = Some a -> (f < f_next x)%nat;
  FI_refa : forall v f, In f (refs x v) -> (f < f_next x)%nat;
  FI_dead : forall b, f_dead x b = true -> can_rollback (pcof x b) = true;
  FI_pres : forall f, (f < f_next x)%nat -> (forall b, f_owner x f = Some b -> f_dead x b = false) -> In f (f_present x);
  FI_k1 : forall v, In v (committed (fw x)) -> forall f, In f (refs x v) -> safe x f;
  FI_k2 : forall a, inW (pcof x a) = true -> forall f, In f (refs x (a_new (w_actors (fw x) a))) -> safe x f \/ f_owner x f = Some a }.

Lemma can_rollback_not_flipped p : can_rollback p = true -> flipped p = false.
Proof. destruct p as [| | | | | | | |[]]; simpl; intro; try discriminate; reflexivity. Qed.

Lemma finv_committed_valid c x v : FInv c x -> In v (committed (fw x)) -> (v < length (f_refs x))%nat.
Proof. intros I Hv. rewrite (FI_len c x I). eapply committed_valid; [apply I | exact Hv]. Qed.

(* FI_k1, FI_dead, FI_pres, and FI_refa for the bound FI_pres asks: FI_k2 and the ownership clauses are not needed *)
Lemma finv_present c x : FInv c x ->
  forall v, In v (committed (fw x)) -> forall f, In f (refs x v) -> In f (f_present x).
Proof.
  intros I v Hv f Hf. apply (FI_pres c x I); [eapply FI_refa; eauto|].
  intros b Ob. pose proof (FI_k1 c x I v Hv f Hf) as Sf. unfold safe in Sf. rewrite Ob in Sf.
  destruct (f_dead x b) eqn:D; auto. apply (FI_dead c x I) in D. apply can_rollback_not_flipped in D. congruence.
Qed.

Lemma finv_unreachable c x : FInv c x ->
  forall a, flipped (pcof x a) = false -> forall f, In f (f_written x a) ->
  forall v, In v (committed (fw x)) -> ~ In f (refs x v).
Proof.
  intros I a NF f Wf v Hv Hf. pose proof (FI_k1 c x I v Hv f Hf) as Sf. unfold safe in Sf.
  rewrite (FI_own c x I a f Wf) in Sf. congruence.
Qed.

Lemma finv_dead_unflipped c x : FInv c x ->
  forall a, f_dead x a = true -> flipped (pcof x a) = false /\ ~ In a (map snd (w_hist (fw x))).
Proof.
  intros I a D. pose proof (can_rollback_not_flipped _ (FI_dead c x I a D)) as NF. split; [exact NF|].
  intro H. apply (Inv_acked c _ a (FI_inv c x I)) in H. unfold pcof in NF. congruence.
Qed.

(* what fstep makes of x at a protocol step: the commit machine moves to w', the reference lists become R *)
Definition after_step (x : fworld) (w' : world) (R : list (list fid)) : fworld :=
  {| fw := w'; f_present := f_present x; f_refs := R; f_written := f_written x; f_next := f_next x;
     f_owner := f_owner x; f_dead := f_dead x |}.

(* A newly committed version was a's pending one, and a has flipped; if a's version is newly pending, it references what its
   base does and what a wrote. *)
Lemma finv_frame c x a w' R :
  FInv c x -> grows x (after_step x w' R) -> Inv c w' ->
  (forall b, b <> a -> w_actors w' b = w_actors (fw x) b) ->
  length R = length (w_files w') ->
  (forall v f, In f (nth v R []) -> (f < f_next x)%nat) ->
  (forall v, In v (committed w') ->
     In v (committed (fw x))
     \/ (v = a_new (w_actors (fw x) a) /\ inW (pcof x a) = true /\ flipped (a_pc (w_actors w' a)) = true)) ->
  (inW (a_pc (w_actors w' a)) = true ->
     (inW (pcof x a) = true /\ a_new (w_actors w' a) = a_new (w_actors (fw x) a))
     \/ nth (a_new (w_actors w' a)) R [] = refs x (a_base (w_actors (fw x) a)) ++ f_written x a) ->
  FInv c (after_step x w' R).
Proof.
  intros I G I' Oth Len Refa New1 New2. set (x' := after_step x w' R) in *.
  assert (Safe' : forall f, safe x f -> safe x' f).
  { intro f. unfold safe. simpl. destruct (f_owner x f); [apply G | trivial]. }
  assert (K2 : forall b, inW (pcof x b) = true -> forall f, In f (refs x' (a_new (w_actors (fw x) b))) ->
               safe x' f \/ f_owner x f = Some b).
  { intros b Wb f Hf. rewrite (grows_refs x x' _ G) in Hf.
    - destruct (FI_k2 c x I b Wb f Hf) as [Sf|Own]; [left; apply Safe', Sf | right; exact Own].
    - rewrite (FI_len c x I). apply (AI_new _ _ _ _ _ _ (I_actor c _ (FI_inv c x I) b) Wb). }
  constructor; try apply I; auto.
  - (* FI_dead *) intros b D. pose proof (FI_dead c x I b D) as Rb. destruct (pcof x b) as [| | | | | | | |o] eqn:P; try discriminate.
    rewrite (G_done x x' G b o P). exact Rb.
  - (* FI_k1 *) intros v Hv f Hf. destruct (New1 v Hv) as [Old|[-> [Wa Fl]]].
    + rewrite (grows_refs x x' v G) in Hf by (eapply finv_committed_valid; eauto). apply Safe', (FI_k1 c x I v Old f Hf).
    + destruct (K2 a Wa f Hf) as [Sf|Own]; [exact Sf|]. unfold safe. simpl. rewrite Own. exact Fl.
  - (* FI_k2 *) intros b Wb f Hf. unfold pcof in Wb. simpl in Wb, Hf.
    destruct (Nat.eq_dec b a) as [->|NE]; [|rewrite (Oth b NE) in Wb, Hf; apply (K2 b Wb f Hf)].
    destruct (New2 Wb) as [[Wo E]|E].
    + apply (K2 a Wo f). rewrite <- E. exact Hf.
    + unfold refs in Hf at 1. simpl in Hf. rewrite E in Hf. apply in_app_iff in Hf.
      destruct Hf as [Hf|Hf]; [left | right; apply (FI_own c x I a f Hf)].
      apply Safe', (FI_k1 c x I _ (AI_base _ _ _ _ _ _ (I_actor c _ (FI_inv c x I) a)) f Hf).
Qed.

Lemma fstep_inv c x ev x' : sound c -> FInv c x -> fstep c x ev = Some x' -> FInv c x'.
Proof.
  intros Snd I H. pose proof (fstep_grows c x ev x' H) as G. destruct ev as [e|a|a]; simpl in H.
  - (* a protocol step *)
    destruct (step c (fw x) e) as [w'|] eqn:St; [|discriminate]. injection H as <-.
    pose proof (step_inv c _ _ _ Snd (FI_inv c x I) St) as I'.
    destruct (step_cases c _ _ _ St) as [Oth Shape].
    destruct Shape as [now EK PC Fi Hi New | EK PC Fi Hi PC' | Fi Hi New W Fl Dn NW];
      set (a := e_actor e) in *; set (s := w_actors (fw x) a) in *.
    + (* EMetaW: a new version, pending *)
      rewrite EK, PC in *. apply (finv_frame c x a w' _ I G I' Oth).
      * (* Len *) rewrite !app_length, Fi, app_length, (FI_len c x I). reflexivity.
      * (* Refa *) intros v f Hf. apply in_nth_snoc in Hf. destruct Hf as [Hf|Hf]; [eapply FI_refa; eauto|].
        apply in_app_iff in Hf. destruct Hf as [Hf|Hf]; [eapply FI_refa; eauto|].
        eapply FI_alloc; [exact I | apply (FI_own c x I a f Hf)].
      * (* New1 *) intros v Hv. left. unfold committed in *. rewrite <- Hi. exact Hv.
      * (* New2 *) intros _. right. rewrite New, <- (FI_len c x I), app_nth2, Nat.sub_diag by lia. reflexivity.
    + (* EFlip true: the pending version becomes committed *)
      rewrite EK in *. cbn iota in *. apply (finv_frame c x a w' _ I G I' Oth).
      * (* Len *) rewrite Fi. apply I.
      * (* Refa *) apply I.
      * (* New1 *) intros v Hv. unfold committed in *. rewrite Hi in Hv. apply comm_snoc in Hv. destruct Hv as [Hv| ->]; [left; exact Hv|].
        right. unfold pcof. fold s. rewrite PC, PC'. auto.
      * (* New2 *) rewrite PC'. discriminate.
    + (* any other protocol step changes neither files, history nor references *)
      assert (R : match e_kind e, a_pc s with
                  | EMetaW _, PValidated => f_refs x ++ [refs x (a_base s) ++ f_written x a]
                  | _, _ => f_refs x end = f_refs x).
      { destruct (e_kind e) as [v|ok| |v ok|now|ok|ok| | | ]; auto. destruct (a_pc s) eqn:PC; auto.
        destruct (NW now eq_refl eq_refl). }
      rewrite R in *. apply (finv_frame c x a w' _ I G I' Oth).
      * (* Len *) rewrite Fi. apply I.
      * (* Refa *) apply I.
      * (* New1 *) intros v Hv. left. unfold committed in *. rewrite <- Hi. exact Hv.
      * (* New2 *) intro Wa. left. split; [apply W, Wa | exact New].
  - (* FWrite: a fresh file, owned by a transaction that has not flipped *)
    destruct (can_write (a_pc (w_actors (fw x) a))) eqn:CW; [|discriminate]. injection H as <-. clear G.
    assert (OwnOld : forall f, (f < f_next x)%nat -> (if Nat.eqb f (f_next x) then Some a else f_owner x f) = f_owner x f).
    { intros f L. destruct (Nat.eqb_spec f (f_next x)) as [->|]; [destruct (Nat.lt_irrefl _ L) | reflexivity]. }
    assert (Own : forall b f, In f (f_written x b) -> (if Nat.eqb f (f_next x) then Some a else f_owner x f) = Some b).
    { intros b f Hf. pose proof (FI_own c x I b f Hf) as Ob. rewrite OwnOld; [exact Ob | apply (FI_alloc c x I f b Ob)]. }
    constructor; simpl; auto; try apply I.
    + (* FI_own *) intros b f Hf. unfold updw in Hf. destruct (Nat.eqb_spec b a) as [->|NE]; [|apply (Own b f Hf)].
      destruct Hf as [<-|Hf]; [rewrite Nat.eqb_refl; reflexivity | apply (Own a f Hf)].
    + (* FI_alloc *) intros f b. destruct (Nat.eqb_spec f (f_next x)) as [->|NE]; [intros _; apply Nat.lt_succ_diag_r|].
      intro Ob. apply Nat.lt_lt_succ_r, (FI_alloc c x I f b Ob).
    + (* FI_refa *) intros v f Hf. apply Nat.lt_lt_succ_r, (FI_refa c x I v f Hf).
    + (* FI_pres *) intros f L Hd. destruct (Nat.eq_dec f (f_next x)) as [->|NE]; [left; reflexivity|]. right.
      apply (FI_pres c x I); [lia|]. intros b Ob. apply Hd. rewrite OwnOld by lia. exact Ob.
    + (* FI_k1 *) intros v Hv f Hf. unfold safe. simpl. rewrite OwnOld by (eapply FI_refa; eauto). apply (FI_k1 c x I v Hv f Hf).
    + (* FI_k2 *) intros b Wb f Hf. unfold safe. simpl. rewrite OwnOld by (eapply FI_refa; eauto). apply (FI_k2 c x I b Wb f Hf).
  - (* FRollback: delete the transaction's own files -- only a never-flipped transaction may *)
    destruct (can_rollback (a_pc (w_actors (fw x) a))) eqn:CR; [|discriminate]. injection H as <-. clear G.
    constructor; simpl; auto; try apply I.
    + (* FI_own *) intros b f Hf. unfold updw in Hf. destruct (Nat.eqb_spec b a); [destruct Hf | apply (FI_own c x I b f Hf)].
    + (* FI_dead *) intros b D. destruct (Nat.eqb_spec b a) as [E|NE]; [subst b; exact CR | apply (FI_dead c x I b D)].
    + (* FI_pres *) intros f L Hd. apply in_remove_all. split.
      * apply (FI_pres c x I f L). intros b Ob. specialize (Hd b Ob). destruct (Nat.eqb_spec b a); [discriminate|exact Hd].
      * intro Wf. pose proof (FI_own c x I a f Wf) as Ob. specialize (Hd a Ob). rewrite Nat.eqb_refl in Hd. discriminate.
Qed.

Lemma finit_inv c m0 kind mr r0 next : (forall f, In f r0 -> (f < next)%nat) -> FInv c (finit m0 kind mr r0 next).
Proof.
  intro A. constructor; simpl; auto.
  - apply init_inv.
  - intros a f [].
  - intros f a H. discriminate.
  - intros v f Hf. unfold refs in Hf. simpl in Hf. destruct v as [|[|v]]; simpl in Hf; try destruct Hf. apply A; exact Hf.
  - intros f L _. apply in_seq. lia.
  - intros v _ f _. unfold safe. simpl. trivial.
  - intros a W. discriminate.
Qed.

Lemma frun_inv c x evs : sound c -> FInv c x -> FInv c (frun c x evs).
Proof. intro Snd. apply (run_skip_preserves _ _ (fstep c) (FInv c)). intros y e y' I E. apply (fstep_inv c y e y' Snd I E). Qed.

(* the statements of C03 and C04 (and the writer side of C02) are what FInv says of such a world *)
Lemma reach_finv c m0 kind mr r0 next evs :
  sound c -> (forall f, In f r0 -> (f < next)%nat) -> FInv c (frun c (finit m0 kind mr r0 next) evs).
Proof. intros Snd A. apply frun_inv; [exact Snd | apply finit_inv; exact A]. Qed.

(* so what the commit machine's theorems say of every reachable world they say of `fw` of every world reached here
   (crash atomicity, pre-or-post, the invariant: Props/C03.v, C04.v, C02.v) *)
Lemma frun_refines c x evs : exists l, fw (frun c x evs) = run c (fw x) l.
Proof.
  apply (run_skip_projects _ _ _ _ (fstep c) (step c) fw). intros y ev y' H.
  destruct ev as [e|a|a]; simpl in H.
  - right. exists e. unfold skip. destruct (step c (fw y) e); [|discriminate]. injection H as <-. reflexivity.
  - left. destruct (can_write _); [|discriminate]. injection H as <-. reflexivity.
  - left. destruct (can_rollback _); [|discriminate]. injection H as <-. reflexivity.
Qed.

Lemma frun_linear c m0 kind mr r0 next evs : sound c -> Linear c m0 (fw (frun c (finit m0 kind mr r0 next) evs)).
Proof. intro Snd. destruct (frun_refines c (finit m0 kind mr r0 next) evs) as [l ->]. apply reach_linear. exact Snd. Qed.

(* Files are write-once: FWrite only ever creates fresh names, so unchanged names mean unchanged content. *)
Theorem committed_immutable c x evs :
  sound c -> FInv c x ->
  forall v, In v (committed (fw x)) ->
    refs (frun c x evs) v = refs x v /\ (forall f, In f (refs x v) -> In f (f_present (frun c x evs)))
    /\ In v (committed (fw (frun c x evs))).
Proof.
  intros Snd I v Hv. pose proof (frun_grows c x evs) as G.
  assert (R : refs (frun c x evs) v = refs x v) by (apply (grows_refs _ _ _ G); eapply finv_committed_valid; eauto).
  assert (Hv' : In v (committed (fw (frun c x evs)))) by apply (comm_extends _ _ _ (G_hist _ _ G) Hv).
  split; [exact R|]. split; [|exact Hv'].
  rewrite <- R. apply (finv_present c _ (frun_inv c x evs Snd I) v Hv').
Qed.
