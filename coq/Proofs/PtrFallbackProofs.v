(* Proofs/PtrFallbackProofs.v -- the commit machine with an unusable pointer and commit()'s fallback (Model/PtrFallback.v).

   The theorems about the version chain are read off CommitProofs.Linear; what this machine adds:
   - For the store that can tell damaged pointer objects apart (rstep), unconditionally (any damage events, any scan results,
     any lock): every applied pointer write replaced exactly the
     pointer object whose ETag its committer had read under the lock; when that object named a version, it is the version
     validated (read from the very bytes that came with the ETag); when it was unusable, the version validated is the one
     the fallback recovered by scanning -- a committer that found the pointer repaired at the re-read is refused by the
     store (RI, fallback_replaced_what_it_read).
   - When every scan returns the version named by the last successful pointer write (`exact = true`: recovery is right,
     C10's subject) each step is at most one step of the commit machine (rstep_sim), so every reachable world is Linear.
   - Without that hypothesis the chain theorem is FALSE: a scan that returns another committer's unpublished file of the
     same version number loses an acknowledged commit (fallback_full_refuted, by computation).
   - rstep_s idn, the store that compares only what it sees, is rstep when idn is injective (rstep_s_ideal); for a constant idn
     the first statement fails (double_damage_witness). *)
From Coq Require Import ZArith List Bool Lia.
Require Import DS.Model.Commit DS.Model.PtrFallback DS.Proofs.CommitProofs.
Require DS.Proofs.ListFacts.
Import ListNotations.

(* a refused conditional write changes nothing but the committer's program counter *)
Definition refused (w w' : world) : Prop :=
  exists a, a_pc (w_actors w a) = PFenced /\ w' = with_actor w a (set_pc (w_actors w a) PConflict).

Lemma linear_refused c m0 w w' : Linear c m0 w -> refused w w' -> Linear c m0 w'.
Proof.
  intros [Iw Rw Zw] [a [PC ->]]. constructor; [|exact Rw|exact Zw].
  apply (inv_set_pc c w a PConflict (w_lock w) Iw); try discriminate;
    [rewrite PC; reflexivity | apply (excl_kept c w a _ Iw); discriminate].
Qed.

Lemma setf_same {A} a (v : A) f : setf a v f a = v.
Proof. unfold setf. rewrite Nat.eqb_refl. reflexivity. Qed.
Lemma setf_other {A} a b (v : A) f : b <> a -> setf a v f b = f b.
Proof. intro NE. unfold setf. destruct (Nat.eqb_spec b a); [contradiction|reflexivity]. Qed.

(* What a committer past its validation holds.  Without the tag of an unusable object: ETag and validated version come from
   one read.  With the tag of unusable object g: the version validated was recovered by a scan, or read from a pointer found
   repaired -- and then g is no longer the current object, so the store will refuse.  When scans are exact and g is still
   the current object, nothing has been written to the pointer since (identities are fresh), so the version validated is the
   one named by the last successful pointer write. *)
Definition val_ok (exact : bool) (X : rworld) (a : aid) : Prop :=
  let s := w_actors (rw X) a in
  match r_tag X a with
  | None => a_etag s = a_cur s /\ r_how X a = HDirect
  | Some g => (r_how X a = HScan \/ (r_how X a = HRepaired /\ r_bad X <> Some g))
              /\ (exact = true -> r_bad X = Some g -> a_etag s = w_ptr (rw X))
  end.

(* RI_bad, RI_tag: the current unusable object and every tag a committer holds were numbered before r_next, so the next damage
   gets an identity nobody holds (a held tag never matches a LATER unusable object).  RI_val: val_ok for every committer past
   its validation.  RI_repl: every applied pointer write replaced the object its committer held (entry_ok) -- the statement of
   fallback_replaced_what_it_read. *)
Record RI (exact : bool) (X : rworld) : Prop := {
  RI_bad : forall g, r_bad X = Some g -> (g < r_next X)%nat;
  RI_tag : forall a g, r_tag X a = Some g -> (g < r_next X)%nat;
  RI_val : forall a, inV (a_pc (w_actors (rw X) a)) = true -> val_ok exact X a;
  RI_repl : Forall entry_ok (r_repl X) }.

Lemma rinit_RI exact w : (forall a, inV (a_pc (w_actors w a)) = false) -> RI exact (rinit w).
Proof.
  intro Idle. constructor; simpl; try discriminate.
  - intros a V. rewrite Idle in V. discriminate.
  - constructor.
Qed.

(* a_cur / a_etag move only at a validation (step_frame), and while r_bad = None the second clause of val_ok is vacuous, so a
   pointer move is harmless *)
Lemma RI_pass c exact X e w' : step c (rw X) e = Some w' -> RI exact X ->
  (forall v ok, e_kind e <> EValidate v ok) -> r_bad X = None \/ e_kind e <> EFlip true -> RI exact (with_world X w').
Proof.
  intros St [B T V R] NV NF. destruct (step_frame _ _ _ _ St) as [Oth [Same Ptr]]. cbv zeta in *.
  destruct (Same NV) as [C [E IV]].
  constructor; simpl; auto. (* RI_val is left *) intros b Vb.
  assert (Q : val_ok exact X b /\ a_etag (w_actors w' b) = a_etag (w_actors (rw X) b)
              /\ a_cur (w_actors w' b) = a_cur (w_actors (rw X) b)).
  { destruct (Nat.eq_dec b (e_actor e)) as [->|NE]; [auto | rewrite (Oth b NE) in *; auto]. }
  destruct Q as [Q [E' C']]. unfold val_ok in *; simpl. rewrite E', C'.
  destruct (r_tag X b); [|exact Q]. destruct Q as [Q1 Q2]. split; [exact Q1|].
  intros EX RB. rewrite (Q2 EX RB). symmetry. apply Ptr. destruct NF as [N|N]; [congruence | exact N].
Qed.

(* the bystanders' val_ok speaks of nothing that moved; a tag is acquired only by reading the current unusable object *)
Lemma RI_upd exact X X' a :
  RI exact X ->
  (forall b, b <> a -> w_actors (rw X') b = w_actors (rw X) b /\ r_tag X' b = r_tag X b /\ r_how X' b = r_how X b) ->
  w_ptr (rw X') = w_ptr (rw X) -> r_bad X' = r_bad X -> r_next X' = r_next X -> r_repl X' = r_repl X ->
  (forall g, r_tag X' a = Some g -> r_tag X a = Some g \/ r_bad X = Some g) ->
  (inV (a_pc (w_actors (rw X') a)) = true -> val_ok exact X' a) ->
  RI exact X'.
Proof.
  intros [B T V R] Oth Ep Eb En Er Ta Va. constructor.
  - (* RI_bad *) rewrite Eb, En. exact B.
  - (* RI_tag *) intros b g E. rewrite En. destruct (Nat.eq_dec b a) as [->|NE].
    + destruct (Ta g E) as [E'|E']; [exact (T a g E') | exact (B g E')].
    + destruct (Oth b NE) as [_ [Et _]]. rewrite Et in E. exact (T b g E).
  - (* RI_val *) intros b Vb. destruct (Nat.eq_dec b a) as [->|NE]; [exact (Va Vb)|]. destruct (Oth b NE) as [Ea [Et Eh]].
    rewrite Ea in Vb. specialize (V b Vb). unfold val_ok in *. rewrite Ea, Et, Eh, Ep, Eb. exact V.
  - (* RI_repl *) rewrite Er. exact R.
Qed.

Definition moved (c : cfg) (w w' : world) : Prop := w' = w \/ (exists e, step c w e = Some w') \/ refused w w'.

Lemma rstep_pass c exact X e w' : step c (rw X) e = Some w' -> RI exact X ->
  (forall v ok, e_kind e <> EValidate v ok) -> e_kind e <> EFlip true ->
  RI exact (with_world X w') /\ (exact = true -> moved c (rw X) (rw (with_world X w'))).
Proof.
  intros St I NV NF. split; [exact (RI_pass c exact X e w' St I NV (or_intror NF)) | intros _; right; left; eexists; exact St].
Qed.

(* a scan's result stands for the pointer's last value (RBegin is EBegin, RRefresh is EValidate), and the conditional write
   keyed to the current unusable object lands exactly when a write keyed to the pointer's last value would (RFlip is EFlip:
   second clause of val_ok) *)
Lemma rstep_sim c exact X x X' : cas c = true -> RI exact X -> rstep c exact X x = Some X' ->
  RI exact X' /\ (exact = true -> moved c (rw X) (rw X')).
Proof.
  intros CAS I H. destruct x as [e| |a r|a g|a rc ok|a ok]; simpl in H.
  - (* a step of the commit machine, under rstep's guards *)
    destruct e as [a k]. cbn [e_actor e_kind] in H. destruct k as [v|ok| |v ok|now|ok|ok| | | ];
      (* the kinds rstep passes to the commit machine as they are: all but EBegin, ELockTry, EValidate and EFlip, where the
         guard in front of `step` makes this `try` fail *)
      try (destruct (step c (rw X) _) as [w'|] eqn:St; [|discriminate]; injection H as <-;
           apply (rstep_pass _ _ _ _ _ St I); discriminate).
    + (* EBegin: only on a usable pointer *)
      destruct (is_some (r_bad X)); [discriminate|]. destruct (step c (rw X) _) as [w'|] eqn:St; [|discriminate].
      injection H as <-. apply (rstep_pass _ _ _ _ _ St I); discriminate.
    + (* ELockTry: a new attempt forgets the tag *)
      destruct ok.
      * (* taken *)
        destruct (step c (rw X) _) as [w'|] eqn:St; [|discriminate]. injection H as <-.
        split; [|intros _; right; left; eexists; exact St].
        destruct (step_frame _ _ _ _ St) as [Oth [_ Ptr]]. cbv zeta in Oth, Ptr.
        apply (RI_upd exact X _ a I); simpl; try reflexivity.
        -- (* others *) intros b NE. rewrite !setf_other by exact NE. auto.
        -- (* w_ptr *) apply Ptr. discriminate.
        -- (* tag *) rewrite setf_same. discriminate.
        -- (* val_ok *) rewrite (step_locktry _ _ _ _ St). discriminate.
      * (* refused *)
        destruct (step c (rw X) _) as [w'|] eqn:St; [|discriminate]. injection H as <-.
        apply (rstep_pass _ _ _ _ _ St I); discriminate.
    + (* EValidate: the bytes read with the ETag name the version *)
      destruct (r_bad X) eqn:RB; [discriminate|]. destruct (r_tag X a) eqn:RT; [discriminate|]. simpl in H.
      destruct (step c (rw X) _) as [w'|] eqn:St; [|discriminate]. injection H as <-.
      split; [|intros _; right; left; eexists; exact St].
      destruct (step_frame _ _ _ _ St) as [Oth [_ Ptr]]. cbv zeta in Oth, Ptr.
      destruct (step_validate _ _ _ _ _ _ St) as [VC VE].
      apply (RI_upd exact X _ a I); simpl; try reflexivity.
      * (* others *) intros b NE. rewrite setf_other by exact NE. auto.
      * (* w_ptr *) apply Ptr. discriminate.
      * (* r_bad *) symmetry. exact RB.
      * (* tag *) intros g E. left. exact E.
      * (* val_ok *) intros _. unfold val_ok; simpl. rewrite RT, setf_same, VC, VE. auto.
    + (* EFlip: by a committer that holds no unusable object's tag *)
      destruct (r_tag X a) eqn:RT; [discriminate|]. destruct (r_bad X) eqn:RB.
      * (* the pointer is unusable: refused *)
        destruct (negb ok && cas c); [|discriminate].
        destruct (a_pc (w_actors (rw X) a)) eqn:PC; try discriminate.
        injection H as <-. split; [|intros _; right; right; exists a; split; [exact PC | reflexivity]].
        apply (RI_upd exact X _ a I); simpl; try reflexivity.
        -- (* others *) intros b NE. rewrite upd_other by exact NE. auto.
        -- (* tag *) intros g E. left. exact E.
        -- (* val_ok *) rewrite upd_same. discriminate.
      * destruct (step c (rw X) _) as [w'|] eqn:St; [|discriminate]. injection H as <-.
        split; [|intros _; right; left; eexists; exact St].
        assert (P : RI exact (with_world X w')) by (apply (RI_pass _ _ _ _ _ St I); [discriminate | left; exact RB]).
        destruct P as [B' T' V' R']. simpl in *.
        constructor; simpl; auto.
        -- (* RI_bad *) discriminate.
        -- (* RI_val: the pointer object is as usable as it was *)
           intros b Vb. specialize (V' b Vb). unfold val_ok in *; simpl in *. rewrite RB in V'. exact V'.
        -- (* RI_repl *) destruct ok; [|exact R']. apply Forall_app. split; [exact R'|]. constructor; [|constructor].
           destruct (step_flip_true _ _ _ _ St) as [PC [G _]]. specialize (G CAS). destruct I as [_ _ V _].
           assert (IVa : inV (a_pc (w_actors (rw X) a)) = true) by (rewrite PC; reflexivity).
           specialize (V _ IVa). unfold val_ok in V. rewrite RT in V. destruct V as [EC HD].
           unfold entry_ok; simpl. rewrite G. split; [reflexivity|]. split; [symmetry; exact EC | exact HD].
  - (* RDamage: the new object's identity is fresh, nobody holds its tag *)
    injection H as <-. split; [|intros _; left; reflexivity].
    destruct I as [B T V R]. constructor; simpl; auto.
    + (* RI_bad *) intros g E. inversion E; subst. lia.
    + (* RI_tag *) intros a g E. specialize (T a g E). lia.
    + (* RI_val *) intros a Va. specialize (V a Va). unfold val_ok in *; simpl in *. destruct (r_tag X a) as [g|] eqn:RT; auto.
      assert (N : Some (r_next X) <> Some g) by (intro E; inversion E; subst; specialize (T a _ RT); lia).
      split; [|intros _ E; contradiction].
      destruct V as [[Sc|[Sc _]] _]; [left; exact Sc | right; split; [exact Sc | exact N]].
  - (* RBegin: with exact scans, EBegin *)
    destruct (r_bad X) eqn:RB; [|discriminate]. destruct (a_pc (w_actors (rw X) a)) eqn:PC; try discriminate.
    destruct (Nat.ltb r (length (w_files (rw X)))); [|discriminate]. simpl in H.
    destruct (negb exact || Nat.eqb r (w_ptr (rw X))) eqn:G; [|discriminate].
    injection H as <-. split.
    + apply (RI_upd exact X _ a I); simpl; try reflexivity.
      * (* others *) intros b NE. rewrite upd_other by exact NE. auto.
      * (* r_bad, which the destruct above rewrote *) symmetry. exact RB.
      * (* tag *) intros g E. left. exact E.
      * (* val_ok *) rewrite upd_same. discriminate.
    + intros ->. apply Nat.eqb_eq in G. subst r. simpl. right; left. exists {| e_actor := a; e_kind := EBegin (w_ptr (rw X)) |}.
      unfold step; simpl. rewrite PC, Nat.eqb_refl. reflexivity.
  - (* RReadBad: the committer, not yet validated, takes the current object's tag *)
    destruct (r_bad X) as [g'|] eqn:RB; [|discriminate]. destruct (r_tag X a) eqn:RT; [discriminate|].
    destruct (a_pc (w_actors (rw X) a)) eqn:PC; try discriminate.
    destruct (Nat.eqb_spec g g') as [->|]; [|discriminate].
    injection H as <-. split; [|intros _; left; reflexivity].
    apply (RI_upd exact X _ a I); simpl; try reflexivity.
    + (* others *) intros b NE. rewrite setf_other by exact NE. auto.
    + (* r_bad *) symmetry. exact RB.
    + (* tag *) rewrite setf_same, RB. intros g E. right. exact E.
    + (* val_ok *) rewrite PC. discriminate.
  - (* RRefresh: the version validated is the scan's result, or the repaired pointer's; with exact scans, EValidate *)
    destruct (r_tag X a) as [g|] eqn:RT; [|discriminate]. destruct (a_pc (w_actors (rw X) a)) eqn:PC; try discriminate.
    match type of H with match ?sel with _ => _ end = _ => destruct sel as [[v h]|] eqn:SEL; [|discriminate] end.
    destruct (Bool.eqb ok (stamp_eqb (file (rw X) v) (file (rw X) (a_base (w_actors (rw X) a))))) eqn:EQ; [|discriminate].
    injection H as <-.
    assert (VH : (h = HScan \/ (h = HRepaired /\ r_bad X <> Some g)) /\ (exact = true -> v = w_ptr (rw X))).
    { destruct rc as [r|v']; destruct (r_bad X) eqn:RB; try discriminate.
      - destruct (Nat.ltb r (length (w_files (rw X)))); [|discriminate]. simpl in SEL.
        destruct (negb exact || Nat.eqb r (w_ptr (rw X))) eqn:G; [|discriminate]. inversion SEL; subst.
        split; [left; reflexivity|]. intros ->. apply Nat.eqb_eq. exact G.
      - destruct (Nat.eqb_spec v' (w_ptr (rw X))); [|discriminate]. inversion SEL; subst.
        split; [right; split; [reflexivity|discriminate] | reflexivity]. }
    destruct VH as [VH VP]. split.
    + apply (RI_upd exact X _ a I); simpl; try reflexivity.
      * (* others *) intros b NE. rewrite setf_other, upd_other by exact NE. auto.
      * (* tag *) intros g' E. left. exact E.
      * (* val_ok *) intros _. unfold val_ok; simpl. rewrite RT, setf_same, upd_same. simpl. split; [exact VH | intros EX _; exact (VP EX)].
    + intros EX. simpl. right; left. exists {| e_actor := a; e_kind := EValidate v ok |}.
      unfold step; simpl. rewrite PC, (VP EX), Nat.eqb_refl. simpl. rewrite <- (VP EX), EQ. reflexivity.
  - (* RFlip: the conditional write keyed to an unusable object's tag *)
    destruct (r_tag X a) as [g|] eqn:RT; [|discriminate]. destruct (a_pc (w_actors (rw X) a)) eqn:PC; try discriminate.
    match type of H with (if ?b then _ else _) = _ => destruct b eqn:G; [|discriminate] end.
    apply andb_true_iff in G. destruct G as [G _]. apply eqb_prop in G.
    destruct ok.
    + (* applied: the object replaced is the one whose tag the committer holds; with exact scans, EFlip *)
      injection H as <-.
      assert (RB : r_bad X = Some g).
      { destruct (r_bad X) as [g'|]; [|discriminate]. symmetry in G. apply Nat.eqb_eq in G. subst. reflexivity. }
      assert (IVa : inV (a_pc (w_actors (rw X) a)) = true) by (rewrite PC; reflexivity).
      pose proof (RI_val exact X I a IVa) as Va. unfold val_ok in Va. rewrite RT in Va. destruct Va as [Va1 Va2].
      split.
      * destruct I as [B T V R]. constructor; simpl; auto.
        -- (* RI_bad *) discriminate.
        -- (* RI_val *) intros b Vb. unfold val_ok; simpl. destruct (Nat.eq_dec b a) as [->|NE]; [rewrite upd_same in Vb; discriminate|].
           rewrite upd_other in * by exact NE. specialize (V b Vb). unfold val_ok in V. destruct (r_tag X b); auto.
           split; [|intros _ D; discriminate D].
           destruct V as [[Sc|[Sc _]] _]; [left; exact Sc | right; split; [exact Sc | discriminate]].
        -- (* RI_repl *) apply Forall_app. split; [exact R|]. constructor; [|constructor].
           unfold entry_ok; simpl. split; [reflexivity|]. destruct Va1 as [S|[_ N]]; [exact S | contradiction].
      * intros EX. simpl. right; left. exists {| e_actor := a; e_kind := EFlip true |}.
        unfold step; simpl. rewrite PC, CAS, (Va2 EX RB), Nat.eqb_refl. reflexivity.
    + injection H as <-. split; [|intros _; right; right; exists a; split; [exact PC | reflexivity]].
      apply (RI_upd exact X _ a I); simpl; try reflexivity.
      * (* others *) intros b NE. rewrite upd_other by exact NE. auto.
      * (* tag *) intros g' E. left. exact E.
      * (* val_ok *) rewrite upd_same. discriminate.
Qed.

Lemma fallback_replaced_what_it_read c exact m0 kind mr xs : cas c = true ->
  Forall entry_ok (r_repl (rrun c exact (rinit (init_world m0 kind mr)) xs)).
Proof.
  intro CAS. apply (RI_repl exact). apply (ListFacts.run_skip_preserves _ _ (rstep c exact) (RI exact)); [|apply rinit_RI; reflexivity].
  intros X x X' I St. exact (proj1 (rstep_sim _ _ _ _ _ CAS I St)).
Qed.

Lemma rreach_linear_RI c m0 kind mr xs : cas c = true ->
  let X := rrun c true (rinit (init_world m0 kind mr)) xs in Linear c m0 (rw X) /\ RI true X.
Proof.
  intro CAS. apply (ListFacts.run_skip_preserves _ _ (rstep c true) (fun X => Linear c m0 (rw X) /\ RI true X));
    [|split; [apply linear_init | apply rinit_RI; reflexivity]].
  intros X x X' [L I] H. destruct (rstep_sim _ _ _ _ _ CAS I H) as [I' W]. split; [|exact I'].
  destruct (W eq_refl) as [E|[[e St]|Rf]].
  - rewrite E. exact L.
  - eapply linear_step; eauto. left. exact CAS.
  - eapply linear_refused; eauto.
Qed.

(* The store that compares only what it can see (rstep_s): it is the ideal store exactly when no two damage events leave
   the same store-visible object *)
Definition distinguishable (idn : nat -> ident) : Prop := forall g g', idn g = idn g' -> g = g'.

Lemma ident_eqb_eq i j : ident_eqb i j = true <-> i = j.
Proof.
  destruct i as [|a], j as [|b]; simpl; split; intro H; try reflexivity; try discriminate.
  - apply Nat.eqb_eq in H. subst. reflexivity.
  - inversion H. apply Nat.eqb_refl.
Qed.

Lemma ident_eqb_inj idn g g' : distinguishable idn -> ident_eqb (idn g) (idn g') = Nat.eqb g g'.
Proof.
  intro D. destruct (Nat.eqb_spec g g') as [->|NE].
  - apply ident_eqb_eq. reflexivity.
  - destruct (ident_eqb (idn g) (idn g')) eqn:E; [|reflexivity]. apply ident_eqb_eq in E. elim NE. apply D. exact E.
Qed.

Lemma rstep_s_ideal idn c exact X x : distinguishable idn -> rstep_s idn c exact X x = rstep c exact X x.
Proof.
  intro D. destruct x as [e| |a r|a g|a rc ok|a ok]; try reflexivity.
  unfold rstep_s, rstep. destruct (r_tag X a) as [g|]; [|reflexivity].
  destruct (a_pc (w_actors (rw X) a)); try reflexivity.
  destruct (r_bad X) as [g'|]; [|reflexivity].
  rewrite (ident_eqb_inj idn g g' D). destruct (Nat.eqb_spec g g') as [->|NE]; [reflexivity|]. destruct ok; reflexivity.
Qed.

Lemma rrun_s_ideal idn c exact xs : distinguishable idn -> forall X, rrun_s idn c exact X xs = rrun c exact X xs.
Proof.
  intro D. induction xs as [|x xs IH]; intro X; [reflexivity|].
  unfold rrun_s, rrun in *. simpl. unfold rstep_s_skip at 2, rstep_skip at 2. rewrite (rstep_s_ideal idn c exact X x D). apply IH.
Qed.

(* every applied pointer write replaced exactly the object STATE its committer had read, for the store `idn` *)
Definition fallback_replaced_for (idn : nat -> ident) : Prop :=
  forall c exact m0 kind mr xs, cas c = true ->
  Forall entry_ok (r_repl (rrun_s idn c exact (rinit (init_world m0 kind mr)) xs)).

(* the witness (ABA on an unusable pointer): the pointer is damaged (incarnation 0); actors 0 and 1 both read it under a lock
   that excludes nobody and recover version 0 by (exact) scans; actor 1's conditional write keyed to that object lands -- the
   pointer is repaired and 1 is acknowledged; the pointer is then damaged AGAIN (incarnation 1) in a way the store cannot
   tell from the first (deleted again: create-if-absent; or the same garbage: same MD5); actor 0's conditional write, keyed
   to incarnation 0, is applied on top of it: acknowledged, and 1's acknowledged operation is no longer in the table. *)
Definition rx a k := RE {| e_actor := a; e_kind := k |}.
Definition double_damage_witness : list revent :=
  [ RDamage; RBegin 0 0; RBegin 1 0;
    rx 0 (ELockTry true); RReadBad 0 0; RRefresh 0 (RScan 0) true; rx 0 (EMetaW 100); rx 0 (EFence true);
    rx 1 (ELockTry true); RReadBad 1 0; RRefresh 1 (RScan 0) true; rx 1 (EMetaW 100); rx 1 (EFence true); RFlip 1 true; rx 1 ERelease;
    RDamage;
    RFlip 0 true; rx 0 ERelease ]%nat.

(* Runs double_damage_witness on the store idn (any idn with idn 0 = idn 1 would do): two applied writes; the second entry
   (actor 0's) has re_replaced = PBad 1 but re_held = PBad 0, against entry_ok's first clause.  The `match type of F` only
   asserts that the run produced exactly two entries. *)
Ltac double_damage_refutation :=
  let F := fresh "F" in
  intro F;
  specialize (F {| cas := true; lockkind := GrantAll |} true {| m_ops := []; m_cur := 1; m_lu := 100 |} (fun _ => KFresh) (fun _ => 50%nat)
                double_damage_witness eq_refl);
  vm_compute in F;
  match type of F with Forall _ (_ :: _ :: nil) => idtac end;
  inversion F as [|? ? _ F2]; inversion F2 as [|? ? [E _] _]; discriminate E.

Lemma fallback_replaced_absent_refuted : ~ fallback_replaced_for (fun _ => IAbsent).
Proof. double_damage_refutation. Qed.
Lemma fallback_replaced_same_garbage_refuted : ~ fallback_replaced_for (fun _ => IGarbled 0).
Proof. double_damage_refutation. Qed.
(* "an acknowledged commit is in the table named by the pointer, the table is the serial application of the pointer
   writes, each once, one chain" -- for the machine whose scans may return anything (exact = false) or only the right version (exact = true) *)
Definition fallback_no_lost_update_for (exact : bool) : Prop :=
  forall c m0 kind mr xs, cas c = true ->
  let w := rw (rrun c exact (rinit (init_world m0 kind mr)) xs) in
  m_ops (file w (w_ptr w)) = m_ops m0 ++ map snd (w_hist w)
  /\ NoDup (map snd (w_hist w))
  /\ (forall a, a_pc (w_actors w a) = PDone Success -> In a (map snd (w_hist w)) /\ In a (m_ops (file w (w_ptr w))))
  /\ chain_ok (w_files w) 0%nat (w_hist w).

Lemma fallback_no_lost_update_exact : fallback_no_lost_update_for true.
Proof.
  intros c m0 kind mr xs CAS w.
  destruct (linear_no_lost_update c m0 w (proj1 (rreach_linear_RI c m0 kind mr xs CAS))) as [S1 [ND [AK CH]]].
  split; [exact S1|]. split; [exact ND|]. split; [|exact CH].
  intros a P. split; [exact (AK a P)|]. rewrite S1. apply in_or_app. right. exact (AK a P).
Qed.

(* the witness: actors 0 and 1 validate version 0 under a lock that excludes nobody; 1 writes its file (vid 1), 0 writes
   its file (vid 2, same version number, written later); 1's conditional write lands and 1 is acknowledged; the pointer
   is then damaged; actor 2's scan returns 0's unpublished file (the highest number, the latest of the two) and 2 commits
   on top of it: acknowledged -- and 1's acknowledged operation is no longer in the table, 0's unacknowledged one is. *)
Definition lost_update_witness : list revent :=
  [ rx 0 (EBegin 0); rx 1 (EBegin 0); rx 0 (ELockTry true); rx 1 (ELockTry true); rx 0 (EValidate 0 true); rx 1 (EValidate 0 true);
    rx 1 (EMetaW 100); rx 0 (EMetaW 100); rx 1 (EFence true); rx 1 (EFlip true); rx 1 ERelease;
    RDamage;
    RBegin 2 2; rx 2 (ELockTry true); RReadBad 2 0; RRefresh 2 (RScan 2) true; rx 2 (EMetaW 200); rx 2 (EFence true); RFlip 2 true;
    rx 2 ERelease ]%nat.

Lemma fallback_full_refuted : ~ fallback_no_lost_update_for false.
Proof.
  intro F.
  specialize (F {| cas := true; lockkind := GrantAll |} {| m_ops := []; m_cur := 1; m_lu := 100 |} (fun _ => KFresh) (fun _ => 50%nat)
                lost_update_witness eq_refl).
  cbv zeta in F. destruct F as [_ [_ [A _]]]. specialize (A 1%nat).
  vm_compute in A. destruct (A eq_refl) as [_ [E|[E|[]]]]; discriminate.
Qed.

Lemma fallback_no_lost_update_full_refuted : ~ (forall exact, fallback_no_lost_update_for exact).
Proof. intro F. exact (fallback_full_refuted (F false)). Qed.

(* the same statements for the store that compares only what it can see *)
Definition fallback_no_lost_update_s (idn : nat -> ident) (exact : bool) : Prop :=
  forall c m0 kind mr xs, cas c = true ->
  let w := rw (rrun_s idn c exact (rinit (init_world m0 kind mr)) xs) in
  m_ops (file w (w_ptr w)) = m_ops m0 ++ map snd (w_hist w)
  /\ NoDup (map snd (w_hist w))
  /\ (forall a, a_pc (w_actors w a) = PDone Success -> In a (map snd (w_hist w)) /\ In a (m_ops (file w (w_ptr w))))
  /\ chain_ok (w_files w) 0%nat (w_hist w).

(* exact scans do not help when the pointer is deleted twice within one attempt: actor 1 is acknowledged and overwritten *)
Lemma fallback_no_lost_update_s_double_damage_refuted : ~ fallback_no_lost_update_s (fun _ => IAbsent) true.
Proof.
  intro F.
  specialize (F {| cas := true; lockkind := GrantAll |} {| m_ops := []; m_cur := 1; m_lu := 100 |} (fun _ => KFresh) (fun _ => 50%nat)
                double_damage_witness eq_refl).
  cbv zeta in F. destruct F as [_ [_ [A _]]]. specialize (A 1%nat).
  vm_compute in A. destruct (A eq_refl) as [_ [E|[]]]; discriminate.
Qed.

Lemma fallback_no_lost_update_s_inexact_refuted : ~ fallback_no_lost_update_s (fun g => IGarbled g) false.
Proof.
  intro F. apply fallback_full_refuted. intros c m0 kind mr xs CAS.
  assert (D : distinguishable (fun g => IGarbled g)) by (intros g g' E; inversion E; reflexivity).
  specialize (F c m0 kind mr xs CAS). cbv zeta in F. rewrite (rrun_s_ideal _ c false xs D) in F. exact F.
Qed.
