(* Proofs/GCFaultProofs.v -- the reachability phase under damage and transient failures, for either order of the two preparatory
   phases and any start state (damaged_aborts_from, reach_phase_fault_free_from: Props/C07.v C07_damage, C07_transient); the sweeps
   never delete a marker; partial decodes are never trusted. *)
From Coq Require Import List.
Require Import DS.Model.GC DS.Proofs.GCProofs.
Require DS.Proofs.GCLiveProofs.
Import ListNotations.
Open Scope string_scope.
Open Scope Z_scope.

(* a reachable file is damaged when it is missing or does not parse as what it must be *)
Definition damaged_list (st : store) (k : key) : Prop :=
  match lookup k st with None => True | Some ob => as_list (body ob) = None end.
Definition damaged_manifest (st : store) (k : key) : Prop :=
  match lookup k st with None => True | Some ob => as_manifest (body ob) = None end.

Lemma sweeps_not_early : forall tp grace now o rl rm rd prot g, ~ aborted_before_sweep (sweeps tp grace now o rl rm rd prot g).
Proof. intros. destruct (sweeps_took tp grace now o rl rm rd prot g) as (R1 & R2 & mid & NE & _). exact NE. Qed.

Lemma undamaged_not_damaged : forall snaps st k, GCLiveProofs.undamaged snaps st ->
  (ref_list snaps k /\ damaged_list st k) \/ (ref_manifest snaps st k /\ damaged_manifest st k) -> False.
Proof.
  intros snaps st k [UL UM] [[R D]|[R D]].
  - destruct (UL k R) as [xs [ob [L B]]]. unfold damaged_list in D. rewrite L in D. congruence.
  - destruct (UM k R) as [xs [ob [L B]]]. unfold damaged_manifest in D. rewrite L in D. congruence.
Qed.

(* every damage class of a reachable manifest list or manifest aborts before the sweeps, whatever else fails: a run that gets to
   the sweeps has read every referenced list and manifest (GCProofs.sweeps_start_of_at_sweeps, GCLiveProofs.reach_ok_undamaged) *)
Theorem damaged_aborts_from : forall mf tp grace now timeout o snaps g0 k,
  wf_store snaps (g_store g0) ->
  (ref_list snaps k /\ damaged_list (g_store g0) k) \/ (ref_manifest snaps (g_store g0) k /\ damaged_manifest (g_store g0) k) ->
  aborted_before_sweep (gc_run_from mf tp grace now timeout o snaps g0) /\ r_deleted (gc_run_from mf tp grace now timeout o snaps g0) = [].
Proof.
  intros mf tp grace now timeout o snaps g0 k WF D.
  destruct (gc_run_from_phases mf tp grace now timeout o snaps g0) as [E|(rl & rm & rd & prot & g3 & _ & AS)].
  - exact (conj (se_abort E) (se_deleted E)).
  - exfalso. destruct (sweeps_start_of_at_sweeps _ _ _ _ _ _ _ _ _ _ _ WF AS) as [RC _ _].
    exact (undamaged_not_damaged snaps (g_store g0) k (GCLiveProofs.reach_ok_undamaged _ _ _ _ _ RC) D).
Qed.

(* the only fault a successful read can have absorbed: an OSError-class failure or garbage on open_file of a file
   that is in the legacy JSON format anyway (the Avro attempt fails either way; the JSON read was fault-free) *)
Definition absorbed_open (st : store) (w : want) (c : call) (f : fault) : Prop :=
  exists k ob xs, c = KOpen k /\ f <> FRaiseX /\ lookup k st = Some ob /\ json_parse w (body ob) = Some xs.

(* g' continues the trace of g, and every call in between that was FAULTED is an absorbed_open: no effective fault *)
Definition trace_ext (st : store) (w : want) (g g' : gst) : Prop :=
  exists delta, g_trace g' = (delta ++ g_trace g)%list /\ forall c f, In (c, Some f) delta -> absorbed_open st w c f.

Lemma trace_ext_refl : forall st w g, trace_ext st w g g.
Proof. intros. exists []. split; [reflexivity|intros c f []]. Qed.

Lemma trace_ext_trans : forall st w a b c, trace_ext st w a b -> trace_ext st w b c -> trace_ext st w a c.
Proof.
  intros st w a b c [d1 [E1 H1]] [d2 [E2 H2]]. exists (d2 ++ d1)%list. split.
  - rewrite E2, E1. apply app_assoc.
  - intros x f Hin. apply in_app_or in Hin. destruct Hin; auto.
Qed.

(* of the calls of a successful read (GCProofs.read_one_some) only the open can have been faulted, and then the JSON fallback read the file *)
Lemma read_one_transient : forall w o g k xs g', read_one w o g k = (Some xs, g') -> trace_ext (g_store g) w g g'.
Proof.
  intros w o g k xs g' H.
  destruct (read_one_some _ _ _ _ _ _ H) as [ob [f3 [L [_ [[_ [_ T]]|[NX [J T]]]]]]]; eexists; (split; [exact T|]).
  - intros c f [E|[E|[E|[]]]]; discriminate.
  - intros c f [E|[E|[E|[E|[]]]]]; try discriminate. inversion E; subst. exists k, ob, xs.
    split; [reflexivity|]. split; [congruence|]. split; assumption.
Qed.

Lemma read_all_transient : forall w o ks g ys g', read_all w o g ks = (Some ys, g') -> trace_ext (g_store g) w g g'.
Proof.
  intros w o ks. induction ks as [|k r IH]; intros g ys g' H; simpl in H.
  - inversion H; subst. apply trace_ext_refl.
  - destruct (read_one w o g k) as [[xs|] g1] eqn:E1; [|discriminate].
    destruct (read_all w o g1 r) as [[zs|] g2] eqn:E2; [|discriminate]. inversion H; subst.
    pose proof (read_one_store _ _ _ _ _ _ E1) as S1. apply read_one_transient in E1. apply IH in E2. rewrite S1 in E2.
    eapply trace_ext_trans; eauto.
Qed.

(* a collection that gets to the sweeps read every list and manifest without an effective fault *)
Theorem reach_phase_fault_free_from : forall mf tp grace now timeout o snaps g0,
  ~ aborted_before_sweep (gc_run_from mf tp grace now timeout o snaps g0) ->
  exists g mpaths g1 entries g2,
    only_markers_removed now timeout (g_store g0) (g_store g)
    /\ read_all WList o g (norm_set tp snaps) = (Some mpaths, g1)
    /\ read_all WManifest o g1 (norm_set tp mpaths) = (Some entries, g2)
    /\ trace_ext (g_store g) WList g g1 /\ trace_ext (g_store g) WManifest g1 g2.
Proof.
  intros mf tp grace now timeout o snaps g0 NA.
  destruct (gc_run_from_phases mf tp grace now timeout o snaps g0) as [E|(rl & rm & rd & prot & g3 & _ & AS)].
  { exfalso. exact (NA (se_abort E)). }
  destruct (as_reach AS) as (g & g' & M & RE & R). unfold reach in RE.
  destruct (read_all WList o g (norm_set tp snaps)) as [[mp|] g1] eqn:RL; [|discriminate].
  destruct (read_all WManifest o g1 (norm_set tp mp)) as [[es|] g2] eqn:RM; [|discriminate]. injection RE as _ _ _ <-.
  exists g, mp, g1, es, g2. split; [exact (removes_only_markers _ _ _ _ _ R)|]. split; [exact RL|]. split; [exact RM|].
  pose proof (read_all_store _ _ _ _ _ _ RL) as S1. split.
  - eapply read_all_transient; eauto.
  - rewrite <- S1. eapply read_all_transient; eauto.
Qed.

(* deleted keys were listed under data/ or metadata/manifests/ (or are the "../x" entry): never marker keys *)
Lemma sweeps_deleted_not_marker : forall tp grace now o rl rm rd prot g k,
  In k (r_deleted (sweeps tp grace now o rl rm rd prot g)) -> is_marker_key k -> False.
Proof.
  intros tp grace now o rl rm rd prot g k Hk [M _]. destruct (sweeps_took tp grace now o rl rm rd prot g) as (R1 & R2 & mid & _ & E & A & B).
  rewrite E in Hk. apply in_rev, in_app_or in Hk. destruct Hk as [Hk|Hk].
  - destruct (removes_in _ _ _ _ A k Hk) as [ob [_ [[Hp| ->] _]]]; [exact (marker_key_not_swept k M (or_introl Hp))|discriminate].
  - destruct (removes_in _ _ _ _ B k Hk) as [ob [_ [[Hp| ->] _]]]; [exact (marker_key_not_swept k M (or_intror Hp))|discriminate].
Qed.

Lemma deleted_not_marker_from : forall mf tp grace now timeout o snaps g0 k,
  In k (r_deleted (gc_run_from mf tp grace now timeout o snaps g0)) -> is_marker_key k -> False.
Proof.
  intros mf tp grace now timeout o snaps g0 k.
  destruct (gc_run_from_phases mf tp grace now timeout o snaps g0) as [E|(rl & rm & rd & prot & g3 & -> & _)].
  - rewrite (se_deleted E). intros [].
  - apply sweeps_deleted_not_marker.
Qed.

Lemma read_one_partial : forall w o g k ob decoded caught,
  lookup k (g_store g) = Some ob -> body ob = CPartialAvro decoded caught -> fst (read_one w o g k) = None.
Proof.
  intros w o g k ob decoded caught L B. destruct (read_one w o g k) as [[xs|] g'] eqn:E; [|reflexivity].
  exfalso. destruct (read_one_some _ _ _ _ _ _ E) as [ob' [f3 [L' [_ P]]]]. rewrite L in L'. inversion L'; subst ob'. rewrite B in P.
  (* neither parse succeeds on such a stream *)
  destruct P as [[_ [A _]]|[_ [J _]]].
  - destruct w, caught; discriminate.
  - destruct w; discriminate.
Qed.
