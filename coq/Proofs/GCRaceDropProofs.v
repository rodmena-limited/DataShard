(* Proofs/GCRaceDropProofs.v -- the machine with a transaction that drops the marker of a file it still publishes
   (Model/GCRaceDrop.v) against the machine of the code as it is. *)
From Coq Require Import ZArith List.
Require Import DS.Model.GCRace DS.Model.GCRaceDrop.
Import ListNotations.
Open Scope Z_scope.

(* the events of dropping_counterexample (Model/GCRaceDrop.v; Props/C06.v C06_dropped_marker_loses_file) up to the listing, on the
   machine of the code as it is: the marker stays (no drop), the deletion is refused *)
Lemma kept_marker_keeps_file :
  let evs := [TStage 0%nat (-36000000); Tick 1; TAdoptMark 0%nat; TAdopt 0%nat; Tick 1;
              GAnnounce; Tick 1; GMarks 86400000; Tick 1; GMeta; Tick 1; GList 3600000] in
  let w := grun (ginit []) evs in
  grun_strict (ginit []) evs 0 = inl w /\ gstep w (GDel 0%nat) = None /\ g_mtime w 0%nat < g_cutoff w.
Proof. vm_compute. repeat split; reflexivity. Qed.

Lemma gstep_dropping_agrees : forall w e, (forall t, e <> TAbandon t) -> gstep_dropping w e = gstep w e.
Proof. intros w e H. destruct e; try reflexivity. exfalso. apply (H t). reflexivity. Qed.
