(* Proofs/FieldKeyProofs.v -- the key codec of the statistics maps (Model/FieldKey.v):
     int(str(z)) = z for every int z (the decimal rendering and Python's int() parser are inverse);
     hence the writer's / reader's dict comprehensions give back a map keyed by pairwise different INT ids
     unchanged -- same entries, same order, each under its own id.
   (NOT so for ids that are merely pairwise != : 1 and "1" are two keys before and one key after, Proofs/Schema13Proofs.v.) *)
From Coq Require Import ZArith QArith List Lia FinFun.
Require Import DS.Model.Value DS.Model.FieldKey.
Require DS.Proofs.ListFacts.
Import ListNotations.
Open Scope Z_scope.

Definition dstep (a c : Z) : Z := 10 * a + (c - 48).

Lemma is_digit_code d : 0 <= d < 10 -> is_digit (digit_code d) = true.
Proof. unfold is_digit, digit_code. lia. Qed.

Lemma dstep_code a d : dstep a (digit_code d) = 10 * a + d.
Proof. unfold dstep, digit_code. lia. Qed.

Lemma digit_not_space c : is_digit c = true -> is_space c = false.
Proof. unfold is_digit, is_space. lia. Qed.

Lemma digit_modelled c : is_digit c = true -> modelled_char c = true.
Proof. unfold is_digit, modelled_char. lia. Qed.

Lemma digits_acc_digits acc need l : Forall (fun c => is_digit c = true) l -> (need = true -> l <> []) ->
  digits_acc acc need l = Some (fold_left dstep l acc).
Proof.
  intro F. revert acc need. induction F as [|c l Hc F IH]; intros acc need NE; cbn [digits_acc fold_left].
  - destruct need; [contradiction NE; reflexivity | reflexivity].
  - rewrite Hc. apply IH. discriminate.
Qed.

Lemma render_nonempty f n acc : acc <> [] -> render f n acc <> [].
Proof.
  revert n acc. induction f as [|f IH]; intros n acc NE; cbn [render]; [exact NE|].
  destruct (n <? 10); [discriminate|]. apply IH. discriminate.
Qed.

(* fold_left dstep l a is the number read when the digits l follow the number a; render puts the digits of n in front of acc *)
Lemma render_spec f n acc : 0 <= n < 2 ^ Z.of_nat f -> Forall (fun c => is_digit c = true) acc ->
  Forall (fun c => is_digit c = true) (render f n acc) /\ fold_left dstep (render f n acc) 0 = fold_left dstep acc n.
Proof.
  revert n acc. induction f as [|f IH]; intros n acc B F; cbn [render].
  - split; [exact F|]. f_equal. change (2 ^ Z.of_nat 0) with 1 in B. lia.
  - rewrite Nat2Z.inj_succ, Z.pow_succ_r in B by lia. destruct (Z.ltb_spec n 10) as [L|L].
    + split; [constructor; [apply is_digit_code; lia | exact F] |]. cbn [fold_left]. rewrite dstep_code. f_equal.
    + destruct (IH (n / 10) (digit_code (n mod 10) :: acc)) as [D V].
      * split; [apply Z.div_pos; lia | apply Z.div_lt_upper_bound; lia].
      * constructor; [apply is_digit_code; apply Z.mod_pos_bound; lia | exact F].
      * split; [exact D|]. rewrite V. cbn [fold_left]. rewrite dstep_code. f_equal. symmetry. apply Z_div_mod_eq_full.
Qed.

Lemma str_of_nonneg_spec n : 0 <= n ->
  str_of_nonneg n <> [] /\ Forall (fun c => is_digit c = true) (str_of_nonneg n) /\ fold_left dstep (str_of_nonneg n) 0 = n.
Proof.
  intro N. unfold str_of_nonneg. split.
  - cbn [render]. destruct (n <? 10); [discriminate|]. apply render_nonempty. discriminate.
  - apply render_spec; [|constructor]. rewrite Nat2Z.inj_succ, Z2Nat.id by apply Z.log2_nonneg.
    destruct (Z.eq_dec n 0) as [->|NZ]; [cbn; lia|]. split; [exact N | apply Z.log2_spec; lia].
Qed.

Lemma rstrip_id s : Forall (fun c => is_space c = false) s -> rstrip s = s.
Proof.
  intro F. induction F as [|c r Hc F IH]; cbn [rstrip]; [reflexivity|].
  rewrite IH. destruct r; [rewrite Hc|]; reflexivity.
Qed.

Lemma strip_id s : Forall (fun c => is_space c = false) s -> strip s = s.
Proof.
  intro F. unfold strip. rewrite (rstrip_id s F). destruct F as [|c r Hc _]; cbn [lstrip]; [|rewrite Hc]; reflexivity.
Qed.

Lemma parse_signed_digits c r : is_digit c = true -> parse_signed (c :: r) = digits_acc 0 true (c :: r).
Proof.
  intro D. assert (c <> 45 /\ c <> 43) as [A B] by (unfold is_digit in D; lia).
  unfold parse_signed. destruct c as [|p|p]; try reflexivity.
  (* 45 and 43 have six binary digits: after six bits every other c has fallen into the default branch of parse_signed
     (reflexivity); what is left is c = 45 and c = 43, excluded by A and B *)
  do 6 (destruct p as [p|p|]; try reflexivity); exfalso; lia.
Qed.

(* int() on a non-empty run of ASCII digits, bare or after a minus sign: nothing to strip, every character modelled, the decimal value *)
Theorem kdec_digits ds : ds <> [] -> Forall (fun c => is_digit c = true) ds ->
  kdec ds = IntOk (fold_left dstep ds 0) /\ kdec (45 :: ds) = IntOk (- fold_left dstep ds 0).
Proof.
  intros NE F.
  assert (NS : Forall (fun c => is_space c = false) ds) by (eapply Forall_impl; [exact digit_not_space | exact F]).
  assert (MC : forallb modelled_char ds = true).
  { apply forallb_forall. intros c I. apply digit_modelled. rewrite Forall_forall in F. exact (F c I). }
  pose proof (digits_acc_digits 0 true ds F (fun _ => NE)) as P.
  unfold kdec. split.
  - rewrite MC, (strip_id ds NS). destruct F as [|c r Hc _]; [contradiction|].
    rewrite (parse_signed_digits c r Hc), P. reflexivity.
  - cbn [forallb]. rewrite MC, (strip_id (45 :: ds)) by (constructor; [reflexivity | exact NS]).
    cbn [parse_signed]. rewrite P. reflexivity.
Qed.

(* int(str(z)) = z *)
Theorem kdec_str_of_Z z : kdec (str_of_Z z) = IntOk z.
Proof.
  unfold str_of_Z. destruct (Z.ltb_spec z 0) as [L|L].
  - destruct (str_of_nonneg_spec (- z)) as [NE [F V]]; [lia|]. rewrite (proj2 (kdec_digits _ NE F)), V. f_equal. lia.
  - destruct (str_of_nonneg_spec z L) as [NE [F V]]. rewrite (proj1 (kdec_digits _ NE F)), V. reflexivity.
Qed.

Corollary kdec_kenc_int z : option_map kdec (kenc (VInt z)) = Some (IntOk z).
Proof. cbn [kenc option_map]. rewrite kdec_str_of_Z. reflexivity. Qed.

Corollary str_of_Z_inj a b : str_of_Z a = str_of_Z b -> a = b.
Proof. intro E. pose proof (kdec_str_of_Z a) as A. rewrite E, kdec_str_of_Z in A. inversion A. reflexivity. Qed.

Lemma codes_eqb_spec a b : codes_eqb a b = true <-> a = b.
Proof. exact (ListFacts.eqbl_eq Z.eqb Z.eqb_eq a b). Qed.

(* a dict comprehension over pairwise different keys keeps its items as they come *)
Section Dict.
  Variables (K V : Type) (eqb : K -> K -> bool).
  Hypothesis eqb_spec : forall a b, eqb a b = true <-> a = b.

  Lemma dset_fresh k v (d : list (K * V)) : ~ In k (map fst d) -> dset eqb k v d = d ++ [(k, v)].
  Proof.
    induction d as [|[k' v'] d IH]; cbn [dset map fst In app]; intro NI; [reflexivity|].
    destruct (eqb k k') eqn:E; [apply eqb_spec in E; subst; exfalso; apply NI; left; reflexivity|].
    rewrite IH; [reflexivity|]. intro I. apply NI. right. exact I.
  Qed.

  Lemma dict_of_nodup_from (items d : list (K * V)) : NoDup (map fst (d ++ items)) ->
    fold_left (fun d kv => dset eqb (fst kv) (snd kv) d) items d = d ++ items.
  Proof.
    revert d. induction items as [|[k v] items IH]; intros d ND; cbn [fold_left fst snd]; [rewrite app_nil_r; reflexivity|].
    rewrite dset_fresh.
    - rewrite IH; rewrite <- app_assoc; [reflexivity | exact ND].
    - rewrite map_app in ND. cbn [map fst] in ND. apply NoDup_remove_2 in ND. intro I. apply ND. apply in_or_app. left. exact I.
  Qed.

  Lemma dict_of_nodup (items : list (K * V)) : NoDup (map fst items) -> dict_of eqb items = items.
  Proof. intro ND. unfold dict_of. exact (dict_of_nodup_from items [] ND). Qed.
End Dict.

Definition as_py {A} (m : list (Z * A)) : list (value * A) := map (fun kv => (VInt (fst kv), snd kv)) m.

Lemma map_opt_int {A} (m : list (Z * A)) :
  map_opt (fun kv => option_map (fun s => (s, snd kv)) (kenc (fst kv))) (as_py m)
  = Some (map (fun kv => (str_of_Z (fst kv), snd kv)) m).
Proof.
  induction m as [|[k v] m IH]; cbn [as_py map map_opt kenc option_map fst snd]; [reflexivity|].
  unfold as_py in IH. rewrite IH. reflexivity.
Qed.

Lemma read_keys_int {A} (m : list (Z * A)) : read_keys (map (fun kv => (str_of_Z (fst kv), snd kv)) m) = TripOk m.
Proof. induction m as [|[k v] m IH]; cbn [map read_keys fst snd]; [reflexivity|]. rewrite kdec_str_of_Z, IH. reflexivity. Qed.

Theorem key_trip_int_ids {A} (m : list (Z * A)) : NoDup (map fst m) -> key_trip (as_py m) = TripOk m.
Proof.
  intro ND. unfold key_trip, key_write. rewrite map_opt_int. cbn [option_map].
  rewrite (dict_of_nodup _ _ codes_eqb codes_eqb_spec).
  - unfold key_read. rewrite read_keys_int. rewrite (dict_of_nodup _ _ Z.eqb Z.eqb_eq); [reflexivity | exact ND].
  - rewrite map_map. cbn [fst]. rewrite <- (map_map fst str_of_Z). apply Injective_map_NoDup; [|exact ND].
    intros a b. apply str_of_Z_inj.
Qed.

Lemma py_eqb_int a b : py_eqb (VInt a) (VInt b) = (a =? b).
Proof.
  unfold py_eqb, vcmp. cbn [num_of num_cmp ord_of is_eq]. unfold Qcompare, inject_Z. cbn [Qnum Qden].
  rewrite !Z.mul_1_r. destruct (Z.compare_spec a b) as [E|L|G]; cbn [ord_of is_eq]; symmetry;
    [apply Z.eqb_eq; exact E | apply Z.eqb_neq; lia | apply Z.eqb_neq; lia].
Qed.

Lemma ids_are_ints_shape ks : ids_are_ints ks -> ks = map VInt (int_ids ks).
Proof.
  intro F. induction F as [|k ks Hk F IH]; [reflexivity|]. destruct k; try discriminate Hk. cbn [int_ids map]. rewrite <- IH. reflexivity.
Qed.

Lemma py_set_mem_ints z zs : py_set_mem (VInt z) (map VInt zs) = true <-> In z zs.
Proof.
  induction zs as [|y zs IH]; cbn [py_set_mem existsb map In]; [split; [discriminate | intros []]|].
  rewrite orb_true_iff, py_eqb_int, Z.eqb_eq, <- IH. split; intros [E|I]; auto.
Qed.

Lemma py_distinct_ints zs : py_distinct (map VInt zs) -> NoDup zs.
Proof.
  induction zs as [|z zs IH]; cbn [map py_distinct]; [constructor|].
  intros [M D]. constructor; [rewrite <- py_set_mem_ints, M; discriminate | exact (IH D)].
Qed.

Lemma int_keyed_shape {A} (m : list (value * A)) :
  ids_are_ints (map fst m) -> m = as_py (int_keyed m) /\ map fst (int_keyed m) = int_ids (map fst m).
Proof.
  induction m as [|[k v] m IH]; cbn [map fst]; intro F; [split; reflexivity|].
  inversion F as [|? ? Hk F']; subst. destruct k; try discriminate Hk. destruct (IH F') as [E1 E2].
  cbn [int_keyed as_py map fst snd int_ids]. split; [f_equal; exact E1 | f_equal; exact E2].
Qed.

(* the planner's lookup on the map read back finds, under an int id, exactly the entry stored under it *)
Lemma py_get_int {A} (z : Z) (d : list (Z * A)) : py_get (VInt z) d =
  (fix look (l : list (Z * A)) := match l with [] => None | (k, v) :: r => if z =? k then Some v else look r end) d.
Proof. induction d as [|[k v] d IH]; cbn [py_get]; [reflexivity|]. rewrite py_eqb_int, IH. reflexivity. Qed.

(* the total form the manifest models use (ManifestPrim.py_int_of_key is this function): int(str(z)) = z *)
Definition int_or_0 (s : list Z) : Z := match kdec s with IntOk z => z | _ => 0 end.
Lemma int_or_0_str_of_Z z : int_or_0 (str_of_Z z) = z.
Proof. unfold int_or_0. rewrite kdec_str_of_Z. reflexivity. Qed.
