(* Proofs/Manifest13Proofs.v -- column bounds survive the manifest-level round trip (several entries,
   several columns, ADDED and EXISTING entries) type-faithfully, hence pruning on the DataFiles read
   back from a manifest is pruning on the bounds the writer computed, hence sound (C13). *)
From Coq Require Import ZArith List Bool.
Require Import DS.Model.Value DS.Model.Bound DS.Model.ManifestPrim DS.Gen.GenManifest13 DS.Model.Prune DS.Model.Manifest13
               DS.Proofs.BoundProofs DS.Proofs.PruneProofs DS.Proofs.FieldKeyProofs.
Require DS.Proofs.ListFacts.
Import ListNotations.
Open Scope Z_scope.

Lemma boundable_map_forallb (b : option bmap) : forallb (fun kv => boundable (snd kv)) (bview b) = true -> boundable_map b.
Proof. intros H k v I. exact (proj1 (forallb_forall _ _) H (k, v) I). Qed.

(* The left side is, verbatim, the df_lower / df_upper field of `gen_read_entry (gen_record d _)` (Gen/GenManifest13.v):
   record_roundtrip below is this lemma rewritten right to left, twice. *)
Lemma bounds_field_roundtrip (b : option bmap) :
  boundable_map b ->
  (let e := if truthy b then Some (map (fun kv => let k := fst kv in let v := snd kv in (py_str_of_id k, enc v)) (items b)) else None in
   if truthy e then Some (map (fun kv => let k := fst kv in let v := snd kv in (py_int_of_key k, dec v)) (items e)) else keep_falsy e)
  = norm_b b.
Proof.
  intro B. destruct b as [[|x l]|]; cbn [truthy items keep_falsy norm_b]; try reflexivity.
  cbn [map truthy items]. f_equal.
  (* py_int_of_key is FieldKeyProofs.int_or_0, py_str_of_id is str_of_Z: int(str(k)) = k on int field ids *)
  exact (bounds_map_roundtrip py_str_of_id py_int_of_key (x :: l) int_or_0_str_of_Z B).
Qed.

Lemma record_roundtrip (d : dfb) (status : Z) :
  boundable_df d -> gen_read_entry (gen_record d status) = norm_df d.
Proof.
  intros [BL BU]. unfold norm_df. rewrite <- (bounds_field_roundtrip _ BL), <- (bounds_field_roundtrip _ BU). reflexivity.
Qed.

Theorem via_manifest_roundtrip (added existing : list dfb) :
  (forall d, In d (added ++ existing) -> boundable_df d) ->
  via_manifest added existing = map norm_df (added ++ existing).
Proof.
  intro B. unfold via_manifest, read_manifest, write_manifest, gen_entries.
  rewrite !map_app, !map_map. f_equal; apply map_ext_in; intros d I; cbn [fst snd];
    apply record_roundtrip; apply B; apply in_or_app; [left|right]; exact I.
Qed.

(* one DataFile per entry, whatever the bounds are (no boundable hypothesis) *)
Corollary via_manifest_length (added existing : list dfb) :
  List.length (via_manifest added existing) = (List.length added + List.length existing)%nat.
Proof.
  unfold via_manifest, read_manifest, write_manifest, gen_entries.
  rewrite !map_length, app_length, !map_length. reflexivity.
Qed.

Lemma df_view_norm (d : dfb) : df_view (norm_df d) = df_view d.
Proof. destruct d as [[[|x l]|] [[|y u]|]]; reflexivity. Qed.

Lemma bview_opt_of l : bview (opt_of l) = l.
Proof. destruct l; reflexivity. Qed.

Lemma df_of_file_boundable schema rows : wf_file schema rows -> boundable_df (df_of_file schema rows).
Proof.
  intro WF.
  assert (N : forall k v, In (k, v) (fst (file_bounds schema rows)) \/ In (k, v) (snd (file_bounds schema rows)) -> boundable v = true).
  { intros k v I. unfold boundable. rewrite (file_bounds_nonnull schema rows k v WF I). reflexivity. }
  split; intros k v I; unfold df_of_file in I; cbn [df_lower df_upper] in I; rewrite bview_opt_of in I;
    apply (N k v); [left|right]; exact I.
Qed.

Lemma df_view_of_file schema rows : df_view (df_of_file schema rows) = file_bounds schema rows.
Proof.
  unfold df_view, df_of_file. cbn [df_lower df_upper]. rewrite !bview_opt_of.
  destruct (file_bounds schema rows); reflexivity.
Qed.

Theorem manifest_bounds_exact schema (added existing : list (list row)) :
  (forall f, In f (added ++ existing) -> wf_file schema f) ->
  manifest_bounds schema added existing = map (file_bounds schema) (added ++ existing).
Proof.
  intro WF. unfold manifest_bounds. rewrite via_manifest_roundtrip.
  - rewrite <- map_app, !map_map. apply map_ext. intro rows. rewrite df_view_norm. apply df_view_of_file.
  - intros d I. rewrite <- map_app in I. apply in_map_iff in I. destruct I as [rows [<- Ir]].
    apply df_of_file_boundable. exact (WF rows Ir).
Qed.

Lemma prune_map {F G} (h : F -> G) (bounds : G -> bmap * bmap) ids es (fs : list F) :
  prune bounds ids es (map h fs) = map h (prune (fun f => bounds (h f)) ids es fs).
Proof. rewrite !prune_filter. apply ListFacts.filter_map_comm. Qed.

Theorem prune_sound_via_manifest X schema es (added existing : list (list row)) rows lo hi :
  NoDup (map snd schema) -> (forall f, In f (added ++ existing) -> wf_file schema f) ->
  In (rows, (lo, hi)) (combine (added ++ existing) (manifest_bounds schema added existing)) ->
  file_may_match lo hi schema es = false ->
  forall r, In r rows -> row_selected X es r = false.
Proof.
  intros ND WF I M r Hr. rewrite (manifest_bounds_exact schema added existing WF), ListFacts.combine_map_r in I.
  apply in_map_iff in I. destruct I as [f [E If]]. injection E as -> E.
  eapply (prune_sound X schema rows es ND (WF rows If)); [|exact Hr].
  rewrite E. exact M.
Qed.
