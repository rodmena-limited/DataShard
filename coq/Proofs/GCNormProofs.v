(* Proofs/GCNormProofs.v -- the regenerated _normalize_path agrees with the readers' path resolution on
   every path form the writers produce, for EVERY table location; and the other regenerated constants of Gen/GenNorm.v as
   GCProofs uses them (the marker fallback is name_candidates; the JSON fallback demands its section). *)
From Coq Require Import String List Bool.
Require Import DS.Model.PyStr DS.Gen.GenNorm DS.Model.GC DS.Proofs.PyStrProofs.
Import ListNotations.
Open Scope string_scope.

Lemma resolve_idem : forall p, resolve (resolve p) = resolve p.
Proof. intro. apply lstrip_c_idem. Qed.

Lemma resolve_slash : forall p, resolve ("/" ++ p) = resolve p.
Proof. intro p. unfold resolve. cbn [append]. apply lstrip_c_cons_same. Qed.

Lemma table_relative_resolve : forall p, table_relative p -> resolve p = p.
Proof.
  intros p [H|H]; apply startswith_spec in H; destruct H as [r ->]; reflexivity.
Qed.

Lemma norm_wf_ref : forall tp r, wf_ref r -> normalize_path tp r = resolve r.
Proof.
  intros tp r H. unfold wf_ref, table_relative, resolve, slash in H. unfold normalize_path. cbv zeta.
  unfold resolve, slash. destruct H as [H|H]; rewrite H; [|rewrite orb_true_r]; reflexivity.
Qed.

Lemma table_relative_wf_ref : forall p, table_relative p -> wf_ref p.
Proof. intros p H. unfold wf_ref. rewrite table_relative_resolve; assumption. Qed.

Lemma norm_table_relative : forall tp p, table_relative p -> normalize_path tp p = p.
Proof.
  intros tp p H. rewrite norm_wf_ref.
  - apply table_relative_resolve. exact H.
  - apply table_relative_wf_ref. exact H.
Qed.

(* consequently normalisation is injective on table-relative keys: two different files never collide *)
Lemma norm_injective : forall tp p q, table_relative p -> table_relative q ->
  normalize_path tp p = normalize_path tp q -> p = q.
Proof. intros tp p q Hp Hq H. rewrite !norm_table_relative in H by assumption. exact H. Qed.

Lemma wf_ref_resolve_relative : forall r, wf_ref r -> table_relative (resolve r).
Proof. intros r H. exact H. Qed.

Lemma listed_data_relative : forall k, startswith (DATA_PREFIX ++ "/") k = true -> table_relative k.
Proof. intros k H. left. exact H. Qed.

Lemma listed_manifests_relative : forall k, startswith (MANIFESTS_PREFIX ++ "/") k = true -> table_relative k.
Proof.
  intros k H. right. change (MANIFESTS_PREFIX ++ "/") with ("metadata/" ++ "manifests/") in H.
  eapply startswith_trans_app. exact H.
Qed.

Lemma listed_inflight_relative : forall k, startswith (INFLIGHT_PATH ++ "/") k = true -> table_relative k.
Proof.
  intros k H. right. change (INFLIGHT_PATH ++ "/") with ("metadata/" ++ "inflight/") in H.
  eapply startswith_trans_app. exact H.
Qed.

Lemma table_relative_not_escape : forall k, table_relative k -> escapes k = false.
Proof.
  intros k [H|H]; apply startswith_spec in H; destruct H as [r ->]; reflexivity.
Qed.

Lemma name_candidates_relative : forall mk k, In k (name_candidates mk) -> table_relative k.
Proof.
  intros mk k H. unfold name_candidates in H. cbv zeta in H.
  destruct (startswith "data/" _) eqn:D; cbn [orb] in H.
  { destruct H as [<-|[]]. left. exact D. }
  destruct (startswith "metadata/" _) eqn:M.
  { destruct H as [<-|[]]. right. exact M. }
  destruct H as [<-|[<-|[]]].
  - left. apply startswith_app.
  - right. change "metadata/manifests/" with ("metadata/" ++ "manifests/"). rewrite append_assoc. apply startswith_app.
Qed.

Lemma norm_candidate : forall tp mk t, In (resolve t) (name_candidates mk) -> normalize_path tp t = resolve t.
Proof. intros tp mk t H. apply norm_wf_ref. exact (name_candidates_relative mk _ H). Qed.

(* the regenerated fallback of _marker_targets IS Model/GC.v name_candidates (what a marker's key can denote), by conversion *)
Lemma marker_fallback_covers : forall mk, marker_fallback mk (basename mk) = name_candidates mk.
Proof. intro mk. reflexivity. Qed.

(* the legacy JSON fallback of read_manifest_list_file / read_manifest_file subscripts the section it iterates (`DOC[key]`):
   a JSON document without it is refused, not read as an empty list / manifest.  Checked by computation on the constants
   REGENERATED from file_manager.py: with `DOC.get(key, [])` in the source these two lemmas -- and everything proved about
   what a successful read returned -- are unproved. *)
Lemma list_json_section_required : LIST_JSON_MISSING_SECTION_READS_EMPTY = false.
Proof. reflexivity. Qed.
Lemma manifest_json_section_required : MANIFEST_JSON_MISSING_SECTION_READS_EMPTY = false.
Proof. reflexivity. Qed.
