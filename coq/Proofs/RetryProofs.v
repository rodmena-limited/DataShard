(* Proofs/RetryProofs.v -- the retry loop masks transients within budget and surfaces everything else (Model/Retry.v);
   a paginated listing retried as a whole returns exactly the fault-free listing (Model/Paged.v). *)
From Coq Require Import List QArith Lia.
Require Import DS.Model.Str DS.Gen.GenS3 DS.Model.Retry DS.Model.Paged DS.Proofs.StrProofs.
Import ListNotations.
Open Scope nat_scope.

Section RetryProofs.
  Context {V E : Type}.
  Notation outcome := (outcome V E).

  Notation transients es := (map (@Transient V E) es).

  Lemma retry_skip : forall (es : list E) budget (rest : list outcome),
    length es <= budget ->
    retry budget (transients es ++ rest) =
    (fst (retry (budget - length es) rest), snd (retry (budget - length es) rest) + length es).
  Proof.
    induction es as [|e es IH]; intros budget rest H; simpl in *.
    - rewrite Nat.sub_0_r, Nat.add_0_r. destruct (retry budget rest). reflexivity.
    - destruct budget as [|b]; [lia|]. cbn [retry]. rewrite (IH b rest), Nat.add_succ_r by lia. reflexivity.
  Qed.

  Lemma retry_attempts_bound : forall budget (outs : list outcome), snd (retry budget outs) <= S budget.
  Proof.
    induction budget as [|b IH]; intros outs; destruct outs as [|[v|e|e|e] rest]; simpl; try lia.
    specialize (IH rest). destruct (retry b rest). simpl in *. lia.
  Qed.

  Lemma retry_spec : forall budget (outs : list outcome) r n, retry budget outs = (r, n) ->
    (r = ScriptEnded /\ (exists es, outs = transients es) /\ n = length outs /\ n <= budget)
    \/ exists es last rest, outs = transients es ++ last :: rest /\ n = S (length es) /\ length es <= budget /\
         match last with
         | Good v => r = Returned v
         | Permanent e | NonRetryable e => r = Raised e
         | Transient e => r = Raised e /\ length es = budget
         end.
  Proof.
    intros budget outs. revert budget. induction outs as [|o rest IH]; intros budget r n H; cbn [retry] in H.
    - injection H as <- <-. left. split; [reflexivity|]. split; [exists []; reflexivity|]. split; [reflexivity|apply Nat.le_0_l].
    - destruct o as [v|e|e|e]; [|destruct budget as [|b]|..].
      (* a first outcome that ends the loop is `last` itself, after no transient: the equations hold by computation, what is
         left of `repeat split` is 0 <= budget *)
      + (* Good *) injection H as <- <-. right. exists [], (Good v), rest. repeat split; apply Nat.le_0_l.
      + (* Transient, no budget left *) injection H as <- <-. right. exists [], (Transient e), rest. repeat split; apply Nat.le_0_l.
      + (* a transient with budget left: the loop goes on with the rest of the script *)
        destruct (retry b rest) as [r' n'] eqn:Er. injection H as <- <-.
        destruct (IH b r' n' Er) as [[Hr [[es Ho] [Hn Hb]]]|[es [last [rest' [Ho [Hn [Hb Hl]]]]]]]; subst rest.
        * left. split; [exact Hr|]. split; [exists (e :: es); reflexivity|]. simpl; lia.
        * right. exists (e :: es), last, rest'. split; [reflexivity|]. split; [simpl; lia|]. split; [simpl; lia|].
          destruct last; try exact Hl. destruct Hl as [Hl1 Hl2]. split; [exact Hl1|simpl; lia].
      + (* Permanent *) injection H as <- <-. right. exists [], (Permanent e), rest. repeat split; apply Nat.le_0_l.
      + (* NonRetryable *) injection H as <- <-. right. exists [], (NonRetryable e), rest. repeat split; apply Nat.le_0_l.
  Qed.
End RetryProofs.

Lemma qmin_le_r : forall a b, (qmin a b <= b)%Q.
Proof.
  intros a b. unfold qmin. destruct (Qle_bool a b) eqn:E; [apply Qle_bool_iff; exact E|apply Qle_refl].
Qed.

Lemma backoff_bounded : forall n d mx f, (d <= mx)%Q -> Forall (fun x => (x <= mx)%Q) (backoff d mx f n).
Proof.
  induction n as [|n IH]; intros d mx f H; simpl; constructor; [exact H|]. apply IH. apply qmin_le_r.
Qed.

Lemma backoff_length : forall n d mx f, length (backoff d mx f n) = n.
Proof. induction n as [|n IH]; intros; simpl; [reflexivity|]. rewrite IH. reflexivity. Qed.

Definition transient_exn (e : exn) : Prop :=
  match e with ClientError c => member c gen_permanent_codes = false | BotoCoreErr | OSErr => True | _ => False end.
Definition permanent_exn (e : exn) : Prop :=
  match e with ClientError c => member c gen_permanent_codes = true | _ => False end.

Lemma classify_transient : forall {V} e, transient_exn e -> @classify V (inr e) = Transient e.
Proof.
  intros V e H. destruct e as [c| | | |]; cbn [transient_exn] in H; try contradiction; try reflexivity.
  (* ClientError c: transient exactly when c is not in the table *)
  unfold classify, is_permanent. rewrite H. reflexivity.
Qed.

Lemma classify_permanent : forall {V} e, permanent_exn e -> @classify V (inr e) = Permanent e.
Proof.
  intros V e H. destruct e as [c| | | |]; cbn [permanent_exn] in H; try contradiction.
  unfold classify, is_permanent. rewrite H. reflexivity.
Qed.

Lemma classify_transients : forall {V} (es : list exn), Forall transient_exn es ->
  map (@classify V) (map inr es) = map (@Transient V exn) es.
Proof.
  induction es as [|e es IH]; intro H; [reflexivity|]. apply Forall_cons_iff in H. destruct H as [He Hes]. cbn [map].
  rewrite (IH Hes), (classify_transient e He). reflexivity.
Qed.

Lemma member_subset : forall l1 l2, forallb (fun c => member c l2) l1 = true ->
  forall c, member c l1 = true -> member c l2 = true.
Proof. intros l1 l2 H c Hc. rewrite forallb_forall in H. apply H, member_In, Hc. Qed.

(* every answer on the independent list of definitive S3 errors is one the library classifies permanent: the list is
   checked, code by code, against the REGENERATED table (dropping a code from PERMANENT_S3_ERROR_CODES breaks this proof) *)
Lemma definitive_permanent : forall e, definitive e = true -> permanent_exn e.
Proof.
  intros e H. destruct e; cbn [definitive] in H; try discriminate.
  apply (member_subset definitive_codes gen_permanent_codes); [vm_compute; reflexivity|exact H].
Qed.

Lemma s3_retry_sleeps_bounded : forall attempts, Forall (fun x => (x <= gen_max_delay)%Q) (with_s3_retry_sleeps attempts).
Proof. intro n. unfold with_s3_retry_sleeps. apply backoff_bounded. vm_compute. discriminate. Qed.

Lemma first_fault : forall (X : Type) n (pl : list (option X)),
  Forall (eq None) (firstn n pl) \/ exists i f rest, i < n /\ pl = repeat None i ++ Some f :: rest.
Proof.
  induction n as [|n IH]; intro pl; [left; constructor|]. destruct pl as [|[f|] pl]; [left; constructor| |].
  - right. exists 0, f, pl. split; [lia|reflexivity].
  - destruct (IH pl) as [H|[i [f [rest [Hi ->]]]]].
    + left. constructor; [reflexivity|exact H].
    + right. exists (S i), f, rest. split; [lia|reflexivity].
Qed.

Section Paged.
  Context {A : Type}.
  Notation plan := Paged.plan.

  (* with attempt_clean_prefix, one attempt completely (by first_fault) *)
  Lemma attempt_clean : forall (pages : list (list A)) (pl : plan) acc, Forall (eq None) (firstn (length pages) pl) ->
    attempt pages pl acc = (inl (acc ++ concat pages), skipn (length pages) pl, length pages).
  Proof.
    induction pages as [|p ps IH]; intros pl acc H; cbn [attempt concat length].
    - rewrite app_nil_r. reflexivity.
    - destruct pl as [|[f|] pl']; cbn [firstn length] in H.
      + (* plan used up: every later request is answered as well *)
        rewrite (IH [] (acc ++ p)), <- app_assoc by (rewrite firstn_nil; constructor). destruct (length ps); reflexivity.
      + apply Forall_cons_iff in H. destruct H as [H _]. discriminate H.
      + apply Forall_cons_iff in H. rewrite (IH pl' (acc ++ p) (proj2 H)), <- app_assoc. reflexivity.
  Qed.

  Lemma attempt_clean_prefix : forall i (pages : list (list A)) f rest acc, i < length pages ->
    attempt pages (repeat None i ++ Some f :: rest) acc = (inr f, rest, S i).
  Proof.
    induction i as [|i IH]; intros pages f rest acc H; destruct pages as [|p ps]; simpl in H; try lia; cbn [repeat app attempt].
    - reflexivity.
    - rewrite (IH ps f rest (acc ++ p)) by lia. reflexivity.
  Qed.

  Lemma nfaults_first : forall i f (rest : plan), nfaults (repeat None i ++ Some f :: rest) = S (nfaults rest).
  Proof. induction i as [|i IH]; intros f rest; [reflexivity|]. exact (IH f rest). Qed.

  Lemma script_S : forall fuel (pages : list (list A)) (pl : plan),
    script (S fuel) pages pl = let '(r, rest, n) := attempt pages pl [] in (outcome_of r, n) :: script fuel pages rest.
  Proof. reflexivity. Qed.

  (* the form of script the retry theorems speak about (retry_skip), so the loop returns exactly the fault-free listing *)
  Lemma script_shape : forall fuel (pages : list (list A)) (pl : plan), all_transient pl -> nfaults pl < fuel ->
    exists es rest, length es <= nfaults pl /\
      map fst (script fuel pages pl) = map (@Transient _ _) es ++ Good (concat pages) :: rest.
  Proof.
    induction fuel as [|fu IH]; intros pages pl Ht Hn; [lia|]. rewrite script_S.
    destruct (first_fault _ (length pages) pl) as [E|[i [f [rest [Hi ->]]]]].
    - (* the attempt runs through *)
      rewrite (attempt_clean pages pl [] E). exists [], (map fst (script fu pages (skipn (length pages) pl))).
      split; [apply Nat.le_0_l|reflexivity].
    - (* a fault ends it: it is transient, and the script goes on with one fault fewer ahead *)
      rewrite (attempt_clean_prefix i pages f rest [] Hi). rewrite nfaults_first in *.
      rewrite (Ht f) by (apply in_or_app; right; left; reflexivity).
      destruct (IH pages rest) as [es [rest' [Hl E]]]; [intros g Hg; apply Ht; apply in_or_app; right; right; exact Hg|lia|].
      exists (FTransient :: es), rest'. split; [simpl; lia|]. cbn [map fst outcome_of]. rewrite E. reflexivity.
  Qed.
End Paged.
