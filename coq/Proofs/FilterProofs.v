(* Proofs/FilterProofs.v -- filters mean what SQL says, in every scan API:
   one expression compiled and evaluated (compile_sound) and conjunctions of them (conj_sound); Table.filter and projection;
   every read path as one read-filter-project (rfp), which raises exactly when pyarrow refuses the expression on the table
   (rfp_closed); hence every API is one normal form (api_nf) that raises or returns the SQL answer on the files read
   (scan_closed), the SQL answer on all files for any bounds under which pruning is safe (api_sql); the parser against an
   independent reading of the filter language (well_formed, meaning, parse_one_spec, parse_spec) and value sets held by any
   iterable (same_cond, same_filter, parse_same); why the filter comes before the projection (eval3_missing, lookup_proj_none);
   `typed`, a sufficient condition for pyarrow not to refuse; sql3_not_in, the SQL standard's NOT IN, for comparison. *)
From Coq Require Import String.
From Coq Require Import QArith List Lia.
Require Import DS.Model.Value DS.Model.FilterExpr DS.Model.Prune DS.Proofs.PruneProofs.
Require Import DS.Gen.GenFilterConst DS.Gen.GenFilter DS.Model.Filter.
Require DS.Proofs.ListFacts.
Import ListNotations.
Open Scope Z_scope.

Lemma tv_and_tt a b : tv_and a b = TT <-> a = TT /\ b = TT.
Proof. destruct a, b; simpl; intuition discriminate. Qed.

Lemma tv_not_tt a : tv_not a = TT <-> a = TF.
Proof. destruct a; simpl; intuition discriminate. Qed.

Lemma tv_of_tt b : tv_of b = TT <-> b = true.
Proof. destruct b; simpl; intuition discriminate. Qed.

Lemma tv_of_tf b : tv_of b = TF <-> b = false.
Proof. destruct b; simpl; intuition discriminate. Qed.

Lemma is_tt_iff t : is_tt t = true <-> t = TT.
Proof. destruct t; simpl; intuition discriminate. Qed.

(* the compiled form of a well-shaped expression *)
Definition compile (PA : parg -> bool) (e : fexpr) : res cexpr := condition PA (of_fexpr e).

(* the literal pyarrow has to accept when the expression of a well-shaped fexpr is built *)
Definition literal_of (e : fexpr) : option parg :=
  match fop_ e with
  | IN | NOT_IN => match not_none (flval e) with [] => None | vs => Some (AList vs) end
  | IS_NULL | IS_NOT_NULL => None
  | _ => Some (AVal (fsval e))
  end.

(* the pyarrow expression of a well-shaped fexpr: what _build_condition returns when pyarrow accepts the literal *)
Definition shape (e : fexpr) : cexpr :=
  let c := fcol e in
  match fop_ e with
  | EQ => Cmp CEq c (AVal (fsval e))
  | NE => Cmp CNe c (AVal (fsval e))
  | LT => Cmp CLt c (AVal (fsval e))
  | LE => Cmp CLe c (AVal (fsval e))
  | GT => Cmp CGt c (AVal (fsval e))
  | GE => Cmp CGe c (AVal (fsval e))
  | IN => match not_none (flval e) with [] => Scalar false | vs => And (IsIn c vs) (IsValid c) end
  | NOT_IN => match not_none (flval e) with [] => IsValid c | vs => And (Not (IsIn c vs)) (IsValid c) end
  | IS_NULL => IsNull c
  | IS_NOT_NULL => IsValid c
  end.

(* compiling a well-shaped expression is asking pyarrow about its literal (pa.scalar of the comparison value, pa.array of the
   non-empty in / not_in value set): what is built does not depend on the answer *)
Lemma compile_nf PA e :
  compile PA e = match literal_of e with
                 | Some a => if PA a then Ok (shape e) else Err EBuild
                 | None => Ok (shape e)
                 end.
Proof.
  destruct e as [c op sv lv]. unfold compile, condition, of_fexpr, literal_of, shape. simpl.
  destruct op; simpl; unfold mk_cmp; try reflexivity.
  - (* IN *) destruct (not_none lv) as [|w ws]; simpl; [reflexivity|]. unfold mk_is_in. destruct (PA (AList (w :: ws))); reflexivity.
  - (* NOT_IN *) destruct (not_none lv) as [|w ws]; simpl; [reflexivity|]. unfold mk_is_in. destruct (PA (AList (w :: ws))); reflexivity.
Qed.

Lemma compile_shape PA e ce : compile PA e = Ok ce -> ce = shape e.
Proof. rewrite compile_nf. destruct (literal_of e) as [a|]; [destruct (PA a)|]; congruence. Qed.

Lemma compile_err PA e k :
  compile PA e = Err k -> k = EBuild /\ exists a, literal_of e = Some a /\ PA a = false.
Proof.
  rewrite compile_nf. destruct (literal_of e) as [a|]; [|discriminate].
  destruct (PA a) eqn:P; [discriminate|]. intros [= <-]. eauto.
Qed.

Lemma compile_ok PA e :
  (forall a, literal_of e = Some a -> PA a = true) -> exists ce, compile PA e = Ok ce.
Proof.
  intro H. rewrite compile_nf. destruct (literal_of e) as [a|]; [rewrite (H a eq_refl)|]; eauto.
Qed.

Lemma shape_fields e c : In c (fields (shape e)) -> c = fcol e.
Proof.
  destruct e as [c0 op sv lv]. unfold shape. cbn [fcol fop_ fsval flval].
  destruct op; try (destruct (not_none lv)); simpl; intuition.
Qed.

Lemma cell_lookup r c v : lookup c r = Some v -> cell r c = v.
Proof. unfold cell. intros ->. reflexivity. Qed.

Lemma existsb_not_none (f : value -> bool) l :
  existsb (fun w => negb (is_null w) && f w) (not_none l) = existsb (fun w => negb (is_null w) && f w) l.
Proof.
  unfold not_none. induction l as [|a l IH]; simpl; auto.
  destruct (is_null a) eqn:N; simpl; rewrite ?N; simpl; rewrite IH; reflexivity.
Qed.

Lemma not_none_no_null l : existsb is_null (not_none l) = false.
Proof.
  unfold not_none. induction l as [|a l IH]; simpl; auto.
  destruct (is_null a) eqn:N; simpl; rewrite ?N; auto.
Qed.

Lemma existsb_nil_not_none (f : value -> bool) l :
  not_none l = [] -> existsb (fun w => negb (is_null w) && f w) l = false.
Proof. intro H. rewrite <- existsb_not_none, H. reflexivity. Qed.

Section One.
  Variable X : value -> value -> bool.
  Variable E : cexpr -> row -> bool.
  Variable PA : parg -> bool.

  (* the FilterOp for which gen_condition builds the pyarrow comparison `op` *)
  Definition fop_of_cmp (op : cmpop) : fop :=
    match op with CEq => EQ | CNe => NE | CLt => LT | CLe => LE | CGt => GT | CGe => GE end.

  Lemma eval_cmp_sound op v l lv t :
    eval_cmp op v (AVal l) = Some t -> (t = TT <-> selected X (fop_of_cmp op) v l lv = true).
  Proof.
    unfold eval_cmp.
    destruct (is_null v) eqn:Nv; simpl.
    - intros [= <-]. destruct op; simpl; rewrite Nv; split; intro H; discriminate H.
    - destruct (is_null l) eqn:Nl; simpl.
      + (* a NULL literal: UNKNOWN; Python orders nothing against None *)
        intros [= <-]. destruct l; try discriminate.
        assert (C : vcmp v VNull = None).
        { destruct (vcmp v VNull) as [o|] eqn:C; [|reflexivity]. destruct (vcmp_nonnull _ _ _ C) as [_ [=]]. }
        destruct op; simpl; rewrite Nv; unfold py_lt, py_le, py_gt, py_ge; rewrite ?C; split; intro H; discriminate H.
      + destruct (vcmp v l) as [o|] eqn:C; [|discriminate].
        intros [= <-]. rewrite tv_of_tt.
        destruct op; simpl; rewrite Nv, ?Nl; simpl;
          unfold py_eqb, py_lt, py_le, py_gt, py_ge; rewrite C; simpl; reflexivity.
  Qed.

  Lemma cmp_sound op c sv lv r t :
    eval3 X E (Cmp op c (AVal sv)) r = Some t -> (t = TT <-> selected X (fop_of_cmp op) (cell r c) sv lv = true).
  Proof.
    cbn [eval3]. destruct (lookup c r) as [v|] eqn:L; [|discriminate]. rewrite (cell_lookup _ _ _ L).
    destruct (E _ r); [discriminate|]. apply eval_cmp_sound.
  Qed.

  Lemma shape_sound e r t :
    eval3 X E (shape e) r = Some t -> (t = TT <-> selected X (fop_ e) (cell r (fcol e)) (fsval e) (flval e) = true).
  Proof.
    destruct e as [c op sv lv]. unfold shape. cbn [fcol fop_ fsval flval].
    destruct op.
    - (* EQ *) exact (cmp_sound CEq c sv lv r t).
    - (* NE *) exact (cmp_sound CNe c sv lv r t).
    - (* LT *) exact (cmp_sound CLt c sv lv r t).
    - (* LE *) exact (cmp_sound CLe c sv lv r t).
    - (* GT *) exact (cmp_sound CGt c sv lv r t).
    - (* GE *) exact (cmp_sound CGe c sv lv r t).
    - (* IN *)
      destruct (not_none lv) as [|w ws] eqn:Em.
      + simpl. intros [= <-].
        destruct (is_null (cell r c)); [intuition discriminate|].
        rewrite (existsb_nil_not_none _ _ Em). intuition discriminate.
      + rewrite <- Em. simpl. destruct (lookup c r) as [v|] eqn:L; [|discriminate].
        rewrite (cell_lookup _ _ _ L). destruct (E _ r); [discriminate|].
        intros [= <-]. rewrite tv_and_tt, !tv_of_tt. unfold eval_is_in.
        destruct (is_null v) eqn:Nv; simpl.
        * rewrite not_none_no_null. intuition discriminate.
        * rewrite existsb_not_none. intuition.
    - (* NOT_IN *)
      destruct (not_none lv) as [|w ws] eqn:Em.
      + simpl. destruct (lookup c r) as [v|] eqn:L; [|discriminate].
        rewrite (cell_lookup _ _ _ L). intros [= <-]. rewrite tv_of_tt.
        destruct (is_null v); simpl; [intuition discriminate|].
        rewrite (existsb_nil_not_none _ _ Em). intuition.
      + rewrite <- Em. simpl. destruct (lookup c r) as [v|] eqn:L; [|discriminate].
        rewrite (cell_lookup _ _ _ L). destruct (E _ r); [discriminate|]. simpl.
        intros [= <-]. rewrite tv_and_tt, tv_not_tt, tv_of_tt, tv_of_tf. unfold eval_is_in.
        destruct (is_null v) eqn:Nv; simpl.
        * intuition discriminate.
        * rewrite existsb_not_none. rewrite negb_true_iff. intuition.
    - (* IS_NULL *)
      simpl. destruct (lookup c r) as [v|] eqn:L; [|discriminate].
      rewrite (cell_lookup _ _ _ L). intros [= <-]. apply tv_of_tt.
    - (* IS_NOT_NULL *)
      simpl. destruct (lookup c r) as [v|] eqn:L; [|discriminate].
      rewrite (cell_lookup _ _ _ L). intros [= <-]. apply tv_of_tt.
  Qed.

  Theorem compile_sound e ce :
    compile PA e = Ok ce ->
    forall r t, eval3 X E ce r = Some t ->
      (t = TT <-> selected X (fop_ e) (cell r (fcol e)) (fsval e) (flval e) = true).
  Proof. intros C r t. rewrite (compile_shape PA e ce C). apply shape_sound. Qed.
End One.

Lemma bind_ok {A} (x : res A) : bind x (fun a => Ok a) = x.
Proof. destruct x; reflexivity. Qed.

Lemma bind_assoc {A B C} (x : res A) (f : A -> res B) (g : B -> res C) :
  bind (bind x f) g = bind x (fun a => bind (f a) g).
Proof. destruct x; reflexivity. Qed.

Lemma bind_ext {A B} (x : res A) (f g : A -> res B) : (forall a, f a = g a) -> bind x f = bind x g.
Proof. intro H. destruct x; simpl; auto. Qed.

Lemma mapM_ext {A B} (f g : A -> res B) l : (forall a, In a l -> f a = g a) -> mapM f l = mapM g l.
Proof.
  induction l as [|a l IH]; simpl; intro H; auto.
  rewrite (H a (or_introl eq_refl)), IH; auto.
Qed.

Lemma mapM_app {A B} (f : A -> res B) l1 l2 :
  mapM f (l1 ++ l2) = bind (mapM f l1) (fun x => bind (mapM f l2) (fun y => Ok (x ++ y))).
Proof.
  induction l1 as [|a l1 IH]; simpl.
  - rewrite bind_ok. reflexivity.
  - destruct (f a) as [b|k]; simpl; auto. rewrite IH.
    destruct (mapM f l1) as [x|k]; simpl; auto. destruct (mapM f l2); reflexivity.
Qed.

Lemma mapM_Forall2 {A B} (f : A -> res B) l out : mapM f l = Ok out -> Forall2 (fun a b => f a = Ok b) l out.
Proof.
  revert out. induction l as [|a l IH]; simpl; intros out H.
  - inversion H. constructor.
  - destruct (f a) as [b|] eqn:Fa; simpl in H; [|discriminate].
    destruct (mapM f l) as [bs|] eqn:M; simpl in H; [|discriminate].
    inversion H; subst. constructor; auto.
Qed.

Lemma mapM_err {A B} (f : A -> res B) l k : mapM f l = Err k -> exists a, In a l /\ f a = Err k.
Proof.
  induction l as [|a l IH]; simpl; [discriminate|].
  destruct (f a) as [b|k'] eqn:Fa; simpl.
  - destruct (mapM f l) as [bs|k'']; simpl; [discriminate|]. intros [= <-].
    destruct (IH eq_refl) as [x [I F]]. exists x; auto.
  - intros [= <-]. exists a; auto.
Qed.

Lemma mapM_if {A R} (bad : A -> bool) (g : A -> R) k l :
  mapM (fun a => if bad a then Err k else Ok (g a)) l = if existsb bad l then Err k else Ok (map g l).
Proof.
  induction l as [|a l IH]; simpl; [reflexivity|]. destruct (bad a); simpl; [reflexivity|].
  rewrite IH. destruct (existsb bad l); reflexivity.
Qed.

Lemma mapM_in_err {A R} (g : A -> res R) l a k : In a l -> g a = Err k -> exists k', mapM g l = Err k'.
Proof.
  induction l as [|a0 l IH]; simpl; [contradiction|]. intros [->|I] Ga.
  - rewrite Ga. simpl. eauto.
  - destruct (g a0); simpl; [|eauto]. destruct (IH I Ga) as [k' ->]. simpl. eauto.
Qed.

Lemma existsb_concat {A} (p : A -> bool) ls : existsb p (concat ls) = existsb (existsb p) ls.
Proof. induction ls as [|l ls IH]; simpl; [reflexivity|]. rewrite existsb_app, IH. reflexivity. Qed.

Lemma concat_filter_nonempty {A} (bs : list (list A)) : concat (filter nonempty bs) = concat bs.
Proof. induction bs as [|b bs IH]; simpl; auto. destruct b; simpl; rewrite IH; reflexivity. Qed.

Section Conj.
  Variable X : value -> value -> bool.
  Variable E : cexpr -> row -> bool.
  Variable PA : parg -> bool.

  Lemma and_sound a b (p q : bool) r t :
    (forall t, eval3 X E a r = Some t -> (t = TT <-> p = true)) ->
    (forall t, eval3 X E b r = Some t -> (t = TT <-> q = true)) ->
    eval3 X E (And a b) r = Some t -> (t = TT <-> p && q = true).
  Proof.
    intros Ha Hb. simpl. destruct (eval3 X E a r) as [x|]; [|discriminate]. destruct (eval3 X E b r) as [y|]; [|discriminate].
    intros [= <-]. rewrite tv_and_tt, andb_true_iff, (Ha x eq_refl), (Hb y eq_refl). reflexivity.
  Qed.

  Lemma fold_combine_none r cs : forall c,
    (eval3 X E c r = None \/ exists ci, In ci cs /\ eval3 X E ci r = None) ->
    eval3 X E (fold_left gen_combine cs c) r = None.
  Proof.
    induction cs as [|a cs IH]; simpl; intros c H.
    - destruct H as [H|[ci [[] _]]]; auto.
    - apply IH. destruct H as [H|[ci [[<-|Hi] N]]].
      + left. unfold gen_combine. simpl. rewrite H. reflexivity.
      + left. unfold gen_combine. simpl. rewrite N. destruct (eval3 X E c r); reflexivity.
      + right. exists ci; auto.
  Qed.

  (* the `&`-fold over compiled conjuncts, from an expression c that already stands for the condition p *)
  Lemma fold_sound r es : forall cs c (p : bool),
    (forall t, eval3 X E c r = Some t -> (t = TT <-> p = true)) ->
    Forall2 (fun e ci => compile PA e = Ok ci) es cs ->
    forall t, eval3 X E (fold_left gen_combine cs c) r = Some t -> (t = TT <-> p && row_selected X es r = true).
  Proof.
    induction es as [|e es IH]; intros cs c p Hc F; inversion F as [|? ci ? cs' He F']; subst; simpl; intros t Ev.
    - rewrite andb_true_r. exact (Hc t Ev).
    - rewrite andb_assoc. apply (IH cs' (gen_combine c ci) _); [|exact F'|exact Ev].
      intros t'. apply and_sound; [exact Hc|]. intros t''. exact (compile_sound X E PA e ci He r t'').
  Qed.

  Theorem conj_sound es cs ce :
    mapM (compile PA) es = Ok cs -> gen_fold cs = Some ce ->
    forall r t, eval3 X E ce r = Some t -> (t = TT <-> row_selected X es r = true).
  Proof.
    intros M F r. apply mapM_Forall2 in M. destruct M as [|e c es cs Hc M]; [discriminate|]. injection F as <-.
    exact (fold_sound r es cs c _ (compile_sound X E PA e c Hc r) M).
  Qed.
End Conj.

Section Rows.
  Variable X : value -> value -> bool.
  Variable E : cexpr -> row -> bool.

  Definition keeps (ce : cexpr) (r : row) : bool :=
    match eval3 X E ce r with Some TT => true | _ => false end.

  (* pyarrow refuses the expression on the row *)
  Definition undef (ce : cexpr) (r : row) : bool :=
    match eval3 X E ce r with None => true | Some _ => false end.

  Lemma filter_rows_closed ce rows :
    filter_rows X E ce rows = if existsb (undef ce) rows then Err EEval else Ok (filter (keeps ce) rows).
  Proof.
    induction rows as [|r rs IH]; simpl; [reflexivity|]. unfold undef at 1, keeps at 1.
    destruct (eval3 X E ce r) as [t|]; simpl; [|reflexivity].
    rewrite IH. destruct (existsb (undef ce) rs); simpl; [reflexivity|]. destruct t; reflexivity.
  Qed.

  (* binding comes first: a refused expression raises whatever the rows are -- also without rows *)
  Variable B : cexpr -> bool.

  (* pyarrow refuses the expression on a table: when binding it, or on one of the rows *)
  Definition refuses (ce : option cexpr) (rows : list row) : bool :=
    match ce with None => false | Some e => B e || existsb (undef e) rows end.

  Definition kept (ce : option cexpr) (rows : list row) : list row :=
    match ce with None => rows | Some e => filter (keeps e) rows end.

  Lemma refuses_iff e rows :
    refuses (Some e) rows = true <-> B e = true \/ exists r, In r rows /\ eval3 X E e r = None.
  Proof.
    simpl. rewrite orb_true_iff, existsb_exists. unfold undef.
    split; (intros [H|[r [I U]]]; [left; exact H|right; exists r; split; [exact I|]]).
    - destruct (eval3 X E e r); [discriminate U | reflexivity].
    - rewrite U. reflexivity.
  Qed.

  (* for files that are given, "pyarrow refuses no row" is decided by computing *)
  Lemma defined_on_files {F} (rows_of : F -> list row) e files :
    existsb (fun f => existsb (undef e) (rows_of f)) files = false ->
    forall f r, In f files -> In r (rows_of f) -> eval3 X E e r <> None.
  Proof.
    intros D f r Hf Hr Ev. pose proof (proj1 (ListFacts.existsb_false _ _ _) (proj1 (ListFacts.existsb_false _ _ _) D f Hf) r Hr) as U.
    unfold undef in U. rewrite Ev in U. discriminate U.
  Qed.

  Lemma refuses_refused ce rows : refuses ce rows = false -> refused B ce = false.
  Proof. destruct ce as [e|]; simpl; [|reflexivity]. intro H. apply orb_false_elim in H. tauto. Qed.

  Lemma apply_filter_closed ce rows :
    apply_filter X E B ce rows = if refuses ce rows then Err EEval else Ok (kept ce rows).
  Proof.
    unfold apply_filter, refuses, kept. destruct ce as [e|]; simpl; [|reflexivity].
    destruct (B e); simpl; [reflexivity|]. apply filter_rows_closed.
  Qed.

  Lemma kept_concat ce bs : kept ce (concat bs) = concat (map (kept ce) bs).
  Proof. destruct ce as [e|]; simpl; [symmetry; apply concat_filter_map | rewrite map_id; reflexivity]. Qed.

  (* bs <> []: with no table nothing is bound *)
  Lemma refuses_concat ce bs : bs <> [] -> existsb (refuses ce) bs = refuses ce (concat bs).
  Proof.
    unfold refuses. destruct ce as [e|].
    - intro NE. rewrite existsb_concat. destruct (B e); cbn [orb]; [|reflexivity].
      destruct bs; [contradiction|reflexivity].
    - intros _. induction bs; simpl; auto.
  Qed.
End Rows.

(* a projection the property speaks about: existing columns, at least one *)
Definition valid_cols (sch : list Z) (cols : option (list Z)) : Prop :=
  match cols with None => True | Some cs => cs <> [] /\ forall c, In c cs -> In c sch end.

Lemma concat_tables_valid sch cols ts : valid_cols sch cols -> concat_tables cols ts = concat ts.
Proof. destruct cols as [[|c cs]|]; simpl; auto. intros [H _]. congruence. Qed.

Definition sel (cols : option (list Z)) (rows : list row) : list row :=
  match cols with None => rows | Some cs => map (proj cs) rows end.

Lemma zmem_in c l : zmem c l = true <-> In c l.
Proof. exact (ListFacts.existsb_eqb_In Z Z.eqb Z.eqb_eq c l). Qed.

Lemma select_valid sch cols rows : valid_cols sch cols -> select sch cols rows = Ok (sel cols rows).
Proof.
  destruct cols as [cs|]; simpl; auto. intros [_ V].
  replace (forallb (fun c => zmem c sch) cs) with true; auto.
  symmetry. apply forallb_forall. intros c I. apply zmem_in. auto.
Qed.

Lemma select_lenient_valid sch cols rows : valid_cols sch cols -> select_lenient sch cols rows = sel cols rows.
Proof.
  destruct cols as [cs|]; simpl; auto. intros [_ V].
  rewrite ListFacts.filter_all_true; [reflexivity|]. intros c I. apply zmem_in, V, I.
Qed.

Lemma select_invalid sch cs rows c : In c cs -> ~ In c sch -> select sch (Some cs) rows = Err EProj.
Proof.
  intros I NI. simpl. destruct (forallb (fun c0 => zmem c0 sch) cs) eqn:F; auto.
  rewrite forallb_forall in F. specialize (F c I). apply zmem_in in F. contradiction.
Qed.

Lemma sel_concat cols (ts : list (list row)) : concat (map (sel cols) ts) = sel cols (concat ts).
Proof. destruct cols as [cs|]; unfold sel; [symmetry; apply concat_map | rewrite map_id; reflexivity]. Qed.

Lemma sel_nil cols : sel cols [] = [].
Proof. destruct cols; reflexivity. Qed.

(* iter_batches loses no row *)
Lemma chunk_aux_concat {A} n : (0 < n)%nat -> forall fuel (l : list A), (length l <= fuel)%nat -> concat (chunk_aux fuel n l) = l.
Proof.
  intros Hn fuel. induction fuel as [|fu IH]; intros l Hl.
  - destruct l; simpl in *; [reflexivity|lia].
  - destruct l as [|a l]; [reflexivity|].
    cbn [chunk_aux concat]. rewrite IH.
    + apply firstn_skipn.
    + rewrite skipn_length. cbn [List.length] in *. lia.
Qed.

Lemma chunk_concat {A} n (l : list A) : (0 < n)%nat -> concat (chunk n l) = l.
Proof. intro Hn. apply chunk_aux_concat; auto. Qed.

Section Agree.
  Variable X : value -> value -> bool.
  Variable E : cexpr -> row -> bool.
  Variable B : cexpr -> bool.
  Variable PA : parg -> bool.
  Variable sch : list Z.
  Variable ids : list (Z * Z).
  Variable bounds : file -> list (Z * value) * list (Z * value).

  (* read, filter, project: the one meaning every path must have *)
  Definition rfp (cols : option (list Z)) (ce : option cexpr) (rows : list row) : res (list row) :=
    bind (apply_filter X E B ce rows) (fun x => Ok (sel cols x)).

  Lemma rfp_closed cols ce rows :
    rfp cols ce rows = if refuses X E B ce rows then Err EEval else Ok (sel cols (kept X E ce rows)).
  Proof. unfold rfp. rewrite apply_filter_closed. destruct (refuses X E B ce rows); reflexivity. Qed.

  Lemma read_verified_rfp cols ce rows : valid_cols sch cols -> read_verified X E B sch cols ce rows = rfp cols ce rows.
  Proof. intro V. unfold read_verified, rfp. apply bind_ext. intro a. apply select_valid; auto. Qed.

  Lemma read_direct_rfp cols ce rows : valid_cols sch cols -> read_direct X E B sch cols ce rows = rfp cols ce rows.
  Proof.
    intro V. unfold read_direct, rfp. destruct ce as [e|].
    - apply bind_ext. intro a. apply select_valid; auto.
    - simpl. apply select_valid; auto.
  Qed.

  Lemma read_one_rfp verify cols ce f : valid_cols sch cols -> read_one X E B sch verify cols ce f = rfp cols ce (frows f).
  Proof. intro V. unfold read_one. destruct (verify && fcs f); [apply read_verified_rfp | apply read_direct_rfp]; auto. Qed.

  Lemma batch_out_rfp cols ce b : valid_cols sch cols -> batch_out X E B sch cols ce b = rfp cols ce b.
  Proof.
    intro V. unfold batch_out, rfp. destruct ce as [e|].
    - apply bind_ext. intro a. apply select_valid; auto.
    - simpl. rewrite select_lenient_valid; auto.
  Qed.

  Definition flat (r : res (list (list row))) : res (list row) := bind r (fun bs => Ok (concat bs)).

  Lemma concat_nil_nil {A} (bs : list (list A)) : bs = [] -> concat bs = [].
  Proof. intros ->. reflexivity. Qed.

  Lemma empty_file_check_closed cols ce f :
    valid_cols sch cols ->
    empty_file_check X E B sch cols ce f = if nonempty (frows f) then Ok [] else if refused B ce then Err EEval else Ok [].
  Proof.
    intro V. unfold empty_file_check. destruct (frows f); [|reflexivity]. destruct ce as [e|]; [|reflexivity].
    rewrite apply_filter_closed. simpl. destruct (B e); simpl; [reflexivity|].
    rewrite select_valid by exact V. rewrite sel_nil. reflexivity.
  Qed.

  (* the batches of a file, flattened, are read-filter-project of the file -- for a file WITHOUT rows (whatever
     `split` makes of it: no batch at all, or empty batches) thanks to the check on the empty table *)
  Lemma file_batches_flat split cols ce f :
    valid_cols sch cols -> (forall l, concat (split l) = l) ->
    flat (file_batches X E B sch split cols ce f) = rfp cols ce (frows f).
  Proof.
    intros V Sp. unfold flat, file_batches. rewrite bind_assoc.
    rewrite (mapM_ext _ (fun b => if refuses X E B ce b then Err EEval else Ok (sel cols (kept X E ce b))))
      by (intros; rewrite batch_out_rfp by exact V; apply rfp_closed).
    rewrite mapM_if, rfp_closed, (empty_file_check_closed cols ce f V).
    pose proof (Sp (frows f)) as Sf. destruct (split (frows f)) as [|b bs]; rewrite <- Sf.
    - (* no batch, hence no row: the check on the empty table decides *)
      destruct ce as [e|]; simpl; [destruct (B e)|]; simpl; rewrite ?sel_nil; reflexivity.
    - (* some batch refused is the file refused; otherwise the expression is bound and the check passes *)
      rewrite refuses_concat by discriminate.
      destruct (refuses X E B ce (concat (b :: bs))) eqn:R; [reflexivity|]. cbn [bind].
      rewrite (refuses_refused X E B _ _ R). destruct (nonempty (concat (b :: bs))); cbn [bind];
        rewrite concat_filter_nonempty, kept_concat, <- sel_concat, map_map; reflexivity.
  Qed.

  Lemma mapM_flat {A} (g : A -> res (list (list row))) l :
    flat (bind (mapM g l) (fun bss => Ok (concat bss))) = bind (mapM (fun a => flat (g a)) l) (fun ts => Ok (concat ts)).
  Proof.
    unfold flat. induction l as [|a l IH]; simpl; [reflexivity|].
    destruct (g a) as [bs|]; simpl; [|reflexivity].
    destruct (mapM g l) as [bss|]; simpl in *.
    - (* the tail is Ok on the left, so it is on the right: IH *)
      destruct (mapM (fun a => bind (g a) _) l) as [ts|]; simpl in *;
        [injection IH as IH; rewrite concat_app, IH; reflexivity | discriminate IH].
    - destruct (mapM (fun a => bind (g a) _) l) as [ts|]; simpl in *; [discriminate IH | injection IH as ->; reflexivity].
  Qed.

  (* pruning on the user's filter is a filter by the well-shaped expressions: PruneProofs.prune_filter for Filter.prune_p, the
     model's second copy of prune_files_by_bounds *)
  Lemma prune_p_filter ps files :
    prune_p ids bounds ps files = filter (fun f => file_may_match (fst (bounds f)) (snd (bounds f)) ids (prunable ps)) files.
  Proof.
    unfold prune_p. destruct ps as [|p ps]; [|destruct files; reflexivity].
    symmetry. apply ListFacts.filter_all_true. reflexivity.
  Qed.

  (* What every API returns for the files it reads, once the filter is prepared: it raises exactly when pyarrow refuses the
     expression on one of them, and otherwise projects the rows the expression keeps. *)
  Definition files_result (cols : option (list Z)) (ce : option cexpr) (fs : list file) : res (list row) :=
    if existsb (fun f => refuses X E B ce (frows f)) fs then Err EEval
    else Ok (sel cols (kept X E ce (concat (map frows fs)))).

  (* wherever the bytes of a file come from, a scan is: prepare, prune, files_result *)
  Definition scan_nf (cols : option (list Z)) (flt : pyfilter) (files : list file) : res (list row) :=
    bind (prepare PA flt) (fun ec => files_result cols (snd ec) (prune_p ids bounds (fst ec) files)).

  Lemma rfp_files_result cols ce fs :
    bind (mapM (fun f => rfp cols ce (frows f)) fs) (fun ts => Ok (concat ts)) = files_result cols ce fs.
  Proof.
    rewrite (mapM_ext _ (fun f => if refuses X E B ce (frows f) then Err EEval else Ok (sel cols (kept X E ce (frows f)))))
      by (intros; apply rfp_closed).
    rewrite mapM_if. unfold files_result. destruct (existsb _ fs); simpl; [reflexivity|].
    rewrite kept_concat, <- sel_concat, !map_map. reflexivity.
  Qed.

  Lemma scan_table_nf v cols flt files :
    valid_cols sch cols -> scan_table X E B PA sch ids bounds v cols flt files = scan_nf cols flt files.
  Proof.
    intro V. unfold scan_table, scan_nf. apply bind_ext. intros [ps ce]. cbn [fst snd].
    destruct files as [|f fs]; [rewrite prune_p_filter; destruct ce, cols; reflexivity|].
    rewrite (mapM_ext _ (fun f0 => rfp cols ce (frows f0))) by (intros; apply read_one_rfp; exact V).
    rewrite <- rfp_files_result. apply bind_ext. intro ts. rewrite (concat_tables_valid sch cols ts V). reflexivity.
  Qed.

  Lemma batches_nf split cols flt files :
    valid_cols sch cols -> (forall l, concat (split l) = l) ->
    flat (scan_batches X E B PA sch ids bounds split cols flt files) = scan_nf cols flt files.
  Proof.
    intros V Sp. unfold scan_batches, scan_nf, flat at 1. rewrite bind_assoc. apply bind_ext. intros [ps ce]. cbn [fst snd].
    rewrite <- rfp_files_result. etransitivity; [apply (mapM_flat (file_batches X E B sch split cols ce))|].
    f_equal. apply mapM_ext. intros f _. apply file_batches_flat; assumption.
  Qed.

  Theorem api_nf split v cols flt files :
    valid_cols sch cols -> (forall l, concat (split l) = l) ->
    scan_table X E B PA sch ids bounds v cols flt files = scan_nf cols flt files
    /\ flat (scan_batches X E B PA sch ids bounds split cols flt files) = scan_nf cols flt files
    /\ iter_records X E B PA sch ids bounds cols flt files = scan_nf cols flt files.
  Proof.
    intros V Sp. split; [apply scan_table_nf; exact V|]. split; [apply batches_nf; assumption|].
    apply (batches_nf (chunk 1000)); [exact V|]. intro l. apply chunk_concat. lia.
  Qed.
End Agree.

Lemma condition_to_fexpr PA p e : to_fexpr p = Some e -> condition PA p = compile PA e.
Proof.
  destruct p as [c op a]. unfold to_fexpr, compile, condition, of_fexpr. simpl.
  destruct op; simpl.
  (* a comparison is well shaped with a scalar literal *)
  - (* EQ *) destruct a as [v|vs]; intros [= <-]; reflexivity.
  - (* NE *) destruct a as [v|vs]; intros [= <-]; reflexivity.
  - (* LT *) destruct a as [v|vs]; intros [= <-]; reflexivity.
  - (* LE *) destruct a as [v|vs]; intros [= <-]; reflexivity.
  - (* GT *) destruct a as [v|vs]; intros [= <-]; reflexivity.
  - (* GE *) destruct a as [v|vs]; intros [= <-]; reflexivity.
  (* in / not_in with something that can be iterated: the fexpr holds what iterating yields *)
  - (* IN *) destruct (iter_arg a) as [vs|]; [intros [= <-]; reflexivity | discriminate].
  - (* NOT_IN *) destruct (iter_arg a) as [vs|]; [intros [= <-]; reflexivity | discriminate].
  - (* IS_NULL *) intros [= <-]. reflexivity.
  - (* IS_NOT_NULL *) intros [= <-]. reflexivity.
Qed.

Lemma shaped_prunable ps es : map to_fexpr ps = map Some es -> prunable ps = es.
Proof.
  revert es. unfold prunable. induction ps as [|p ps IH]; intros [|e es]; simpl; try discriminate; auto.
  intros [= H1 H2]. rewrite H1. simpl. f_equal. auto.
Qed.

Lemma shaped_compile PA ps es : map to_fexpr ps = map Some es -> mapM (condition PA) ps = mapM (compile PA) es.
Proof.
  revert es. induction ps as [|p ps IH]; intros [|e es]; simpl; try discriminate; auto.
  intros [= H1 H2]. rewrite (condition_to_fexpr PA p e H1), (IH es H2). reflexivity.
Qed.

Lemma prepare_ok PA flt ps ce : prepare PA flt = Ok (ps, ce) -> build PA ps = Ok ce.
Proof.
  unfold prepare. destruct (parse flt) as [ps0|]; simpl; [|discriminate].
  destruct (build PA ps0) as [ce0|] eqn:Bd; simpl; [|discriminate]. intros [= <- <-]. exact Bd.
Qed.

Section Spec.
  Variable X : value -> value -> bool.
  Variable E : cexpr -> row -> bool.
  Variable B : cexpr -> bool.
  Variable PA : parg -> bool.
  Variable sch : list Z.
  Variable ids : list (Z * Z).

  Definition stored_bounds (f : file) := file_bounds ids (frows f).

  Lemma kept_selected ps ce es rows :
    build PA ps = Ok ce -> map to_fexpr ps = map Some es ->
    (forall e r, ce = Some e -> In r rows -> eval3 X E e r <> None) ->
    kept X E ce rows = filter (row_selected X es) rows.
  Proof.
    intros Bd Sh NR. unfold build in Bd. rewrite (shaped_compile PA ps es Sh) in Bd.
    destruct (mapM (compile PA) es) as [cs|] eqn:M; simpl in Bd; [|discriminate].
    injection Bd as G. destruct ce as [e|]; simpl.
    - apply filter_ext_in. intros r Hr. unfold keeps.
      destruct (eval3 X E e r) as [t|] eqn:Ev; [|destruct (NR e r eq_refl Hr Ev)].
      pose proof (conj_sound X E PA es cs e M G r t Ev) as Snd.
      destruct (row_selected X es r).
      + rewrite (proj2 Snd eq_refl). reflexivity.
      + destruct t; auto. discriminate (proj1 Snd eq_refl).
    - (* no expression: no condition *)
      destruct cs; [|discriminate]. apply mapM_Forall2 in M. inversion M; subst.
      symmetry. apply ListFacts.filter_all_true. reflexivity.
  Qed.

  (* pruning by `bounds` is safe for a file: the file is skipped only if the filter selects none of its rows *)
  Definition prune_safe (bounds : file -> list (Z * value) * list (Z * value)) (es : list fexpr) (f : file) : Prop :=
    file_may_match (fst (bounds f)) (snd (bounds f)) ids es = false -> forall r, In r (frows f) -> row_selected X es r = false.

  (* C13: PruneProofs.prune_sound *)
  Lemma stored_bounds_safe es f : NoDup (map snd ids) -> wf_file ids (frows f) -> prune_safe stored_bounds es f.
  Proof. intros ND WF. exact (prune_sound X ids (frows f) es ND WF). Qed.

  Lemma pruned_rows_equal bounds ps es files :
    map to_fexpr ps = map Some es -> (forall f, In f files -> prune_safe bounds es f) ->
    concat (map (fun f => filter (row_selected X es) (frows f)) (prune_p ids bounds ps files))
    = concat (map (fun f => filter (row_selected X es) (frows f)) files).
  Proof.
    intros Sh PS. rewrite prune_p_filter, (shaped_prunable _ _ Sh), <- !flat_map_concat_map. exact (skip_files_equal frows _ _ _ PS).
  Qed.

  Lemma prune_p_incl bounds ps files f : In f (prune_p ids bounds ps files) -> In f files.
  Proof. rewrite prune_p_filter. intro I. apply filter_In in I. tauto. Qed.

  (* For a well-shaped filter every API (api_nf) raises exactly when pyarrow refuses the expression on a file that is read --
     at binding, or on one of its rows -- and otherwise returns the projected SQL answer on the files that are read.
     scan_spec and scan_raises are the two branches. *)
  Theorem scan_closed bounds cols flt files ps ce es :
    prepare PA flt = Ok (ps, ce) -> map to_fexpr ps = map Some es ->
    let fs := prune_p ids bounds ps files in
    scan_nf X E B PA ids bounds cols flt files =
    if existsb (fun f => refuses X E B ce (frows f)) fs then Err EEval
    else Ok (sel cols (filter (row_selected X es) (concat (map frows fs)))).
  Proof.
    intros P Sh fs. unfold scan_nf. rewrite P. cbn [bind fst snd]. fold fs. unfold files_result.
    destruct (existsb _ fs) eqn:R; [reflexivity|]. apply prepare_ok in P.
    rewrite (kept_selected ps ce es _ P Sh); [reflexivity|].
    intros e r -> Hr Ev. apply in_concat in Hr. destruct Hr as [rows [Hf Hr]]. apply in_map_iff in Hf. destruct Hf as [f [<- Hf]].
    pose proof (proj1 (ListFacts.existsb_false _ _ _) R f Hf) as Rf. cbv beta in Rf.
    rewrite (proj2 (refuses_iff X E B e (frows f))) in Rf by (right; exists r; auto). discriminate Rf.
  Qed.

  Theorem scan_spec bounds cols flt files ps ce es :
    prepare PA flt = Ok (ps, ce) ->
    map to_fexpr ps = map Some es ->
    (forall f, In f files -> prune_safe bounds es f) ->
    refused B ce = false ->
    (forall e f r, ce = Some e -> In f files -> In r (frows f) -> eval3 X E e r <> None) ->
    scan_nf X E B PA ids bounds cols flt files = Ok (sel cols (filter (row_selected X es) (concat (map frows files)))).
  Proof.
    intros P Sh PS NB NR. rewrite (scan_closed bounds cols flt files ps ce es P Sh). cbv zeta.
    replace (existsb _ _) with false.
    - rewrite <- !concat_filter_map, !map_map, (pruned_rows_equal bounds ps es files Sh PS). reflexivity.
    - symmetry. apply ListFacts.existsb_false. intros f I. apply prune_p_incl in I.
      destruct ce as [e|]; [|reflexivity]. apply not_true_iff_false. intro R. apply refuses_iff in R.
      destruct R as [R|[r [Hr Ev]]]; [simpl in NB; congruence | exact (NR e f r eq_refl I Hr Ev)].
  Qed.

  (* every API returns the SQL answer, for any bounds under which pruning is safe: the exact ones
     (stored_bounds_safe), conservative ones (Proofs/TextBounds.v), those read back from manifests (Proofs/ManifestProofs.v) *)
  Theorem api_sql bounds split v cols flt files ps ce es :
    prepare PA flt = Ok (ps, ce) ->
    map to_fexpr ps = map Some es ->
    valid_cols sch cols -> (forall l, concat (split l) = l) ->
    (forall f, In f files -> prune_safe bounds es f) ->
    refused B ce = false ->
    (forall e f r, ce = Some e -> In f files -> In r (frows f) -> eval3 X E e r <> None) ->
    let answer := Ok (sel cols (filter (row_selected X es) (concat (map frows files)))) in
    scan_table X E B PA sch ids bounds v cols flt files = answer
    /\ flat (scan_batches X E B PA sch ids bounds split cols flt files) = answer
    /\ iter_records X E B PA sch ids bounds cols flt files = answer.
  Proof.
    intros P Sh V Sp PS NB NR. cbv zeta. rewrite <- (scan_spec bounds cols flt files ps ce es P Sh PS NB NR).
    apply api_nf; assumption.
  Qed.

  Theorem scan_raises bounds cols flt files ps e f :
    prepare PA flt = Ok (ps, Some e) -> In f (prune_p ids bounds ps files) ->
    (B e = true \/ exists r, In r (frows f) /\ eval3 X E e r = None) ->
    scan_nf X E B PA ids bounds cols flt files = Err EEval.
  Proof.
    intros P I N. unfold scan_nf. rewrite P. cbn [bind fst snd]. unfold files_result.
    replace (existsb _ _) with true; [reflexivity|]. symmetry. apply existsb_exists. exists f. split; [exact I|].
    apply refuses_iff. exact N.
  Qed.
End Spec.

Lemma mem_str_in k l : mem_str k l = true <-> In k l.
Proof. exact (ListFacts.existsb_eqb_In string String.eqb String.eqb_eq k l). Qed.

(* The documented filter language, written down INDEPENDENTLY of the parser and of the regenerated tables:
   what each (lower-cased) operator spelling means ... *)
Definition sql_meaning (s : string) : option fop :=
  if String.eqb s "==" || String.eqb s "=" || String.eqb s "eq" then Some EQ
  else if String.eqb s "!=" || String.eqb s "<>" || String.eqb s "ne" then Some NE
  else if String.eqb s "<" || String.eqb s "lt" then Some LT
  else if String.eqb s "<=" || String.eqb s "le" then Some LE
  else if String.eqb s ">" || String.eqb s "gt" then Some GT
  else if String.eqb s ">=" || String.eqb s "ge" then Some GE
  else if String.eqb s "in" then Some IN
  else if String.eqb s "not_in" || String.eqb s "not in" || String.eqb s "notin" then Some NOT_IN
  else None.

Inductive spelling := SBetween | SIsNull | SIsNotNull | SOp (op : fop).

Definition spelled (s : string) : option spelling :=
  if String.eqb s "between" then Some SBetween
  else if String.eqb s "is_null" || String.eqb s "isnull" then Some SIsNull
  else if String.eqb s "is_not_null" || String.eqb s "notnull" || String.eqb s "isnotnull" then Some SIsNotNull
  else option_map SOp (sql_meaning s).

(* ... and which conditions are filters at all: a known spelling with an argument of the shape it takes --
   `between` a PAIR (not a str, whose characters would be unpacked), is_null / is_not_null the flag True (not False,
   which asks for the opposite), in / not_in anything but a str (whose characters would be iterated) or another scalar
   (list(scalar) raises: C12_strict_value_set); {"c": None} is not one. *)
Definition well_formed (cd : cond) : bool :=
  match cd with
  | CPlain (AVal VNull) => false
  | CPlain _ => true
  | CPair OpOther _ => false
  | CPair (OpStr s) a =>
    match spelled (lower s) with
    | None => false
    | Some SBetween => match a with AList [_; _] => true | _ => false end
    | Some SIsNull | Some SIsNotNull => match a with AVal (VBool true) => true | _ => false end
    | Some (SOp IN) | Some (SOp NOT_IN) => match a with AVal _ => false | AList _ => true end
    | Some (SOp _) => true
    end
  | CPairIter OpOther _ _ => false
  | CPairIter (OpStr s) ik _ =>
    match spelled (lower s) with
    | Some (SOp IN) | Some (SOp NOT_IN) => match ik with IMap => false | _ => true end
    | Some (SOp _) => true
    | _ => false
    end
  end.

(* what a well-formed condition means, again independently: the FilterExpressions it stands for *)
Definition meaning (c : Z) (cd : cond) : list pexpr :=
  match cd with
  | CPlain a => [ {| pcol := c; pop := EQ; pval := a |} ]
  | CPair OpOther _ => []
  | CPair (OpStr s) a =>
    match spelled (lower s), a with
    | Some SBetween, AList [lo; hi] => [ {| pcol := c; pop := GE; pval := AVal lo |}; {| pcol := c; pop := LE; pval := AVal hi |} ]
    | Some SIsNull, _ => [ {| pcol := c; pop := IS_NULL; pval := AVal VNull |} ]
    | Some SIsNotNull, _ => [ {| pcol := c; pop := IS_NOT_NULL; pval := AVal VNull |} ]
    | Some (SOp op), _ => [ {| pcol := c; pop := op; pval := a |} ]
    | _, _ => []
    end
  (* an iterable value set MEANS the values it yields (a comparison keeps it as its literal, rendered as that list) *)
  | CPairIter OpOther _ _ => []
  | CPairIter (OpStr s) _ vs =>
    match spelled (lower s) with
    | Some (SOp op) => [ {| pcol := c; pop := op; pval := AList vs |} ]
    | _ => []
    end
  end.

(* the parser's own classification of a key, by the REGENERATED tables in the order parse_filter_dict tests them *)
Definition key_class (s : string) : option spelling :=
  if String.eqb between_key s then Some SBetween
  else if mem_str s is_null_aliases then Some SIsNull
  else if mem_str s is_not_null_aliases then Some SIsNotNull
  else option_map SOp (assoc_str s op_table).

Lemma if_orb {A} (a b : bool) (x y : A) : (if a || b then x else y) = if a then x else if b then x else y.
Proof. destruct a; reflexivity. Qed.

(* the regenerated alias table IS the independent reading of the operator spellings: the linear search through the
   table is the chain of tests `sql_meaning` writes with `||` *)
Theorem op_table_is_sql s : assoc_str s op_table = sql_meaning s.
Proof. unfold op_table, sql_meaning. cbn [assoc_str]. rewrite !if_orb. reflexivity. Qed.

Theorem op_table_meaning s op : assoc_str s op_table = Some op -> sql_meaning s = Some op.
Proof. rewrite op_table_is_sql. auto. Qed.

Theorem key_class_spelled s : key_class s = spelled s.
Proof.
  unfold key_class, spelled, between_key, is_null_aliases, is_not_null_aliases, mem_str. cbn [existsb].
  rewrite op_table_is_sql, (String.eqb_sym "between" s), !orb_false_r, ?orb_assoc. reflexivity.
Qed.

(* the special spellings are no operator spellings *)
Lemma spelled_op s op : sql_meaning s = Some op -> spelled s = Some (SOp op).
Proof.
  intro M. unfold spelled.
  destruct (String.eqb_spec s "between") as [->|_]; [discriminate M|].
  destruct (String.eqb_spec s "is_null") as [->|_]; [discriminate M|].
  destruct (String.eqb_spec s "isnull") as [->|_]; [discriminate M|].
  destruct (String.eqb_spec s "is_not_null") as [->|_]; [discriminate M|].
  destruct (String.eqb_spec s "notnull") as [->|_]; [discriminate M|].
  destruct (String.eqb_spec s "isnotnull") as [->|_]; [discriminate M|].
  cbn [orb]. rewrite M. reflexivity.
Qed.

(* the parser's tests on the key, in their order, are the classification by `spelled`; what each branch does with the
   argument is what well_formed admits and meaning says *)
Theorem parse_one_spec c cd :
  parse_one c cd = if well_formed cd then Ok (meaning c cd) else Err EParse.
Proof.
  destruct cd as [a|[s|] a|[s|] ik vs].
  - (* CPlain *) destruct a as [[]|]; reflexivity.
  - (* CPair (OpStr s) *)
    unfold well_formed, meaning, parse_one, key_is, parse_op. rewrite <- key_class_spelled. unfold key_class.
    destruct (String.eqb between_key (lower s)).
    { (* between *) destruct a as [v|[|lo [|hi [|x l]]]]; reflexivity. }
    destruct (mem_str (lower s) is_null_aliases).
    { (* is_null *) destruct a as [[|[]| | | | | |]|]; reflexivity. }
    destruct (mem_str (lower s) is_not_null_aliases).
    { (* is_not_null *) destruct a as [[|[]| | | | | |]|]; reflexivity. }
    destruct (assoc_str (lower s) op_table) as [op|]; [|reflexivity].
    (* an operator *) destruct op; destruct a as [[]|]; reflexivity.
  - (* CPair OpOther *) reflexivity.
  - (* CPairIter (OpStr s) *)
    unfold well_formed, meaning, parse_one, key_is, parse_op. rewrite <- key_class_spelled. unfold key_class.
    destruct (String.eqb between_key (lower s)); [reflexivity|].
    destruct (mem_str (lower s) is_null_aliases); [reflexivity|].
    destruct (mem_str (lower s) is_not_null_aliases); [reflexivity|].
    destruct (assoc_str (lower s) op_table) as [op|]; [|reflexivity].
    destruct op; destruct ik; reflexivity.
  - (* CPairIter OpOther *) reflexivity.
Qed.

Theorem parse_spec f :
  parse f = if forallb (fun ccd => well_formed (snd ccd)) f
            then Ok (flat_map (fun ccd => meaning (fst ccd) (snd ccd)) f) else Err EParse.
Proof.
  induction f as [|[c cd] f IH]; simpl; [reflexivity|].
  rewrite parse_one_spec, IH. destruct (well_formed cd); simpl; [|reflexivity].
  destruct (forallb _ f); reflexivity.
Qed.

Lemma parse_err f k : parse f = Err k -> k = EParse.
Proof. rewrite parse_spec. destruct (forallb _ f); congruence. Qed.

Lemma parse_in f : forall ps c cd, parse f = Ok ps -> In (c, cd) f -> forall p, In p (meaning c cd) -> In p ps.
Proof.
  intros ps c cd P I p Ip. rewrite parse_spec in P. destruct (forallb _ f); [|discriminate P].
  injection P as <-. apply in_flat_map. exists (c, cd). auto.
Qed.

Lemma malformed_parse_error f c cd : In (c, cd) f -> well_formed cd = false -> parse f = Err EParse.
Proof.
  intros I W. rewrite parse_spec. destruct (forallb _ f) eqn:F; [|reflexivity].
  rewrite forallb_forall in F. specialize (F (c, cd) I). simpl in F. congruence.
Qed.

(* every FilterOp value string is itself accepted, with its own meaning; the special keys do not
   collide with the table (so the order of the tests in parse_filter_dict is immaterial) *)
Theorem op_table_canonical :
  assoc_str "==" op_table = Some EQ /\ assoc_str "!=" op_table = Some NE /\ assoc_str "<" op_table = Some LT
  /\ assoc_str "<=" op_table = Some LE /\ assoc_str ">" op_table = Some GT /\ assoc_str ">=" op_table = Some GE
  /\ assoc_str "in" op_table = Some IN /\ assoc_str "not_in" op_table = Some NOT_IN
  /\ forallb (fun k => match assoc_str k op_table with None => true | Some _ => false end)
             (between_key :: is_null_aliases ++ is_not_null_aliases) = true
  /\ mem_str "is_null" is_null_aliases = true /\ mem_str "is_not_null" is_not_null_aliases = true
  /\ between_key = "between"%string.
Proof. vm_compute. repeat split. Qed.

Section Malformed.
  Variable PA : parg -> bool.

  Lemma prepare_parse_err flt : parse flt = Err EParse -> prepare PA flt = Err EParse.
  Proof. intro H. unfold prepare. rewrite H. reflexivity. Qed.
End Malformed.

Section ProjectAfter.
  Variable X : value -> value -> bool.
  Variable E : cexpr -> row -> bool.

  Lemma eval3_missing e r c : In c (fields e) -> lookup c r = None -> eval3 X E e r = None.
  Proof.
    induction e as [op c0 lit|c0 vals|a IH|a IHa b IHb|c0|c0|b]; simpl; intros I L.
    - (* Cmp *) destruct I as [<-|[]]. rewrite L. reflexivity.
    - (* IsIn *) destruct I as [<-|[]]. rewrite L. reflexivity.
    - (* Not *) rewrite (IH I L). reflexivity.
    - (* And *) apply in_app_or in I. destruct I as [I|I].
      + rewrite (IHa I L). reflexivity.
      + rewrite (IHb I L). destruct (eval3 X E a r); reflexivity.
    - (* IsValid *) destruct I as [<-|[]]. rewrite L. reflexivity.
    - (* IsNull *) destruct I as [<-|[]]. rewrite L. reflexivity.
    - (* Scalar *) contradiction.
  Qed.

  Lemma lookup_proj_none cs r c : ~ In c cs -> lookup c (proj cs r) = None.
  Proof. intro NI. apply lookup_absent. unfold proj. rewrite map_map. cbn [fst]. rewrite map_id. exact NI. Qed.

  Lemma compile_fields PA e ce : compile PA e = Ok ce -> forall c, In c (fields ce) -> c = fcol e.
  (* the closed statement quantifies the section's X, as it always has: hence `using X` *)
  Proof using X. intros C c. rewrite (compile_shape PA e ce C). apply shape_fields. Qed.
End ProjectAfter.

(* two conditions that differ only in WHAT HOLDS the in / not_in value set: some iterable that is not a mapping -- a set,
   a dict view, a range, an iterator or a generator that can be read only once -- against the list of the same values *)
Inductive same_cond : cond -> cond -> Prop :=
| sc_same cd : same_cond cd cd
| sc_iter s ik vs :
    ik <> IMap -> (sql_meaning (lower s) = Some IN \/ sql_meaning (lower s) = Some NOT_IN) ->
    same_cond (CPairIter (OpStr s) ik vs) (CPair (OpStr s) (AList vs)).

Definition same_filter (f f' : pyfilter) : Prop := Forall2 (fun x y => fst x = fst y /\ same_cond (snd x) (snd y)) f f'.

Lemma parse_one_same c cd cd' : same_cond cd cd' -> parse_one c cd = parse_one c cd'.
Proof.
  intros [cd0|s ik vs NM M]; [reflexivity|].
  rewrite !parse_one_spec. unfold well_formed, meaning.
  destruct M as [M|M]; rewrite (spelled_op _ _ M); destruct ik; try reflexivity; contradiction.
Qed.

(* the FilterExpressions -- hence the expression every API evaluates AND the expressions file pruning reads -- are those
   of the list: the value set is read once, when the filter is parsed *)
Theorem parse_same f f' : same_filter f f' -> parse f = parse f'.
Proof.
  induction 1 as [|[c cd] [c' cd'] f f' [Hc Hs] _ IH]; [reflexivity|].
  simpl in Hc, Hs. subst c'. simpl. rewrite (parse_one_same c cd cd' Hs), IH. reflexivity.
Qed.

(* A sufficient condition for the "pyarrow does not refuse" hypothesis of api_sql: every column the
   expression reads exists, scalar literals are comparable with the cells (or NULL is involved), and
   pyarrow refuses nothing beyond the Python-incomparable pairs (E = nothing). *)
Fixpoint typed (e : cexpr) (r : row) : Prop :=
  match e with
  | Cmp _ c (AVal l) => exists v, lookup c r = Some v /\ (is_null v = true \/ is_null l = true \/ vcmp v l <> None)
  | Cmp _ _ (AList _) => False
  | IsIn c _ | IsValid c | IsNull c => lookup c r <> None
  | Not a => typed a r
  | And a b => typed a r /\ typed b r
  | Scalar _ => True
  end.

(* NOT IN and NULLs in the value set.
   The property text says "in/not_in never match NULL" about the CELL; Table.scan documents that a NULL in the value set
   "matches nothing and is dropped".  That is NOT the SQL standard's reading of `v NOT IN (w1, ..., NULL)`: there
   NOT (v = w1 OR ... OR v = NULL) is UNKNOWN when no wi matches, and the row is not selected.  `sql3_not_in` is the
   standard's three-valued value; the library (and `selected`, the specification of this check) selects exactly the rows on
   which it is TRUE plus those on which it is UNKNOWN only because of NULLs in the value set. *)
Definition sql3_not_in (X : value -> value -> bool) (v : value) (vals : list value) : tv :=
  if is_null v then TN
  else if existsb (fun w => negb (is_null w) && in_eq X v w) vals then TF
  else if existsb is_null vals then TN
  else TT.
