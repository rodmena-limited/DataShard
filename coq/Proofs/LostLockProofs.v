(* Proofs/LostLockProofs.v -- "a committer that lost its lock before the commit point reports a retryable conflict, never
   success", as a statement about SCHEDULES of the commit machine with a lease lock (Model/Commit.v, lockkind = Lease).
   `lost w a`: actor a is inside commit() before its fence (lock taken, validating / writing its metadata file) and the
   lock object does not name it -- its lease lapsed (ESteal), whoever holds the lock now.  What follows from such a state, and
   what is not covered (a lapse after the fence), is said at the theorem: Props/C08.v C08_lost_lock_before_fence_conflict. *)
From Coq Require Import List Arith.
Require Import DS.Model.Commit DS.Proofs.CommitProofs.
Import ListNotations.

Definition prefence (p : pc) : bool := match p with PLocked | PValidated | PWritten => true | _ => false end.

Definition lost (w : world) (a : aid) : Prop := prefence (a_pc (w_actors w a)) = true /\ w_lock w <> Some a.

Definition by_actor (a : aid) (h : list (vid * aid)) : list (vid * aid) := filter (fun p => Nat.eqb (snd p) a) h.

Definition ended (p : pc) : Prop := p = PConflict \/ p = PDone Aborted.

Lemma by_actor_snoc_other a b v h : b <> a -> by_actor a (h ++ [(v, b)]) = by_actor a h.
Proof.
  intro NE. unfold by_actor. rewrite filter_app. simpl.
  destruct (Nat.eqb_spec b a); [contradiction|]. apply app_nil_r.
Qed.

Lemma step_lock_owner c w e w' b : step c w e = Some w' -> w_lock w' = Some b ->
  w_lock w = Some b \/ (e_actor e = b /\ a_pc (w_actors w b) = PBegun).
Proof.
  intros H Q. destruct e as [a k]. cbn [e_actor].
  (* the rules that leave w_lock alone; SSteal, which sets it to None; those that drop_lock (SRelease, SRetry, SAbort) *)
  destruct (step_Step _ _ _ _ _ H); cbn [w_lock with_actor with_actor_lock] in Q; try (left; exact Q); try discriminate Q;
    try (left; exact (proj1 (drop_lock_some _ _ _ Q))).
  - (* STake: the acquisition *)
    destruct (lockkind c); try (left; exact Q); (right; injection Q as <-; split; [reflexivity | exact PC]).
  - (* SCrash: a lease lock object stays as it is, any other is let go of *)
    destruct (lockkind c); left; first [exact Q | exact (proj1 (drop_lock_some _ _ _ Q))].
Qed.

Lemma lost_own_step c w e w' : lockkind c = Lease -> lost w (e_actor e) -> step c w e = Some w' ->
  prefence (a_pc (w_actors w' (e_actor e))) = true \/ ended (a_pc (w_actors w' (e_actor e))).
Proof.
  intros LK [PF NL] H. destruct e as [a k]. cbn [e_actor] in *. unfold ended.
  (* the rules that do not start in a pre-fence state go by PC; of the rest `auto` closes SSteal and SMetaW *)
  destruct (step_Step _ _ _ _ _ H); try (rewrite PC in PF; discriminate PF);
    cbn [w_actors with_actor with_actor_lock]; rewrite ?upd_same; cbn [a_pc set_pc]; auto.
  - (* SValidate *) destruct ok; auto.
  - (* SFence: the fence cannot pass: the lock object does not name a *)
    subst ok. unfold holds. rewrite LK.
    destruct (w_lock w) as [b|]; [destruct (Nat.eqb_spec a b) as [->|]; [elim NL; reflexivity|]|]; auto.
  - (* SAbort *) subst p. destruct (a_pc (w_actors w a)); try discriminate PF; auto.
  - (* SCrash *) subst p. destruct (a_pc (w_actors w a)); try discriminate PF; auto.
Qed.

Lemma lost_step c w e a : lockkind c = Lease -> lost w a ->
  by_actor a (w_hist (step_skip c w e)) = by_actor a (w_hist w)
  /\ (lost (step_skip c w e) a \/ (e_actor e = a /\ ended (a_pc (w_actors (step_skip c w e) a)))).
Proof.
  intros LK L. unfold step_skip. destruct (step c w e) as [w'|] eqn:H; [|split; [reflexivity | left; exact L]].
  pose proof L as [PF NL].
  assert (NL' : w_lock w' <> Some a).
  { intro Q. destruct (step_lock_owner _ _ _ _ _ H Q) as [Q'|[_ PC]]; [exact (NL Q') | rewrite PC in PF; discriminate PF]. }
  split.
  - (* only a flip writes the history, and only from PFenced *)
    destruct e as [b k]. destruct (step_Step _ _ _ _ _ H); try reflexivity.
    apply by_actor_snoc_other. intros ->. rewrite PC in PF. discriminate PF.
  - destruct (Nat.eq_dec (e_actor e) a) as [<-|NE].
    + destruct (lost_own_step _ _ _ _ LK L H) as [PF'|EN]; [left; split; assumption | right; split; [reflexivity | exact EN]].
    + left. split; [rewrite (step_others _ _ _ _ H a (fun E => NE (eq_sym E))); exact PF | exact NL'].
Qed.

Lemma lost_run c w a evs : lockkind c = Lease -> lost w a ->
  (lost (run c w evs) a /\ by_actor a (w_hist (run c w evs)) = by_actor a (w_hist w))
  \/ (exists evs1 e evs2, evs = evs1 ++ e :: evs2 /\ e_actor e = a
        /\ lost (run c w evs1) a
        /\ ended (a_pc (w_actors (run c w (evs1 ++ [e])) a))
        /\ by_actor a (w_hist (run c w (evs1 ++ [e]))) = by_actor a (w_hist w)).
Proof.
  intro LK. revert w. induction evs as [|e evs IH]; intros w L; [left; split; [exact L | reflexivity]|].
  rewrite run_cons.
  destruct (lost_step c w e a LK L) as [HB [Lo|[EA EN]]].
  - destruct (IH _ Lo) as [[L2 H2]|[evs1 [e' [evs2 [E [EA [L2 [EN H2]]]]]]]].
    + left. split; [exact L2 | congruence].
    + right. exists (e :: evs1), e', evs2. rewrite E. split; [reflexivity|]. split; [exact EA|].
      simpl app. rewrite !run_cons. split; [exact L2|]. split; [exact EN | congruence].
  - right. exists [], e, evs. split; [reflexivity|]. split; [exact EA|]. split; [exact L|]. split; [exact EN | exact HB].
Qed.

Lemma steal_makes_lost c w b a w' : prefence (a_pc (w_actors w a)) = true ->
  step c w {| e_actor := b; e_kind := ESteal |} = Some w' -> lost w' a /\ w_hist w' = w_hist w.
Proof.
  intros PF H. apply step_Step in H. inversion H; subst.
  split; [split; [exact PF | discriminate] | reflexivity].
Qed.

(* a takeover can only succeed once the lease has lapsed *)
Lemma takeover_makes_lost c w b a w' : b <> a -> lockkind c = Lease -> prefence (a_pc (w_actors w a)) = true ->
  step c w {| e_actor := b; e_kind := ELockTry true |} = Some w' -> lost w' a.
Proof.
  intros NE LK PF H. apply step_Step in H. inversion H; subst. rewrite LK. split; cbn.
  - rewrite upd_other by (intro; apply NE; congruence). exact PF.
  - intro Q. injection Q as Q. contradiction.
Qed.

Lemma lost_not_success w a : lost w a -> a_pc (w_actors w a) <> PDone Success.
Proof. intros [PF _] E. rewrite E in PF. discriminate. Qed.
