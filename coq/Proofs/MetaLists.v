(* Proofs/MetaLists.v -- the list functions of the metadata model: lastn, the stable sort by timestamp, remove_first. *)
From Coq Require Import ZArith List Bool Lia Permutation Sorted.
Require Import DS.Model.Meta DS.Proofs.ListFacts.
Import ListNotations.
Open Scope Z_scope.

Lemma filter_concat : forall (A : Type) (P : A -> bool) (ll : list (list A)),
  filter P (concat ll) = concat (map (filter P) ll).
Proof. intros A P ll. symmetry. apply concat_filter_map. Qed.

Lemma lastn_suffix : forall (A : Type) n (l : list A), exists pre, l = pre ++ lastn n l.
Proof. intros A n l. unfold lastn. exists (firstn (length l - n) l). symmetry. apply firstn_skipn. Qed.

Lemma lastn_In : forall (A : Type) n (l : list A) x, In x (lastn n l) -> In x l.
Proof. intros A n l x H. destruct (lastn_suffix A n l) as [pre ->]. apply in_or_app. right. exact H. Qed.

Lemma lastn_length : forall (A : Type) n (l : list A), (n <= length l)%nat -> length (lastn n l) = n.
Proof. intros A n l H. unfold lastn. rewrite skipn_length. lia. Qed.

Lemma insert_ts_perm : forall x l, Permutation (insert_ts x l) (x :: l).
Proof.
  intros x l. induction l as [|y l IH]; simpl; [apply Permutation_refl|].
  destruct (ts x <=? ts y); [apply Permutation_refl|].
  eapply Permutation_trans; [apply perm_skip; exact IH|apply perm_swap].
Qed.

Lemma sort_ts_perm : forall l, Permutation (sort_ts l) l.
Proof.
  induction l as [|x l IH]; simpl; [constructor|].
  eapply Permutation_trans; [apply insert_ts_perm|apply perm_skip; exact IH].
Qed.

Lemma sort_ts_In : forall l x, In x (sort_ts l) <-> In x l.
Proof.
  intros l x. split; apply Permutation_in; [|apply Permutation_sym]; apply sort_ts_perm.
Qed.

Definition ts_sorted (l : list snap) : Prop := StronglySorted (fun a b => ts a <= ts b) l.

Lemma insert_ts_sorted : forall x l, ts_sorted l -> ts_sorted (insert_ts x l).
Proof.
  intros x l H. induction H as [|a l Hs IH Hall]; simpl; [constructor; constructor|].
  destruct (Z.leb_spec (ts x) (ts a)) as [Hle|Hgt].
  - constructor; [constructor; assumption|]. constructor; [exact Hle|].
    rewrite Forall_forall in *. intros y Hy. specialize (Hall y Hy). lia.
  - constructor; [exact IH|]. rewrite Forall_forall in *. intros y Hy.
    apply (Permutation_in _ (insert_ts_perm x l)) in Hy. destruct Hy as [<-|Hy]; [lia|apply Hall; exact Hy].
Qed.

Lemma sort_ts_sorted : forall l, ts_sorted (sort_ts l).
Proof. intros l. induction l as [|a l IH]; [constructor|]. simpl. apply insert_ts_sorted. exact IH. Qed.

(* the sort is stable: it never swaps two snapshots carrying the same timestamp *)
Lemma insert_ts_class : forall t x l,
  filter (fun s => ts s =? t) (insert_ts x l) = filter (fun s => ts s =? t) (x :: l).
Proof.
  intros t x l. induction l as [|a l IH]; [reflexivity|].
  simpl insert_ts. destruct (Z.leb_spec (ts x) (ts a)) as [Hle|Hgt]; [reflexivity|].
  simpl in *. rewrite IH.
  destruct (Z.eqb_spec (ts a) t); destruct (Z.eqb_spec (ts x) t); try reflexivity. lia.
Qed.

Lemma sort_ts_class : forall t l, filter (fun s => ts s =? t) (sort_ts l) = filter (fun s => ts s =? t) l.
Proof.
  intros t l. induction l as [|a l IH]; [reflexivity|].
  change (sort_ts (a :: l)) with (insert_ts a (sort_ts l)). rewrite insert_ts_class.
  simpl. rewrite IH. reflexivity.
Qed.

Lemma remove_first_spec : forall id l rest, remove_first id l = Some rest ->
  exists l1 s l2, l = l1 ++ s :: l2 /\ rest = l1 ++ l2 /\ sid s = id /\ (forall x, In x l1 -> sid x <> id).
Proof.
  intros id l. induction l as [|a l IH]; simpl; intros rest H; [discriminate|].
  destruct (Z.eqb_spec (sid a) id) as [He|Hne].
  - inversion H; subst. exists [], a, rest. repeat split; intros; try reflexivity. contradiction.
  - destruct (remove_first id l) as [r|] eqn:E; [|discriminate]. inversion H; subst.
    destruct (IH r eq_refl) as [l1 [s [l2 [H1 [H2 [H3 H4]]]]]]. subst.
    exists (a :: l1), s, l2. repeat split; try reflexivity.
    intros x [<-|Hx]; [exact Hne|apply H4; exact Hx].
Qed.

Lemma remove_first_none : forall id l, remove_first id l = None -> ~ In id (map sid l).
Proof.
  intros id l. induction l as [|a l IH]; simpl; intros H; [tauto|].
  destruct (Z.eqb_spec (sid a) id) as [He|Hne]; [discriminate|].
  destruct (remove_first id l) as [r|] eqn:E; [discriminate|].
  intros [Ha|Hin]; [contradiction|]. apply IH; [reflexivity|exact Hin].
Qed.

Lemma remove_first_some : forall id l, In id (map sid l) -> exists rest, remove_first id l = Some rest.
Proof.
  intros id l H. destruct (remove_first id l) as [r|] eqn:E; [eexists; reflexivity|].
  exfalso. eapply remove_first_none; eassumption.
Qed.

Lemma remove_first_filter : forall id l rest, NoDup (map sid l) -> remove_first id l = Some rest ->
  rest = filter (fun s => negb (sid s =? id)) l.
Proof.
  intros id l. induction l as [|a l IH]; simpl; intros rest Hnd H; [discriminate|].
  apply NoDup_cons_iff in Hnd. destruct Hnd as [Hna Hnd].
  destruct (Z.eqb_spec (sid a) id) as [He|Hne]; simpl.
  - (* a is the one removed; no other snapshot has its id *)
    inversion H; subst. symmetry. apply filter_all_true.
    intros x Hx. apply negb_true_iff. apply Z.eqb_neq. intro Hx'.
    apply Hna. rewrite <- Hx'. apply in_map. exact Hx.
  - destruct (remove_first id l) as [r|] eqn:E; [|discriminate]. inversion H; subst.
    f_equal. apply IH; [exact Hnd|reflexivity].
Qed.
