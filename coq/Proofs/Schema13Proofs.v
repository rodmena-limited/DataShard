(* Proofs/Schema13Proofs.v -- C13 over the schemas the constructor ACCEPTS: the uniqueness of field ids that the pruning theorems
   need is not assumed but follows from the regenerated guards of Schema.__post_init__ (Proofs/SchemaIdsProofs.v); and the
   counterexample for a constructor that only demands pairwise != ids. *)
From Coq Require Import QArith List.
Require Import DS.Model.Value DS.Model.FieldKey DS.Model.Prune DS.Model.Manifest13 DS.Model.SchemaIds
               DS.Proofs.PruneProofs DS.Proofs.Manifest13Proofs DS.Proofs.SchemaIdsProofs.
Import ListNotations.
Open Scope Z_scope.

Theorem prune_sound_accepted_schema X (ps : list (Z * value)) es (added existing : list (list row)) rows lo hi :
  schema_ids_ok (map snd ps) = true -> (forall f, In f (added ++ existing) -> wf_file (int_schema ps) f) ->
  In (rows, (lo, hi)) (combine (added ++ existing) (manifest_bounds (int_schema ps) added existing)) ->
  file_may_match lo hi (int_schema ps) es = false ->
  forall r, In r rows -> row_selected X es r = false.
Proof. intros H WF. apply prune_sound_via_manifest; [apply accepted_schema_nodup; exact H | exact WF]. Qed.

(* the statement for every map whose keys are merely pairwise != (all a constructor with only the duplicate test guarantees) *)
Definition keys_roundtrip_for_distinct_ids : Prop :=
  forall (A : Type) (m : list (value * A)), py_distinct (map fst m) ->
  exists zm, key_trip m = TripOk zm /\ List.length zm = List.length m.

Definition collide_ids : list value := [VInt 1; VStr [49]].                         (* 1 and "1" *)
Definition collide_map : list (value * value) := [(VInt 1, VInt 1); (VStr [49], VInt 100)].   (* column a: 1..1, column b: 100..100 *)

Lemma collide_facts :
  py_distinct (map fst collide_map) /\ key_trip collide_map = TripOk [(1, VInt 100)].
Proof. split; [cbn; auto | vm_compute; reflexivity]. Qed.
