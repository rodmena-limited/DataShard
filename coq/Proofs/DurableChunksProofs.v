(* Proofs/DurableChunksProofs.v -- one publish sequence started in ANY file-system state, its data written in any
   number of bursts (Model/DurableChunks.v), under every schedule of background persistence; and what the publish
   discipline says of one burst-written file (chunked_disciplined, an instance of DurableBurstsProofs.burst_refines).

   The publish is a chain of assertions (DurableProofs.chain) that already imply what is claimed of the final name.
   The one-Write publish of Durable.publish_meta is the chain with a single burst. *)
From Coq Require Import NArith List Lia.
Require Import DS.Model.Durable DS.Model.DurableChunks DS.Proofs.DurableProofs.
Require DS.Proofs.DurablePrograms DS.Proofs.DurableBurstsProofs.
Import ListNotations.
Open Scope N_scope.

Section Publish.
Variables (s0 : fs) (d n : N) (c : content).
Let p := P d n.
Let t := T d n.
Let i := next s0.

(* the durable entry of p is one it had, durably or visibly, when the publish began *)
Local Definition old (s : fs) : Prop := dE s p = dE s0 p \/ dE s p = vE s0 p.

(* The assertions between the calls of the publish: before the Create; while the temp file is open; after the
   Rename; after the directory fsync. *)
Local Definition Before (s : fs) : Prop := (forall x, vE s x = vE s0 x) /\ next s = next s0 /\ old s.
(* the temp file is open and holds w, flushed if sy; the final name is untouched *)
Local Definition Open (w : content) (sy : bool) (s : fs) : Prop :=
  vE s t = Some i /\ vE s p = vE s0 p /\ vD s i = w /\ (sy = true -> dD s i = w) /\ old s.
Local Definition Renamed (s : fs) : Prop := vE s p = Some i /\ vD s i = c /\ dD s i = c /\ (old s \/ dE s p = Some i).
Local Definition Done (s : fs) : Prop := dE s p = Some i /\ dD s i = c /\ vE s p = Some i /\ vD s i = c.

(* never a partial c under the final name, durably or visibly *)
Local Definition Safe (s : fs) : Prop :=
  (dE s p = dE s0 p \/ dE s p = vE s0 p \/ (dE s p = Some i /\ dD s i = c))
  /\ (vE s p = vE s0 p \/ (vE s p = Some i /\ vD s i = c /\ dD s i = c)).

Lemma old_bg : forall s b, vE s p = vE s0 p -> old s -> old (bg_step s b).
Proof. intros s b Hv H. unfold old in *. destruct (bg_entry s b p) as [E|E]; rewrite E; tauto. Qed.

Lemma Before_stable_safe : stable Before /\ forall s, Before s -> Safe s.
Proof.
  split.
  - intros s b [A [B C]]. destruct (bg_frame s b) as [Hv Hn]. unfold Before. rewrite Hv, Hn. auto using old_bg.
  - intros s [A [B C]]. unfold Safe, old in *. rewrite A. tauto.
Qed.

Lemma Open_stable_safe : forall w sy, stable (Open w sy) /\ forall s, Open w sy s -> Safe s.
Proof.
  split.
  - intros s b [A [B [C [D E]]]]. destruct (bg_frame s b) as [Hv _]. unfold Open. rewrite Hv.
    repeat split; auto using old_bg. intro Hs. rewrite bg_sealed; rewrite D; auto.
  - intros s [A [B [C [D E]]]]. unfold Safe, old in *. tauto.
Qed.

Lemma Renamed_stable_safe : stable Renamed /\ forall s, Renamed s -> Safe s.
Proof.
  split.
  - intros s b [A [B [C D]]]. destruct (bg_frame s b) as [Hv _]. unfold Renamed. rewrite Hv.
    repeat split; auto; [rewrite bg_sealed; congruence|].
    unfold old in *. destruct (bg_entry s b p) as [E|E]; rewrite E; tauto.
  - intros s [A [B [C D]]]. unfold Safe, old in *. tauto.
Qed.

Lemma Done_stable_safe : stable Done /\ forall s, Done s -> Safe s.
Proof.
  split.
  - intros s b [A [B [C D]]]. destruct (bg_frame s b) as [Hv _]. unfold Done. rewrite Hv.
    repeat split; auto; [|rewrite bg_sealed; congruence]. destruct (bg_entry s b p) as [E|E]; rewrite E; auto.
  - intros s [A [B [C D]]]. unfold Safe. tauto.
Qed.

Hypothesis Htmp : vE s0 t = None.

Lemma create_ok : forall sy s, Before s -> exists s', step s (Create t) = Some s' /\ Open [] sy s'.
Proof.
  intros sy s [A [B C]]. simpl. rewrite A. fold t. rewrite Htmp. eexists. split; [reflexivity|].
  unfold Open. simpl. rewrite B. fold i. rewrite upd_e_same, !upd_d_same. repeat split; auto.
  rewrite upd_e_other by discriminate. apply A.
Qed.

Lemma write_ok : forall w sy b s, Open w sy s -> exists s', step s (Write t b) = Some s' /\ Open (w ++ b) false s'.
Proof.
  intros w sy b s [A [B [C [D E]]]]. simpl. rewrite A. eexists. split; [reflexivity|].
  unfold Open. simpl. rewrite upd_d_same, C. repeat split; auto. discriminate.
Qed.

Lemma fsync_ok : forall w sy sy' s, Open w sy s -> exists s', step s (Fsync t) = Some s' /\ Open w sy' s'.
Proof.
  intros w sy sy' s [A [B [C [D E]]]]. simpl. rewrite A. eexists. split; [reflexivity|].
  unfold Open. simpl. rewrite upd_d_same. repeat split; auto.
Qed.

Lemma rename_ok : forall s, Open c true s -> exists s', step s (Rename t p) = Some s' /\ Renamed s'.
Proof.
  intros s [A [B [C [D E]]]]. simpl. rewrite A. eexists. split; [reflexivity|].
  unfold Renamed. simpl. rewrite upd_e_same. repeat split; auto.
Qed.

Lemma fsyncdir_ok : forall s, Renamed s -> exists s', step s (FsyncDir d) = Some s' /\ Done s'.
Proof.
  intros s [A [B [C D]]]. simpl. eexists. split; [reflexivity|]. unfold Done. simpl. rewrite N.eqb_refl. auto.
Qed.

Lemma bursts_chain : forall chs w, chain Safe (Open w false) (bursts t chs) (Open (w ++ chunks_content chs) false).
Proof.
  induction chs as [|ch chs IH]; intro w; unfold bursts, chunks_content; simpl.
  - rewrite app_nil_r. apply ch_nil; apply Open_stable_safe.
  - (* each `try apply X_stable_safe` gives ch_cons its first two premises: X is stable and implies Safe *)
    rewrite app_assoc. apply ch_cons with (Open (w ++ ch_bytes ch) false); try apply Open_stable_safe; [apply write_ok|].
    destruct (ch_sync ch); [|apply IH].
    apply ch_cons with (Open (w ++ ch_bytes ch) false); try apply Open_stable_safe; [apply fsync_ok|apply IH].
Qed.

Lemma chunked_shape : forall q chs, publish_data_chunked q chs =
  Create (tmp_of q) :: bursts (tmp_of q) chs ++ [Fsync (tmp_of q); Rename (tmp_of q) q; FsyncDir (dir_of q)].
Proof. reflexivity. Qed.

Theorem chunked_chain : forall chs, chunks_content chs = c -> chain Safe Before (publish_data_chunked p chs) Done.
Proof.
  intros chs Hc. rewrite chunked_shape. cbn [tmp_of dir_of p]. fold t p.
  apply ch_cons with (Open [] false); try apply Before_stable_safe; [apply create_ok|].
  eapply chain_app; [apply bursts_chain|]. simpl. rewrite Hc.
  apply ch_cons with (Open c true); try apply Open_stable_safe; [apply fsync_ok|].
  apply ch_cons with Renamed; try apply Open_stable_safe; [apply rename_ok|].
  apply ch_cons with Done; try apply Renamed_stable_safe; [apply fsyncdir_ok|]. apply ch_nil; apply Done_stable_safe.
Qed.

Theorem chunked_each_publish : forall chs, chunks_content chs = c ->
  forall k es, calls_of es = firstn k (publish_data_chunked p chs) ->
  exists s', run s0 es = Some s' /\ Safe s' /\ ((length (publish_data_chunked p chs) <= k)%nat -> Done s').
Proof.
  intros chs Hc k es Hes. apply (chain_run Safe es Before _ Done s0 k (chunked_chain chs Hc)); auto.
  unfold Before, old. auto.
Qed.
End Publish.

Theorem chunked_disciplined : forall g d n chs,
  tmps g (T d n) = None -> st g (P d n) = Fresh -> forallb (ref_ok g) (refs (chunks_content chs)) = true ->
  exists g', checks g (publish_data_chunked (P d n) chs) = Some g'
             /\ st g' (P d n) = Linked (chunks_content chs) true.
Proof.
  (* the one-Write publish of the whole content is accepted, and the chunked publish is a burst refinement of it
     (publish_ok speaks of publish_meta; publish_data computes to the same five calls, Gen/GenDurable.v) *)
  intros g d n chs Ht Hs Hr.
  destruct (DurablePrograms.publish_ok g d n _ Ht Hr (or_introl Hs)) as [g1 [C [_ [Sp _]]]].
  destruct (DurableBurstsProofs.burst_refines _ _ (DurableBurstsProofs.chunked_burst_of (P d n) chs) g g g1
              (DurableBurstsProofs.gsim_refl g) C) as [g' [C' [E _]]].
  exists g'. split; [exact C'|now rewrite E].
Qed.
