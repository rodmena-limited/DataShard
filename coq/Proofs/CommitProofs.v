(* Proofs/CommitProofs.v -- the commit machine keeps one linear chain of versions (C01, C08): the invariant Inv, and
   `Linear`, the predicate of a world that every machine layered on `step` keeps and from which the chain / serializability /
   acknowledged-exactly-once theorems are read off; the exclusive lock is held only inside the critical section (L1); an
   idle committer can run to success (can_commit); the retry budget.  `step` is taken apart once, into the rules `Step`:
   proofs about one step go by rule, proofs about a schedule by ListFacts.run_skip_preserves (`run` is the fold it speaks of). *)
From Coq Require Import ZArith List Bool Lia.
Require Import DS.Model.CommitBase DS.Gen.GenCommit DS.Model.Commit DS.Proofs.CommitGenProofs DS.Proofs.ListFacts.
Import ListNotations.
Open Scope Z_scope.

Definition nthf (F : list meta) (v : vid) : meta := nth v F {| m_ops := []; m_cur := 0; m_lu := 0 |}.

Lemma file_nthf w v : file w v = nthf (w_files w) v.
Proof. reflexivity. Qed.

Lemma nthf_app F m v : (v < length F)%nat -> nthf (F ++ [m]) v = nthf F v.
Proof. intro H. unfold nthf. apply app_nth1. exact H. Qed.

Lemma nthf_new F m : nthf (F ++ [m]) (length F) = m.
Proof. apply nth_middle. Qed.

(* hist is a chain starting at prev: each flip extends the ops of its predecessor by its actor and
   carries a strictly larger last_updated stamp *)
Fixpoint chain_ok (F : list meta) (prev : vid) (h : list (vid * aid)) : Prop :=
  match h with
  | [] => True
  | (v, a) :: t =>
    m_ops (nthf F v) = m_ops (nthf F prev) ++ [a] /\ m_lu (nthf F prev) < m_lu (nthf F v)
    /\ (v < length F)%nat /\ chain_ok F v t
  end.

Definition lastv (p : vid) (h : list (vid * aid)) : vid := last (map fst h) p.

Lemma lastv_snoc p h v a : lastv p (h ++ [(v, a)]) = v.
Proof. unfold lastv. rewrite map_app. simpl. apply last_last. Qed.

Lemma lastv_cons p v a t : lastv p ((v, a) :: t) = lastv v t.
Proof.
  unfold lastv. simpl. destruct (map fst t) as [|x l]; [reflexivity|].
  apply last_cons_irrel.
Qed.

Lemma chain_ok_snoc F p h v a :
  chain_ok F p h ->
  m_ops (nthf F v) = m_ops (nthf F (lastv p h)) ++ [a] -> m_lu (nthf F (lastv p h)) < m_lu (nthf F v) ->
  (v < length F)%nat -> chain_ok F p (h ++ [(v, a)]).
Proof.
  revert p. induction h as [|[u b] t IH]; intros p C O L V; simpl in *.
  - unfold lastv in *. simpl in *. auto.
  - destruct C as [C1 [C2 [C3 C4]]]. repeat split; auto. apply IH; auto; rewrite lastv_cons in *; auto.
Qed.

Lemma chain_ok_ext F m p h : (p < length F)%nat -> chain_ok F p h -> chain_ok (F ++ [m]) p h.
Proof.
  revert p. induction h as [|[u b] t IH]; intros p P C; simpl in *; auto.
  destruct C as [C1 [C2 [C3 C4]]]. rewrite !nthf_app by assumption.
  repeat split; auto. rewrite app_length. simpl. lia.
Qed.

Lemma chain_ok_firstn F p h k : chain_ok F p h -> chain_ok F p (firstn k h).
Proof.
  revert p k. induction h as [|[u b] t IH]; intros p [|k] C; try exact I.
  destruct C as [C1 [C2 [C3 C4]]]. repeat split; try assumption. apply IH. exact C4.
Qed.

Lemma chain_ops F p h : chain_ok F p h -> m_ops (nthf F (lastv p h)) = m_ops (nthf F p) ++ map snd h.
Proof.
  revert p. induction h as [|[u b] t IH]; intros p C; simpl in *.
  - unfold lastv. simpl. rewrite app_nil_r. reflexivity.
  - destruct C as [C1 [C2 [C3 C4]]]. rewrite lastv_cons, (IH u C4), C1, <- app_assoc. reflexivity.
Qed.

Lemma chain_in F p h : chain_ok F p h ->
  forall v, In v (map fst h) -> (v < length F)%nat /\ m_lu (nthf F p) < m_lu (nthf F v).
Proof.
  revert p. induction h as [|[u b] t IH]; intros p C v Hv; [contradiction|].
  destruct C as [C1 [C2 [C3 C4]]]. destruct Hv as [<-|Hv]; [split; assumption|].
  destruct (IH u C4 v Hv) as [V L]. split; [exact V|lia].
Qed.

Lemma chain_lu_inj F p h : chain_ok F p h ->
  forall u v, In u (p :: map fst h) -> In v (p :: map fst h) -> m_lu (nthf F u) = m_lu (nthf F v) -> u = v.
Proof.
  revert p. induction h as [|[x b] t IH]; intros p C u v Hu Hv E.
  - destruct Hu as [<-|[]], Hv as [<-|[]]. reflexivity.
  - pose proof (chain_in F p _ C) as LT. destruct C as [_ [_ [_ C4]]].
    destruct Hu as [<-|Hu], Hv as [<-|Hv];
      [reflexivity | apply LT in Hv; lia | apply LT in Hu; lia | exact (IH x C4 u v Hu Hv E)].
Qed.

Lemma chain_lu_max F p h : chain_ok F p h ->
  forall u, In u (p :: map fst h) -> u = lastv p h \/ m_lu (nthf F u) < m_lu (nthf F (lastv p h)).
Proof.
  revert p. induction h as [|[x b] t IH]; intros p C u Hu; simpl in *.
  - destruct Hu as [<-|[]]. left. reflexivity.
  - destruct C as [C1 [C2 [C3 C4]]]. rewrite lastv_cons.
    destruct Hu as [<-|Hu].
    + right. destruct (IH x C4 x (or_introl eq_refl)) as [E|L]; [rewrite <- E; auto | lia].
    + apply (IH x C4 u). exact Hu.
Qed.

Definition inV (p : pc) : bool := match p with PValidated | PWritten | PFenced => true | _ => false end.
Definition inW (p : pc) : bool := match p with PWritten | PFenced => true | _ => false end.
Definition inCS (p : pc) : bool :=
  match p with PLocked | PValidated | PWritten | PFenced | PFlipped => true | _ => false end.
Definition flipped (p : pc) : bool := match p with PFlipped | PDone Success | PDone AbortedPost => true | _ => false end.

Lemma flipped_cases p : flipped p = true -> p = PFlipped \/ p = PDone Success \/ p = PDone AbortedPost.
Proof. destruct p as [| | | | | | | |[| | |]]; intro H; try discriminate H; auto. Qed.

Definition comm (H : list (vid * aid)) : list vid := 0%nat :: map fst H.
Definition committed (w : world) : list vid := comm (w_hist w).

(* the pointer write is conditional, or the lock cannot be taken away (flock): a lease lock, or none, with plain pointer writes
   is outside every theorem that assumes `sound` *)
Definition sound (c : cfg) : Prop := cas c = true \/ lockkind c = Excl.

(* Per-committer invariant, over the shared components it depends on.
   AI_opid: the operation a committer appends is its own id.  AI_base, AI_cur: what it read and what it validated are committed
   versions.  AI_val: past validation, base and validated version coincide (equal stamps, chain_lu_inj), the ETag is that
   read's, and under the exclusive lock the pointer has not moved since.  AI_new: its written, unpublished file is no
   committed version, extends its base by its operation and carries a larger stamp than the version validated (what the flip
   needs for chain_ok_snoc).  AI_flip: it is in the history iff its pc says it has flipped. *)
Record AInv (c : cfg) (F : list meta) (H : list (vid * aid)) (ptr : vid) (a : aid) (s : astate) : Prop := {
  AI_opid : a_opid s = a;
  AI_base : In (a_base s) (comm H);
  AI_cur : In (a_cur s) (comm H);
  AI_val : inV (a_pc s) = true -> a_cur s = a_base s /\ a_etag s = a_cur s /\ (lockkind c = Excl -> ptr = a_cur s);
  AI_new : inW (a_pc s) = true ->
           (a_new s < length F)%nat /\ ~ In (a_new s) (comm H)
           /\ m_ops (nthf F (a_new s)) = m_ops (nthf F (a_base s)) ++ [a]
           /\ m_lu (nthf F (a_cur s)) < m_lu (nthf F (a_new s));
  AI_flip : flipped (a_pc s) = true <-> In a (map snd H) }.

(* I_chain, I_ptr: the history is one chain from version 0 and the pointer names its end.  I_nodup: nobody flips twice.
   I_newd: two unpublished files are different files (so a flip leaves the others' files unpublished).  I_lock: under the
   exclusive lock whoever is in the critical section is the one the lock names (so at most one is). *)
Record Inv (c : cfg) (w : world) : Prop := {
  I_files : (0 < length (w_files w))%nat;
  I_chain : chain_ok (w_files w) 0%nat (w_hist w);
  I_ptr : w_ptr w = lastv 0%nat (w_hist w);
  I_nodup : NoDup (map snd (w_hist w));
  I_actor : forall a, AInv c (w_files w) (w_hist w) (w_ptr w) a (w_actors w a);
  I_newd : forall a b, a <> b -> inW (a_pc (w_actors w a)) = true -> inW (a_pc (w_actors w b)) = true ->
           a_new (w_actors w a) <> a_new (w_actors w b);
  I_lock : lockkind c = Excl -> forall a, inCS (a_pc (w_actors w a)) = true -> w_lock w = Some a }.

Lemma upd_same a s f : upd a s f a = s.
Proof. unfold upd. rewrite Nat.eqb_refl. reflexivity. Qed.
Lemma upd_other a b s f : b <> a -> upd a s f b = f b.
Proof. unfold upd. intro H. destruct (Nat.eqb_spec b a); [contradiction|reflexivity]. Qed.

Lemma committed_valid c w : Inv c w -> forall v, In v (committed w) -> (v < length (w_files w))%nat.
Proof.
  intros I v [<-|Hv]; [apply I | apply (chain_in _ _ _ (I_chain c w I) v Hv)].
Qed.

Lemma ptr_committed c w : Inv c w -> In (w_ptr w) (committed w).
Proof. intro I. rewrite (I_ptr c w I). unfold committed, comm, lastv. apply last_in. Qed.

Lemma inv_frame c w a s' lk :
  Inv c w ->
  AInv c (w_files w) (w_hist w) (w_ptr w) a s' ->
  (inW (a_pc s') = true -> forall b, b <> a -> inW (a_pc (w_actors w b)) = true -> a_new s' <> a_new (w_actors w b)) ->
  (lockkind c = Excl -> forall b, inCS (a_pc (upd a s' (w_actors w) b)) = true -> lk = Some b) ->
  Inv c {| w_ptr := w_ptr w; w_files := w_files w; w_lock := lk; w_hist := w_hist w; w_repl := w_repl w; w_actors := upd a s' (w_actors w) |}.
Proof.
  intros I A N L. constructor; simpl; try apply I.
  - intro b. destruct (Nat.eq_dec b a) as [->|NE]; [rewrite upd_same; exact A | rewrite upd_other by exact NE; apply I].
  - intros x y NE Wx Wy.
    destruct (Nat.eq_dec x a) as [->|Nx], (Nat.eq_dec y a) as [->|Ny]; try contradiction;
      rewrite ?upd_same, ?upd_other in * by assumption.
    + apply N; auto.
    + intro E. apply (N Wy x Nx Wx). symmetry. exact E.
    + apply (I_newd c w I); auto.
  - exact L.
Qed.

Lemma ainv_pc c F H ptr a s s' :
  AInv c F H ptr a s ->
  a_opid s' = a_opid s -> a_base s' = a_base s -> a_cur s' = a_cur s -> a_etag s' = a_etag s -> a_new s' = a_new s ->
  (inV (a_pc s') = true -> inV (a_pc s) = true) -> (inW (a_pc s') = true -> inW (a_pc s) = true) ->
  flipped (a_pc s') = flipped (a_pc s) ->
  AInv c F H ptr a s'.
Proof.
  intros A E1 E2 E3 E4 E5 V W Fl. destruct A as [Aopid Abase Acur Aval Anew Aflip].
  constructor; rewrite ?E1, ?E2, ?E3, ?E4, ?E5, ?Fl; auto.
Qed.

Lemma ainv_ext c F m H ptr a s :
  AInv c F H ptr a s -> (forall v, In v (comm H) -> (v < length F)%nat) -> AInv c (F ++ [m]) H ptr a s.
Proof.
  intros [Aopid Abase Acur Aval Anew Aflip] Val. constructor; auto.
  intro W. destruct (Anew W) as [B1 [B2 [B3 B4]]].
  rewrite !nthf_app; auto. split; [rewrite app_length; simpl; lia | auto].
Qed.

Lemma comm_snoc H v a : forall x, In x (comm (H ++ [(v, a)])) <-> In x (comm H) \/ x = v.
Proof.
  intro x. unfold comm. rewrite map_app. simpl. rewrite in_app_iff. simpl. intuition.
Qed.

Definition drop_lock (a : aid) (l : option aid) : option aid :=
  match l with Some b => if Nat.eqb a b then None else Some b | None => None end.

Definition cut_off (p : pc) : outcome := match p with PFlipped => AbortedPost | _ => Aborted end.

Definition with_actor_lock (w : world) (a : aid) (s : astate) (lk : option aid) : world :=
  {| w_ptr := w_ptr w; w_files := w_files w; w_lock := lk; w_hist := w_hist w; w_repl := w_repl w;
     w_actors := upd a s (w_actors w) |}.

(* Model/Commit.v spells the committer's state out field by field where a step writes more than the pc; the rules below say
   which field is written (each is convertible with the model's record). *)
Definition set_base (s : astate) (v : vid) : astate :=
  {| a_pc := a_pc s; a_kind := a_kind s; a_opid := a_opid s; a_base := v; a_cur := a_cur s; a_etag := a_etag s;
     a_new := a_new s; a_attempt := a_attempt s; a_maxr := a_maxr s |}.
Definition set_read (s : astate) (v : vid) : astate :=   (* the version read under the lock, and the ETag that came with it *)
  {| a_pc := a_pc s; a_kind := a_kind s; a_opid := a_opid s; a_base := a_base s; a_cur := v; a_etag := v;
     a_new := a_new s; a_attempt := a_attempt s; a_maxr := a_maxr s |}.
Definition set_new (s : astate) (v : vid) : astate :=
  {| a_pc := a_pc s; a_kind := a_kind s; a_opid := a_opid s; a_base := a_base s; a_cur := a_cur s; a_etag := a_etag s;
     a_new := v; a_attempt := a_attempt s; a_maxr := a_maxr s |}.
Definition next_attempt (s : astate) : astate :=
  {| a_pc := a_pc s; a_kind := a_kind s; a_opid := a_opid s; a_base := a_base s; a_cur := a_cur s; a_etag := a_etag s;
     a_new := a_new s; a_attempt := S (a_attempt s); a_maxr := a_maxr s |}.

(* One rule per enabled branch of `step` (SSteal, SAbort, SCrash each stand for several pcs); s is the state of the acting committer a.
   `destruct` names the premises of a rule as the rule does. *)
Inductive Step (c : cfg) (w : world) (a : aid) (s : astate) : evkind -> world -> Prop :=
| SBegin v (PC : a_pc s = PIdle) (Ev : v = w_ptr w) :
    Step c w a s (EBegin v)
      (with_actor w a (set_pc (set_base s v) PBegun))
| STake (PC : a_pc s = PBegun) (LF : lock_free_for c w a = true) :
    Step c w a s (ELockTry true)
      (with_actor_lock w a (set_pc s PLocked) (match lockkind c with GrantAll => w_lock w | _ => Some a end))
| SRefused (PC : a_pc s = PBegun) (LF : lock_free_for c w a = false) : Step c w a s (ELockTry false) w
| SSteal (LK : lockkind c = Lease) :
    Step c w a s ESteal {| w_ptr := w_ptr w; w_files := w_files w; w_lock := None; w_hist := w_hist w;
                           w_repl := w_repl w; w_actors := w_actors w |}
| SValidate v ok (PC : a_pc s = PLocked) (Ev : v = w_ptr w) (E : ok = stamp_eqb (file w v) (file w (a_base s))) :
    Step c w a s (EValidate v ok)
      (with_actor w a (set_pc (set_read s v) (if ok then PValidated else PConflict)))
| SMetaW now (PC : a_pc s = PValidated) :
    Step c w a s (EMetaW now)
      {| w_ptr := w_ptr w; w_files := w_files w ++ [new_meta w s now]; w_lock := w_lock w; w_hist := w_hist w;
         w_repl := w_repl w;
         w_actors := upd a (set_pc (set_new s (length (w_files w))) PWritten) (w_actors w) |}
| SFence ok (PC : a_pc s = PWritten) (E : ok = holds c w a) :
    Step c w a s (EFence ok) (with_actor w a (set_pc s (if ok then PFenced else PConflict)))
| SFlip (PC : a_pc s = PFenced) (E : (if cas c then Nat.eqb (w_ptr w) (a_etag s) else true) = true) :
    Step c w a s (EFlip true)
      {| w_ptr := a_new s; w_files := w_files w; w_lock := w_lock w; w_hist := w_hist w ++ [(a_new s, a)];
         w_repl := w_repl w ++ [(w_ptr w, a_cur s)]; w_actors := upd a (set_pc s PFlipped) (w_actors w) |}
| SFlipRefused (PC : a_pc s = PFenced) (E : (if cas c then Nat.eqb (w_ptr w) (a_etag s) else true) = false) :
    Step c w a s (EFlip false) (with_actor w a (set_pc s PConflict))
| SRelease (PC : a_pc s = PFlipped) :
    Step c w a s ERelease (with_actor_lock w a (set_pc s (PDone Success)) (drop_lock a (w_lock w)))
| SRetry (PC : a_pc s = PConflict) :
    Step c w a s ERelease
      (with_actor_lock w a
         (if Nat.ltb (S (a_attempt s)) (a_maxr s)
          then set_pc (next_attempt s) PIdle
          else set_pc s (PDone Conflict))
         (drop_lock a (w_lock w)))
| SAbort p (PC : a_pc s = p) (ND : forall o, p <> PDone o) :
    Step c w a s EAbort (with_actor_lock w a (set_pc s (PDone (cut_off p))) (drop_lock a (w_lock w)))
| SCrash p (PC : a_pc s = p) (ND : forall o, p <> PDone o) :
    Step c w a s ECrash
      (with_actor_lock w a (set_pc s (PDone (cut_off p)))
         (match lockkind c with Lease => w_lock w | _ => drop_lock a (w_lock w) end)).

Lemma step_Step c w a k w' :
  step c w {| e_actor := a; e_kind := k |} = Some w' -> Step c w a (w_actors w a) k w'.
Proof.
  unfold step. cbn [e_actor e_kind]. intro H.
  destruct k as [v|ok| |v ok|now|ok|ok| | | ].
  - (* EBegin *)
    destruct (a_pc (w_actors w a)) eqn:PC; try discriminate H.
    destruct (Nat.eqb_spec v (w_ptr w)) as [Ev|]; [|discriminate H]. injection H as <-. apply SBegin; assumption.
  - (* ELockTry: granted on a free lock, refused on a taken one *)
    destruct ok; destruct (a_pc (w_actors w a)) eqn:PC; try discriminate H.
    + destruct (lock_free_for c w a) eqn:LF; [|discriminate H]. injection H as <-. apply STake; assumption.
    + destruct (lock_free_for c w a) eqn:LF; [discriminate H|]. injection H as <-. apply SRefused; assumption.
  - (* ESteal: enabled at every pc *)
    destruct (a_pc (w_actors w a)); destruct (lockkind c) eqn:LK; try discriminate H; injection H as <-;
      apply SSteal; exact LK.
  - (* EValidate *)
    destruct (a_pc (w_actors w a)) eqn:PC; try discriminate H.
    destruct (Nat.eqb_spec v (w_ptr w)) as [Ev|]; [|discriminate H]. cbn [andb] in H.
    destruct (Bool.eqb ok _) eqn:EQ; [|discriminate H]. apply eqb_prop in EQ. injection H as <-.
    apply SValidate; assumption.
  - (* EMetaW *)
    destruct (a_pc (w_actors w a)) eqn:PC; try discriminate H. injection H as <-. apply SMetaW. exact PC.
  - (* EFence *)
    destruct (a_pc (w_actors w a)) eqn:PC; try discriminate H.
    destruct (Bool.eqb ok (holds c w a)) eqn:EQ; [|discriminate H]. apply eqb_prop in EQ.
    injection H as <-. apply SFence; assumption.
  - (* EFlip: let through or refused *)
    destruct (a_pc (w_actors w a)) eqn:PC; try discriminate H.
    destruct (Bool.eqb ok _) eqn:EQ; [|discriminate H]. apply eqb_prop in EQ. symmetry in EQ.
    destruct ok; injection H as <-.
    + apply SFlip; assumption.
    + apply SFlipRefused; assumption.
  - (* ERelease: after the flip, or after a conflict *)
    destruct (a_pc (w_actors w a)) eqn:PC; try discriminate H; injection H as <-.
    + apply SRelease. exact PC.
    + apply SRetry. exact PC.
  - (* EAbort: enabled at every pc but PDone *)
    destruct (a_pc (w_actors w a)) eqn:PC; try discriminate H; injection H as <-;
      apply (SAbort _ _ _ _ _ PC); discriminate.
  - (* ECrash: likewise *)
    destruct (a_pc (w_actors w a)) eqn:PC; try discriminate H; injection H as <-;
      apply (SCrash _ _ _ _ _ PC); discriminate.
Qed.

Lemma step_Step_ev c w e w' : step c w e = Some w' -> Step c w (e_actor e) (w_actors w (e_actor e)) (e_kind e) w'.
Proof. destruct e as [a k]. apply step_Step. Qed.

Lemma Step_step c w a k w' : Step c w a (w_actors w a) k w' -> step c w {| e_actor := a; e_kind := k |} = Some w'.
Proof.
  intro St. unfold step. cbn [e_actor e_kind]. destruct St.
  - (* SBegin *) subst v. rewrite PC, Nat.eqb_refl. reflexivity.
  - (* STake *) rewrite PC, LF. reflexivity.
  - (* SRefused *) rewrite PC, LF. reflexivity.
  - (* SSteal *) rewrite LK. destruct (a_pc (w_actors w a)); reflexivity.
  - (* SValidate *) subst v. rewrite PC, Nat.eqb_refl, <- E, eqb_reflx. reflexivity.
  - (* SMetaW *) rewrite PC. reflexivity.
  - (* SFence *) rewrite PC, <- E, eqb_reflx. reflexivity.
  - (* SFlip *) rewrite PC, E. reflexivity.
  - (* SFlipRefused *) rewrite PC, E. reflexivity.
  - (* SRelease *) rewrite PC. reflexivity.
  - (* SRetry *) rewrite PC. reflexivity.
  - (* SAbort *) rewrite PC. destruct p; try reflexivity. destruct (ND o eq_refl).
  - (* SCrash *) rewrite PC. destruct p; try reflexivity. destruct (ND o eq_refl).
Qed.

Lemma flipped_cut_off p : (forall o, p <> PDone o) -> flipped (PDone (cut_off p)) = flipped p.
Proof. intro ND. destruct p; try reflexivity. destruct (ND o eq_refl). Qed.

(* I_lock across a step of actor a that keeps the lock / lets go of it *)
Lemma excl_kept c w a s' :
  Inv c w -> (inCS (a_pc s') = true -> inCS (a_pc (w_actors w a)) = true) ->
  lockkind c = Excl -> forall b, inCS (a_pc (upd a s' (w_actors w) b)) = true -> w_lock w = Some b.
Proof.
  intros I K LK b Hb. apply (I_lock c w I LK).
  destruct (Nat.eq_dec b a) as [->|NE]; [rewrite upd_same in Hb; auto | rewrite upd_other in Hb by exact NE; exact Hb].
Qed.

Lemma excl_dropped c w a s' :
  Inv c w -> inCS (a_pc s') = false ->
  lockkind c = Excl -> forall b, inCS (a_pc (upd a s' (w_actors w) b)) = true -> drop_lock a (w_lock w) = Some b.
Proof.
  intros I K LK b Hb. destruct (Nat.eq_dec b a) as [->|NE]; [rewrite upd_same in Hb; congruence|].
  rewrite upd_other in Hb by exact NE. rewrite (I_lock c w I LK b Hb). unfold drop_lock.
  destruct (Nat.eqb_spec a b); [congruence|reflexivity].
Qed.

(* For a rule that moves a's pc to a constant p: the two implications are vacuous or computed (p is outside inV / inW, or the
   old pc inside), `flipped` is computed, and the lock clause is excl_kept / excl_dropped. *)
Lemma inv_set_pc c w a p lk :
  Inv c w ->
  (inV p = true -> inV (a_pc (w_actors w a)) = true) -> (inW p = true -> inW (a_pc (w_actors w a)) = true) ->
  flipped p = flipped (a_pc (w_actors w a)) ->
  (lockkind c = Excl -> forall b, inCS (a_pc (upd a (set_pc (w_actors w a) p) (w_actors w) b)) = true -> lk = Some b) ->
  Inv c (with_actor_lock w a (set_pc (w_actors w a) p) lk).
Proof.
  intros I V W Fl L. apply inv_frame; [exact I | | | exact L].
  - apply (ainv_pc _ _ _ _ _ _ _ (I_actor c w I a)); try reflexivity; assumption.
  - intros Wp b NE Wb. apply (I_newd c w I a b); auto.
Qed.

(* the conditional write compares with the ETag of the validating read; the exclusive lock has kept the pointer still *)
Lemma flip_at_validated c w a :
  sound c -> Inv c w -> a_pc (w_actors w a) = PFenced ->
  (if cas c then Nat.eqb (w_ptr w) (a_etag (w_actors w a)) else true) = true -> w_ptr w = a_cur (w_actors w a).
Proof.
  intros Snd I PC E. destruct (I_actor c w I a) as [_ _ _ Aval _ _]. rewrite PC in Aval.
  destruct (Aval eq_refl) as [_ [V2 V3]].
  destruct Snd as [CAS|EX]; [|apply V3; exact EX]. rewrite CAS in E. apply Nat.eqb_eq in E. congruence.
Qed.

Lemma step_inv c w e w' : sound c -> Inv c w -> step c w e = Some w' -> Inv c w'.
Proof.
  intros Snd I H. destruct e as [a k]. apply step_Step in H.
  pose proof (I_actor c w I a) as Ia. pose proof (I_lock c w I) as IL. destruct H.
  - (* SBegin: the base read is the committed version the pointer names *)
    subst v. apply inv_frame; [exact I | | discriminate | apply excl_kept; [exact I|discriminate]].
    destruct Ia as [Aopid Abase Acur Aval Anew Aflip]. rewrite PC in Aflip.
    constructor; [exact Aopid | apply (ptr_committed c w I) | exact Acur | discriminate | discriminate | exact Aflip].
  - (* STake: nobody else is in the critical section, or the lock would not have been free *)
    apply inv_set_pc; rewrite ?PC; try discriminate; try reflexivity; [exact I|].
    intros LK b Hb. rewrite LK. destruct (Nat.eq_dec b a) as [->|NE]; [reflexivity|].
    rewrite upd_other in Hb by exact NE. unfold lock_free_for in LF. rewrite LK, (IL LK b Hb) in LF. discriminate LF.
  - (* SRefused *) exact I.
  - (* SSteal: I_lock speaks of Excl, the rule needs Lease *) constructor; try apply I. intro LE. rewrite LK in LE. discriminate LE.
  - (* SValidate: equal stamps of two committed versions mean the same version *)
    subst v. apply inv_frame; [exact I | | destruct ok; discriminate | apply excl_kept; [exact I|]].
    + destruct Ia as [Aopid Abase Acur Aval Anew Aflip]. rewrite PC in Aflip. pose proof (ptr_committed c w I) as P.
      constructor; [exact Aopid | exact Abase | exact P | | destruct ok; discriminate | destruct ok; exact Aflip].
      destruct ok; [intros _|discriminate]. cbn [a_cur a_base a_etag set_pc set_read].
      split; [|split; [reflexivity|intros _; reflexivity]].
      symmetry in E. apply stamp_eqb_true in E. destruct E as [_ E]. rewrite !file_nthf in E.
      apply (chain_lu_inj _ _ _ (I_chain c w I)); assumption.
    + intros _. rewrite PC. reflexivity.
  - (* SMetaW: the new file lies beyond every committed and every pending version *)
    pose proof (committed_valid c w I) as Val. unfold committed in Val.
    constructor; cbn [w_ptr w_files w_lock w_hist w_repl w_actors]; try apply I.
    + (* I_files *) rewrite app_length. simpl. lia.
    + (* I_chain *) apply chain_ok_ext; apply I.
    + (* I_actor *) intro b. destruct (Nat.eq_dec b a) as [->|NE]; [|rewrite upd_other by exact NE; apply ainv_ext; [apply I | exact Val]].
      rewrite upd_same. destruct Ia as [Aopid Abase Acur Aval Anew Aflip]. rewrite PC in Aval, Aflip.
      constructor; try assumption. intros _. cbn [a_new a_base a_cur set_pc set_new].
      rewrite nthf_new, !nthf_app by (apply Val; assumption).
      split; [rewrite app_length; simpl; lia|]. split; [intro Hin; apply Val in Hin; lia|].
      unfold new_meta. cbn [m_ops m_lu]. rewrite Aopid, !file_nthf. split; [reflexivity|apply gen_new_lu_gt].
    + (* I_newd *) intros x y NE Wx Wy.
      destruct (Nat.eq_dec x a) as [->|Nx], (Nat.eq_dec y a) as [->|Ny]; try contradiction;
        rewrite ?upd_same, ?upd_other in * by assumption; cbn [a_new set_pc set_new].
      * pose proof (AI_new _ _ _ _ _ _ (I_actor c w I y) Wy) as [B _]. lia.
      * pose proof (AI_new _ _ _ _ _ _ (I_actor c w I x) Wx) as [B _]. lia.
      * apply (I_newd c w I); auto.
    + (* I_lock *) apply excl_kept; [exact I|]. intros _. rewrite PC. reflexivity.
  - (* SFence: passed, the committer moves on inside the critical section; failed, it is at PConflict, the lock untouched *)
    destruct ok; apply inv_set_pc; rewrite ?PC; try discriminate; try reflexivity; try exact I;
      (apply excl_kept; [exact I | intros _; rewrite PC; reflexivity]).
  - (* SFlip: the pointer still names the validated version, so the chain grows at its end *)
    destruct Ia as [Aopid Abase Acur Aval Anew Aflip]. rewrite PC in Aval, Anew, Aflip.
    destruct (Aval eq_refl) as [V1 [V2 V3]]. destruct (Anew eq_refl) as [N1 [N2 [N3 N4]]].
    pose proof (flip_at_validated c w a Snd I PC E) as PTR.
    assert (NotIn : ~ In a (map snd (w_hist w))) by (intro Hin; apply Aflip in Hin; discriminate Hin).
    constructor; cbn [w_ptr w_files w_lock w_hist w_repl w_actors].
    + (* I_files *) apply I.
    + (* I_chain *) apply chain_ok_snoc; [apply I | | | exact N1]; rewrite <- (I_ptr c w I), PTR; [rewrite N3, V1; reflexivity | exact N4].
    + (* I_ptr *) symmetry. apply lastv_snoc.
    + (* I_nodup *) rewrite map_app. apply NoDup_snoc; [apply I | exact NotIn].
    + (* I_actor *) intro b. destruct (Nat.eq_dec b a) as [->|NE].
      * rewrite upd_same.
        constructor; [exact Aopid | apply comm_snoc; left; exact Abase | apply comm_snoc; left; exact Acur | discriminate | discriminate |].
        rewrite map_app, in_app_iff. split; [intros _; right; left; reflexivity | intros _; reflexivity].
      * rewrite upd_other by exact NE. destruct (I_actor c w I b) as [Bopid Bbase Bcur Bval Bnew Bflip].
        constructor; [exact Bopid | apply comm_snoc; left; exact Bbase | apply comm_snoc; left; exact Bcur | | |].
        -- (* under the exclusive lock nobody else is past validation *)
           intro Vb. destruct (Bval Vb) as [X1 [X2 X3]]. split; [exact X1|]. split; [exact X2|].
           intro EX. exfalso.
           assert (inCS (a_pc (w_actors w b)) = true) as CSb by (destruct (a_pc (w_actors w b)); try discriminate Vb; reflexivity).
           assert (inCS (a_pc (w_actors w a)) = true) as CSa by (rewrite PC; reflexivity).
           pose proof (IL EX b CSb). pose proof (IL EX a CSa). congruence.
        -- intro Wb. destruct (Bnew Wb) as [X1 [X2 [X3 X4]]]. repeat split; auto.
           intro Hin. apply comm_snoc in Hin. destruct Hin as [Hin|E']; [contradiction|].
           apply (I_newd c w I b a NE Wb); [rewrite PC; reflexivity | exact E'].
        -- rewrite map_app, in_app_iff. simpl. split; [intro X; left; apply Bflip; exact X|].
           intros [X|[X|[]]]; [apply Bflip; exact X | congruence].
    + (* I_newd *) intros x y NE Wx Wy.
      destruct (Nat.eq_dec x a) as [->|Nx]; [rewrite upd_same in Wx; discriminate|].
      destruct (Nat.eq_dec y a) as [->|Ny]; [rewrite upd_same in Wy; discriminate|].
      rewrite !upd_other in * by assumption. apply (I_newd c w I); auto.
    + (* I_lock *) apply excl_kept; [exact I|]. intros _. rewrite PC. reflexivity.
  - (* SFlipRefused *)
    apply inv_set_pc; rewrite ?PC; try discriminate; try reflexivity; [exact I|].
    apply excl_kept; [exact I|discriminate].
  - (* SRelease *)
    apply inv_set_pc; rewrite ?PC; try discriminate; try reflexivity; [exact I|].
    apply excl_dropped; [exact I|reflexivity].
  - (* SRetry *)
    destruct (Nat.ltb (S (a_attempt (w_actors w a))) (a_maxr (w_actors w a))).
    + apply inv_frame; [exact I | | discriminate | apply excl_dropped; [exact I|reflexivity]].
      apply (ainv_pc _ _ _ _ _ _ _ Ia); rewrite ?PC; try reflexivity; discriminate.
    + apply inv_set_pc; rewrite ?PC; try discriminate; try reflexivity; [exact I|].
      apply excl_dropped; [exact I|reflexivity].
  - (* SAbort *)
    apply inv_set_pc; rewrite ?PC; try discriminate; [exact I | apply flipped_cut_off; exact ND |].
    apply excl_dropped; [exact I|reflexivity].
  - (* SCrash *)
    apply inv_set_pc; rewrite ?PC; try discriminate; [exact I | apply flipped_cut_off; exact ND |].
    intro LK. rewrite LK. apply (excl_dropped c w a _ I); [reflexivity|exact LK].
Qed.

(* the flip replaces exactly the validated version *)
Definition repl_ok (w : world) : Prop := Forall (fun p => fst p = snd p) (w_repl w).

Lemma step_repl c w e w' : sound c -> Inv c w -> repl_ok w -> step c w e = Some w' -> repl_ok w'.
Proof.
  intros Snd I R H. apply step_Step_ev in H. destruct H; try exact R.
  apply Forall_app. split; [exact R|]. constructor; [|constructor]. exact (flip_at_validated c w _ Snd I PC E).
Qed.

Lemma init_inv c m0 kind mr : Inv c (init_world m0 kind mr).
Proof.
  constructor; simpl; auto.
  - constructor.
  - intro a. constructor; simpl; auto; try discriminate. split; [discriminate | intros []].
  - discriminate.
  - discriminate.
Qed.

Lemma run_cons c w e evs : run c w (e :: evs) = run c (step_skip c w e) evs.
Proof. reflexivity. Qed.

Lemma Inv_serializable c w : Inv c w -> m_ops (file w (w_ptr w)) = m_ops (nthf (w_files w) 0%nat) ++ map snd (w_hist w).
Proof. intro I. rewrite file_nthf, (I_ptr c w I). apply chain_ops. apply I. Qed.

Lemma Inv_acked c w a : Inv c w -> (flipped (a_pc (w_actors w a)) = true <-> In a (map snd (w_hist w))).
Proof. intro I. apply (AI_flip _ _ _ _ _ _ (I_actor c w I a)). Qed.

(* The one predicate of a world from which the chain / serializability / acknowledged-exactly-once / "replaced what it
   validated" theorems are read off: the invariant, the replaced-version ghost, and the first file is still the initial
   version.  Every step keeps it, so a machine layered on `step` only has to show that each of its steps is such a step or
   changes nothing the predicate looks at. *)
Record Linear (c : cfg) (m0 : meta) (w : world) : Prop := {
  Lin_inv : Inv c w;
  Lin_repl : repl_ok w;
  Lin_zero : nthf (w_files w) 0%nat = m0 }.

Lemma linear_init c m0 kind mr : Linear c m0 (init_world m0 kind mr).
Proof. constructor; [apply init_inv | constructor | reflexivity]. Qed.

Lemma linear_step c m0 w e w' : sound c -> Linear c m0 w -> step c w e = Some w' -> Linear c m0 w'.
Proof.
  intros Snd [I R Z] St. constructor; [eapply step_inv; eauto | eapply step_repl; eauto |].
  (* only EMetaW touches the files, and it appends *)
  rewrite <- Z. destruct (step_Step_ev _ _ _ _ St); try reflexivity.
  apply nthf_app. apply (I_files c w I).
Qed.

Lemma run_linear c m0 w evs : sound c -> Linear c m0 w -> Linear c m0 (run c w evs).
Proof. intro Snd. apply (run_skip_preserves _ _ (step c) (Linear c m0)). intros x e x'. apply linear_step. exact Snd. Qed.

Lemma reach_linear c m0 kind mr evs : sound c -> Linear c m0 (run c (init_world m0 kind mr) evs).
Proof. intro Snd. apply run_linear; [exact Snd | apply linear_init]. Qed.

Lemma linear_no_lost_update c m0 w : Linear c m0 w ->
  m_ops (file w (w_ptr w)) = m_ops m0 ++ map snd (w_hist w)
  /\ NoDup (map snd (w_hist w))
  /\ (forall a, a_pc (w_actors w a) = PDone Success -> In a (map snd (w_hist w)))
  /\ chain_ok (w_files w) 0%nat (w_hist w).
Proof.
  intro L. pose proof (Lin_inv c m0 w L) as I. split; [|split; [apply I | split; [|apply I]]].
  - rewrite (Inv_serializable c w I), (Lin_zero c m0 w L). reflexivity.
  - intros a P. apply (Inv_acked c w a I). rewrite P. reflexivity.
Qed.

Lemma step_others c w e w' : step c w e = Some w' -> forall b, b <> e_actor e -> w_actors w' b = w_actors w b.
Proof.
  intros H b NE. apply step_Step_ev in H. destruct H; try reflexivity; apply upd_other; exact NE.
Qed.

Lemma fence_requires_lock c w e w' :
  lockkind c = Lease -> e_kind e = EFence true -> step c w e = Some w' -> w_lock w = Some (e_actor e).
Proof.
  intros LK K H. apply step_Step_ev in H. rewrite K in H. inversion H; subst. unfold holds in E. rewrite LK in E.
  destruct (w_lock w) as [b|]; [|discriminate E]. symmetry in E. apply Nat.eqb_eq in E. rewrite E. reflexivity.
Qed.

Lemma fence_failed_conflict c w e w' :
  e_kind e = EFence false -> step c w e = Some w' -> a_pc (w_actors w' (e_actor e)) = PConflict.
Proof.
  intros K H. apply step_Step_ev in H. rewrite K in H. inversion H. cbn [w_actors with_actor]. rewrite upd_same. reflexivity.
Qed.

(* (and the only way to a flip is from PFenced: rule SFlip) *)
Lemma fenced_only_by_fence c w e w' a :
  step c w e = Some w' -> a_pc (w_actors w' a) = PFenced -> a_pc (w_actors w a) <> PFenced ->
  e_actor e = a /\ e_kind e = EFence true.
Proof.
  intros H P N. destruct (Nat.eq_dec a (e_actor e)) as [->|NE]; [|rewrite (step_others _ _ _ _ H a NE) in P; contradiction].
  split; [reflexivity|]. apply step_Step_ev in H.
  (* the rules whose new pc is a constant other than PFenced, or that leave the committer where it was *)
  destruct H; cbn [w_actors with_actor with_actor_lock] in P; rewrite ?upd_same in P; try discriminate P; try contradiction.
  - (* SValidate *) destruct ok; discriminate P.
  - (* SFence *) destruct ok; [reflexivity|discriminate P].
  - (* SRetry *) destruct (Nat.ltb _ _); discriminate P.
Qed.

(* the retry decision of `step` after a conflict is the regenerated handler table's: Transaction.commit's except-arm
   for ConcurrentModificationException retries while `attempt < max_retries - 1`, i.e. unless this was the last one *)
Lemma release_after_conflict_follows_table c w e w' :
  e_kind e = ERelease -> a_pc (w_actors w (e_actor e)) = PConflict -> step c w e = Some w' ->
  let s := w_actors w (e_actor e) in
  let last := negb (Nat.ltb (S (a_attempt s)) (a_maxr s)) in
  match gen_tx_on XConflict last with
  | TxRetry => a_pc (w_actors w' (e_actor e)) = PIdle /\ a_attempt (w_actors w' (e_actor e)) = S (a_attempt s)
  | TxRollbackDelete => a_pc (w_actors w' (e_actor e)) = PDone Conflict
  | _ => False
  end.
Proof.
  intros K PC H. apply step_Step_ev in H. rewrite K in H.
  (* of the two rules for ERelease, SRelease needs PFlipped *)
  inversion H; subst; try congruence. cbn [w_actors with_actor_lock]. rewrite upd_same.
  destruct (Nat.ltb _ _); [split|]; reflexivity.
Qed.

Lemma conflict_release_not_success c w e w' :
  e_kind e = ERelease -> a_pc (w_actors w (e_actor e)) = PConflict -> step c w e = Some w' ->
  a_pc (w_actors w' (e_actor e)) = PIdle \/ a_pc (w_actors w' (e_actor e)) = PDone Conflict.
Proof.
  intros K PC H. pose proof (release_after_conflict_follows_table c w e w' K PC H) as T. cbv zeta in T.
  destruct (Nat.ltb _ _); cbn in T; [left; apply T | right; exact T].
Qed.

(* What one step of committer a can change, for the machines built on top of this one: it writes a metadata file, or flips
   the pointer, or leaves files, history and a_new alone, does not enter inW, keeps `flipped`, and stays at PDone if it was
   there.  NW: a quiet step is not an enabled metadata write -- (EMetaW, PValidated) is the test by which Fault.fstep appends
   a reference list. *)
Inductive StepShape (w : world) (a : aid) (k : evkind) (w' : world) : Prop :=
| ShWrite now (EK : k = EMetaW now) (PC : a_pc (w_actors w a) = PValidated)
    (Fi : w_files w' = w_files w ++ [new_meta w (w_actors w a) now]) (Hi : w_hist w' = w_hist w)
    (New : a_new (w_actors w' a) = length (w_files w))
| ShFlip (EK : k = EFlip true) (PC : a_pc (w_actors w a) = PFenced)
    (Fi : w_files w' = w_files w) (Hi : w_hist w' = w_hist w ++ [(a_new (w_actors w a), a)])
    (PC' : a_pc (w_actors w' a) = PFlipped)
| ShQuiet (Fi : w_files w' = w_files w) (Hi : w_hist w' = w_hist w) (New : a_new (w_actors w' a) = a_new (w_actors w a))
    (W : inW (a_pc (w_actors w' a)) = true -> inW (a_pc (w_actors w a)) = true)
    (Fl : flipped (a_pc (w_actors w' a)) = flipped (a_pc (w_actors w a)))
    (Dn : forall o, a_pc (w_actors w a) = PDone o -> a_pc (w_actors w' a) = PDone o)
    (NW : forall now, k = EMetaW now -> a_pc (w_actors w a) <> PValidated).

Lemma step_cases c w e w' : step c w e = Some w' ->
  (forall b, b <> e_actor e -> w_actors w' b = w_actors w b) /\ StepShape w (e_actor e) (e_kind e) w'.
Proof.
  intro H. split; [exact (step_others _ _ _ _ H)|].
  apply step_Step_ev in H. destruct H.
  (* Every rule but SMetaW and SFlip is quiet; where the new pc is a constant this is immediate: *)
  all: try (solve [apply ShQuiet; cbn [w_files w_hist w_actors with_actor with_actor_lock]; rewrite ?upd_same, ?PC;
                   first [reflexivity | discriminate | intros; assumption | intros ? EK; discriminate EK]]).
  - (* SValidate: the new pc depends on the verdict *)
    destruct ok; apply ShQuiet; cbn [w_files w_hist w_actors with_actor]; rewrite ?upd_same, ?PC; (reflexivity || discriminate).
  - (* SMetaW *)
    apply (ShWrite _ _ _ _ now); cbn [w_files w_hist w_actors]; rewrite ?upd_same; (reflexivity || exact PC).
  - (* SFence: the new pc depends on whether the lock is still held *)
    destruct ok; apply ShQuiet; cbn [w_files w_hist w_actors with_actor]; rewrite ?upd_same, ?PC; (reflexivity || discriminate).
  - (* SFlip *)
    apply ShFlip; cbn [w_files w_hist w_actors]; rewrite ?upd_same; (reflexivity || exact PC).
  - (* SRetry: a new attempt, or the conflict report *)
    destruct (Nat.ltb _ _); apply ShQuiet; cbn [w_files w_hist w_actors with_actor_lock]; rewrite ?upd_same, ?PC;
      (reflexivity || discriminate).
  - (* SAbort: cut off where it was *)
    apply ShQuiet; cbn [w_files w_hist w_actors with_actor_lock]; rewrite ?upd_same, ?PC; try reflexivity; try discriminate;
      [apply flipped_cut_off; exact ND | intros o Po; destruct (ND o Po)].
  - (* SCrash *)
    apply ShQuiet; cbn [w_files w_hist w_actors with_actor_lock]; rewrite ?upd_same, ?PC; try reflexivity; try discriminate;
      [apply flipped_cut_off; exact ND | intros o Po; destruct (ND o Po)].
Qed.

Lemma step_frame c w e w' : step c w e = Some w' ->
  let a := e_actor e in let s := w_actors w a in let s' := w_actors w' a in
  (forall b, b <> a -> w_actors w' b = w_actors w b)
  /\ ((forall v ok, e_kind e <> EValidate v ok) ->
      a_cur s' = a_cur s /\ a_etag s' = a_etag s /\ (inV (a_pc s') = true -> inV (a_pc s) = true))
  /\ (e_kind e <> EFlip true -> w_ptr w' = w_ptr w).
Proof.
  intro H. split; [exact (step_others _ _ _ _ H)|]. cbv zeta.
  destruct (step_Step_ev _ _ _ _ H); cbn [w_actors w_ptr with_actor with_actor_lock]; rewrite ?upd_same;
    cbn [a_cur a_etag a_pc set_pc set_base set_read set_new next_attempt].
  (* most rules write neither a_cur / a_etag nor the pointer, and their new pc is a constant *)
  all: try (solve [split; [intros _; rewrite ?PC; repeat split; first [reflexivity | discriminate | intros; assumption]
                          | intros _; reflexivity]]).
  - (* SValidate: excluded by the first premise *)
    split; [intro NV; elim (NV _ _ eq_refl) | intros _; reflexivity].
  - (* SFlip: excluded by the second *)
    split; [intros _; repeat split; try reflexivity; discriminate | intro NF; elim NF; reflexivity].
  - (* SRetry: a new attempt or the conflict report *)
    split; [intros _; destruct (Nat.ltb _ _); repeat split; try reflexivity; discriminate | intros _; reflexivity].
Qed.

Lemma step_locktry c w a w' : step c w {| e_actor := a; e_kind := ELockTry true |} = Some w' ->
  a_pc (w_actors w' a) = PLocked.
Proof. intro H. apply step_Step in H. inversion H; subst. cbn. rewrite upd_same. reflexivity. Qed.

Lemma step_validate c w a v ok w' : step c w {| e_actor := a; e_kind := EValidate v ok |} = Some w' ->
  a_cur (w_actors w' a) = v /\ a_etag (w_actors w' a) = v.
Proof. intro H. apply step_Step in H. inversion H; subst. cbn. rewrite upd_same. split; reflexivity. Qed.

Lemma step_flip_true c w a w' : step c w {| e_actor := a; e_kind := EFlip true |} = Some w' ->
  a_pc (w_actors w a) = PFenced /\ (cas c = true -> w_ptr w = a_etag (w_actors w a))
  /\ a_pc (w_actors w' a) = PFlipped /\ a_new (w_actors w' a) = a_new (w_actors w a) /\ w_ptr w' = a_new (w_actors w a).
Proof.
  intro H. apply step_Step in H. inversion H; subst. cbn. rewrite upd_same. repeat split; [exact PC|].
  intro CAS. rewrite CAS in E. apply Nat.eqb_eq. exact E.
Qed.

Lemma step_abort c w a w' : step c w {| e_actor := a; e_kind := EAbort |} = Some w' ->
  (a_pc (w_actors w a) = PFenced -> a_pc (w_actors w' a) = PDone Aborted)
  /\ (a_pc (w_actors w a) = PFlipped -> a_pc (w_actors w' a) = PDone AbortedPost).
Proof.
  intro H. apply step_Step in H. inversion H; subst. cbn. rewrite upd_same. cbn.
  split; intros ->; reflexivity.
Qed.

Lemma step_pdone_stable c w e w' a o : step c w e = Some w' -> a_pc (w_actors w a) = PDone o -> a_pc (w_actors w' a) = PDone o.
Proof.
  intros H P. destruct (step_cases c w e w' H) as [Oth Sh].
  destruct (Nat.eq_dec a (e_actor e)) as [->|NE]; [|rewrite (Oth a NE); exact P].
  (* a committer at PDone neither writes nor flips *)
  destruct Sh; [rewrite P in PC; discriminate PC | rewrite P in PC; discriminate PC | exact (Dn o P)].
Qed.

(* L1: under the exclusive lock, whoever the lock object names is inside the critical section or on its way out of it after a
   conflict (lockpc); so a finished committer does not hold it (C03_lock_released). *)
Definition lockpc (p : pc) : bool := inCS p || match p with PConflict => true | _ => false end.

Definition L1 (c : cfg) (w : world) : Prop :=
  lockkind c = Excl -> forall a, w_lock w = Some a -> lockpc (a_pc (w_actors w a)) = true.

Lemma drop_lock_some a l b : drop_lock a l = Some b -> l = Some b /\ a <> b.
Proof.
  destruct l as [x|]; [|discriminate]. unfold drop_lock. destruct (Nat.eqb_spec a x); [discriminate|].
  intro E. injection E as <-. split; [reflexivity|assumption].
Qed.

Lemma L1_kept c w w' a s' :
  L1 c w -> w_lock w' = w_lock w -> w_actors w' = upd a s' (w_actors w) ->
  (lockpc (a_pc (w_actors w a)) = true -> lockpc (a_pc s') = true) -> L1 c w'.
Proof.
  intros L El Ea K LK b Hb. rewrite Ea. rewrite El in Hb.
  destruct (Nat.eq_dec b a) as [->|NE]; [rewrite upd_same; apply K | rewrite upd_other by exact NE]; apply (L LK); exact Hb.
Qed.

Lemma L1_dropped c w w' a s' :
  L1 c w -> w_lock w' = drop_lock a (w_lock w) -> w_actors w' = upd a s' (w_actors w) -> L1 c w'.
Proof.
  intros L El Ea LK b Hb. rewrite El in Hb. apply drop_lock_some in Hb. destruct Hb as [Hb NE].
  rewrite Ea, upd_other by (intro E; apply NE; symmetry; exact E). apply (L LK). exact Hb.
Qed.

Lemma step_L1 c w e w' : L1 c w -> step c w e = Some w' -> L1 c w'.
Proof.
  intros L H. destruct e as [a k]. apply step_Step in H. destruct H.
  - (* SBegin *) eapply (L1_kept c w _ a _ L); [reflexivity | reflexivity |]. rewrite PC. discriminate.
  - (* STake: the lock now names a, which is at PLocked *)
    intros LK b Hb. cbn [w_lock with_actor_lock] in Hb. rewrite LK in Hb. injection Hb as <-.
    cbn [w_actors with_actor_lock]. rewrite upd_same. reflexivity.
  - (* SRefused *) exact L.
  - (* SSteal: the rule needs Lease, L1 speaks of Excl *) intro LE. rewrite LK in LE. discriminate LE.
  - (* SValidate *) eapply (L1_kept c w _ a _ L); [reflexivity | reflexivity |]. intros _. destruct ok; reflexivity.
  - (* SMetaW *) eapply (L1_kept c w _ a _ L); reflexivity.
  - (* SFence *) eapply (L1_kept c w _ a _ L); [reflexivity | reflexivity |]. intros _. destruct ok; reflexivity.
  - (* SFlip *) eapply (L1_kept c w _ a _ L); reflexivity.
  - (* SFlipRefused *) eapply (L1_kept c w _ a _ L); reflexivity.
  - (* SRelease *) eapply (L1_dropped c w _ a _ L); reflexivity.
  - (* SRetry *) eapply (L1_dropped c w _ a _ L); reflexivity.
  - (* SAbort *) eapply (L1_dropped c w _ a _ L); reflexivity.
  - (* SCrash: under Excl the lock is dropped as in SAbort *)
    intro LK. eapply (L1_dropped c w _ a _ L); [cbn [w_lock with_actor_lock]; rewrite LK; reflexivity | reflexivity | exact LK].
Qed.

Lemma reach_L1 c m0 kind mr evs : L1 c (run c (init_world m0 kind mr) evs).
Proof. apply (run_skip_preserves _ _ (step c) (L1 c) (step_L1 c)). intros _ b H. discriminate H. Qed.

Lemma lock_free_when_idle c w :
  L1 c w -> lockkind c = Excl -> (forall a, lockpc (a_pc (w_actors w a)) = false) -> w_lock w = None.
Proof.
  intros L LK Idle. destruct (w_lock w) as [a|] eqn:E; auto. pose proof (L LK a E) as X. rewrite Idle in X. discriminate.
Qed.

Lemma stamp_eqb_refl m : stamp_eqb m m = true.
Proof. apply stamp_eqb_true. split; reflexivity. Qed.

Definition commit_script (b : aid) (ptr : vid) (now : Z) : list event :=
  [ {| e_actor := b; e_kind := EBegin ptr |}; {| e_actor := b; e_kind := ELockTry true |};
    {| e_actor := b; e_kind := EValidate ptr true |}; {| e_actor := b; e_kind := EMetaW now |};
    {| e_actor := b; e_kind := EFence true |}; {| e_actor := b; e_kind := EFlip true |};
    {| e_actor := b; e_kind := ERelease |} ].

Lemma run_strict_rule c w a s k evs i w1 r :
  w_actors w a = s -> Step c w a s k w1 -> run_strict c w1 evs (S i) = r ->
  run_strict c w ({| e_actor := a; e_kind := k |} :: evs) i = r.
Proof. intros <- H R. simpl. rewrite (Step_step _ _ _ _ _ H). exact R. Qed.

(* spells the world after a rule out as a record of components of the world before it, so that the
   terms stay small along a script *)
Ltac flat_world := unfold with_actor, with_actor_lock, set_pc, set_base, set_read, set_new, next_attempt;
  cbn [w_ptr w_files w_lock w_hist w_repl w_actors a_pc a_kind a_opid a_base a_cur a_etag a_new a_attempt a_maxr].

Lemma can_commit c w b now :
  a_pc (w_actors w b) = PIdle -> (lockkind c = GrantAll \/ w_lock w = None) ->
  exists w', run_strict c w (commit_script b (w_ptr w) now) 0 = inl w'
             /\ a_pc (w_actors w' b) = PDone Success
             /\ w_hist w' = w_hist w ++ [(length (w_files w), b)]
             /\ w_ptr w' = length (w_files w).
Proof.
  intros PC LF. eexists. split.
  - unfold commit_script.
    eapply run_strict_rule; [reflexivity | apply SBegin; [exact PC|reflexivity] | flat_world].
    eapply run_strict_rule; [apply upd_same | apply STake; [reflexivity|] | flat_world].
    { unfold lock_free_for. cbn [w_lock].
      destruct LF as [G|N]; [rewrite G; reflexivity | rewrite N; destruct (lockkind c); reflexivity]. }
    eapply run_strict_rule; [apply upd_same | apply SValidate; [reflexivity|reflexivity|] | flat_world].
    { (* it validates against the version it has just read *) symmetry. apply stamp_eqb_refl. }
    eapply run_strict_rule; [apply upd_same | apply SMetaW; reflexivity | flat_world].
    eapply run_strict_rule; [apply upd_same | apply SFence; [reflexivity|] | flat_world].
    { unfold holds. cbn [w_lock]. destruct (lockkind c); try reflexivity. symmetry. apply Nat.eqb_refl. }
    eapply run_strict_rule; [apply upd_same | apply SFlip; [reflexivity|] | flat_world].
    { cbn [w_ptr a_etag]. rewrite Nat.eqb_refl. destruct (cas c); reflexivity. }
    eapply run_strict_rule; [apply upd_same | apply SRelease; reflexivity | flat_world].
    reflexivity.
  - cbn [w_actors w_hist w_ptr]. rewrite upd_same. repeat split; reflexivity.
Qed.

(* the script of can_commit is the base read followed by the success path whose protocol actions are, by
   CommitGenProofs.model_path_*_regenerated, exactly the skeleton regenerated from MetadataManager.commit *)
Lemma commit_script_kinds b ptr now :
  map e_kind (commit_script b ptr now) = EBegin ptr :: success_events ptr now.
Proof. reflexivity. Qed.

Lemma success_events_actions casb v now : flat_map (actions_of casb) (success_events v now) = model_path casb.
Proof. reflexivity. Qed.

(* What a retry budget of m attempts promises of a committer's state (C01_conflict_retried): a conflict is reported only by
   the last attempt, and no attempt beyond the budget is started. *)
Definition within_budget (m : nat) (s : astate) : Prop :=
  a_maxr s = m /\ (a_pc s = PDone Conflict -> m <= S (a_attempt s))%nat /\ (a_attempt s = 0 \/ a_attempt s < m)%nat.

Lemma budget_frame m s s' :
  within_budget m s -> a_maxr s' = a_maxr s -> a_attempt s' = a_attempt s -> a_pc s' <> PDone Conflict ->
  within_budget m s'.
Proof. intros [R1 [R2 R3]] Em Ea Np. unfold within_budget. rewrite Em, Ea. split; [exact R1|]. split; [contradiction|exact R3]. Qed.

Lemma step_budget c m w e w' b : step c w e = Some w' -> within_budget m (w_actors w b) -> within_budget m (w_actors w' b).
Proof.
  intros H R. destruct (Nat.eq_dec b (e_actor e)) as [->|NE]; [|rewrite (step_others _ _ _ _ H b NE); exact R].
  destruct e as [a k]. cbn [e_actor] in *. apply step_Step in H.
  destruct H; cbn [w_actors with_actor with_actor_lock]; rewrite ?upd_same.
  (* every rule but SRetry keeps budget and attempt count, and does not report a conflict; immediate where the new pc is
     a constant *)
  all: try (solve [exact R | apply (budget_frame _ _ _ R); first [reflexivity | discriminate]]).
  - (* SValidate *) apply (budget_frame _ _ _ R); try reflexivity. destruct ok; discriminate.
  - (* SFence *) apply (budget_frame _ _ _ R); try reflexivity. destruct ok; discriminate.
  - (* SRetry: the release after a conflict spends one attempt, or reports when none is left *)
    destruct R as [R1 [R2 R3]]. unfold within_budget.
    destruct (Nat.ltb_spec (S (a_attempt (w_actors w a))) (a_maxr (w_actors w a))); cbn [a_pc a_attempt a_maxr set_pc next_attempt].
    + split; [exact R1|]. split; [discriminate|]. right. lia.
    + split; [exact R1|]. split; [intros _; lia|exact R3].
  - (* SAbort *) apply (budget_frame _ _ _ R); try reflexivity. destruct p; discriminate.
  - (* SCrash *) apply (budget_frame _ _ _ R); try reflexivity. destruct p; discriminate.
Qed.

Lemma conflict_reported_when_exhausted c m0 kind mr evs a :
  (0 < mr a)%nat ->
  let s := w_actors (run c (init_world m0 kind mr) evs) a in
  (a_attempt s < mr a)%nat /\ (a_pc s = PDone Conflict -> S (a_attempt s) = mr a).
Proof.
  intros P s.
  assert (B : within_budget (mr a) s).
  { apply (run_skip_preserves _ _ (step c) (fun w => within_budget (mr a) (w_actors w a))).
    - intros w e w' R St. exact (step_budget _ _ _ _ _ _ St R).
    - split; [reflexivity|split; [discriminate|left; reflexivity]]. }
  destruct B as [_ [R2 R3]]. split; [lia|]. intro X. specialize (R2 X). lia.
Qed.
