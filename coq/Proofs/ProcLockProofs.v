(* Proofs/ProcLockProofs.v -- the lock layer of Model/ProcLock.v refines Commit.v's exclusive lock under EVERY
   process topology when the kernel lock belongs to the open file description (flock).  (That it does not when the
   lock belongs to the process, POSIX record locks, is shown by the schedules of Props/C01.v, not here.)

   What comes before `Section Topology` is about lists of open descriptions and about updating the handles' states (hfd,
   lupd); the section fixes an arbitrary topology `proc : hid -> pid` and proves the invariant `inv` for every event list
   whose forks are quiescent (forks_quiescent), from which the theorems of Props/C01.v follow.  The statements are over
   the discipline `ByDescription`; `gen_disc_is_by_description` says that this is the discipline of the primitive the
   SOURCE uses (Gen/GenFileLock.v, regenerated on every run). *)
From Coq Require Import List Bool Arith Lia.
Require Import DS.Model.ProcLockBase DS.Gen.GenFileLock DS.Model.ProcLock DS.Proofs.ListFacts.
Import ListNotations.

Lemma gen_disc_is_by_description : gen_lock_disc = ByDescription.
Proof. reflexivity. Qed.

Lemma nodup_fst_inj (l : list (fdn * hid)) d a b :
  NoDup (map fst l) -> In (d, a) l -> In (d, b) l -> a = b.
Proof. intros ND Ha Hb. pose proof (NoDup_map_inj_in _ _ fst l (d, a) (d, b) ND Ha Hb eq_refl) as E. congruence. Qed.

Lemma opener_in (l : list (fdn * hid)) d h : NoDup (map fst l) -> In (d, h) l -> opener l d = Some h.
Proof.
  induction l as [|[d' h'] l IH]; simpl; intros ND Hin; [contradiction|].
  inversion ND as [|x xs Hnot ND']; subst.
  destruct Hin as [E|Hin].
  - inversion E; subst. rewrite Nat.eqb_refl. reflexivity.
  - destruct (Nat.eqb d' d) eqn:E.
    + apply Nat.eqb_eq in E. subst. exfalso. apply Hnot. change d with (fst (d, h)). apply in_map. exact Hin.
    + apply IH; assumption.
Qed.

Lemma opener_some_in (l : list (fdn * hid)) d h : opener l d = Some h -> In (d, h) l.
Proof.
  induction l as [|[d' h'] l IH]; simpl; intro H; [discriminate|].
  destruct (Nat.eqb d' d) eqn:E.
  - apply Nat.eqb_eq in E. inversion H; subst. left. reflexivity.
  - right. apply IH. exact H.
Qed.

Lemma in_close_ref (l : list (fdn * hid)) d h d' h' :
  In (d', h') (close_ref l d h) <-> In (d', h') l /\ ~ (d' = d /\ h' = h).
Proof.
  unfold close_ref. rewrite filter_In. simpl. rewrite negb_true_iff, andb_false_iff, !Nat.eqb_neq. split.
  - intros [H [N|N]]; (split; [exact H|]); intros [A B]; contradiction.
  - intros [H N]. split; [exact H|]. destruct (Nat.eq_dec d' d) as [->|Nd]; [|left; exact Nd].
    right. intros ->. apply N. split; reflexivity.
Qed.

Lemma still_open_false (l : list (fdn * hid)) d : still_open l d = false <-> forall h, ~ In (d, h) l.
Proof.
  unfold still_open. split.
  - intros E h Hin. assert (existsb (fun x => Nat.eqb (fst x) d) l = true); [|congruence].
    apply existsb_exists. exists (d, h). split; [exact Hin | simpl; apply Nat.eqb_refl].
  - intro N. destruct (existsb (fun x => Nat.eqb (fst x) d) l) eqn:E; [|reflexivity]. exfalso.
    apply existsb_exists in E. destruct E as [[d' h] [Hin E]]. simpl in E. apply Nat.eqb_eq in E. subst d'. exact (N h Hin).
Qed.

(* with one reference per description: the description survives a filter iff its reference does *)
Lemma still_open_filter_unique (f : fdn * hid -> bool) (l : list (fdn * hid)) d h :
  NoDup (map fst l) -> In (d, h) l -> still_open (filter f l) d = f (d, h).
Proof.
  intros ND Hin. destruct (f (d, h)) eqn:E.
  - unfold still_open. apply existsb_exists. exists (d, h). split; [apply filter_In; split; assumption | simpl; apply Nat.eqb_refl].
  - apply still_open_false. intros h' H'. apply filter_In in H'. destruct H' as [H' F'].
    assert (h' = h) by (apply (nodup_fst_inj l d); assumption). subst h'. congruence.
Qed.

Lemma still_open_close_ref (l : list (fdn * hid)) d h :
  NoDup (map fst l) -> In (d, h) l -> still_open (close_ref l d h) d = false.
Proof.
  intros ND Hin. unfold close_ref. rewrite (still_open_filter_unique _ l d h ND Hin). simpl. rewrite !Nat.eqb_refl. reflexivity.
Qed.

Definition hfd (x : hstate) : option fdn :=
  match x with HOpened d | HRefused d | HHeld d | HUnlocked d => Some d | HIdle | HDead => None end.

Lemma lupd_same f h x : lupd f h x h = x.
Proof. unfold lupd. rewrite Nat.eqb_refl. reflexivity. Qed.

Lemma lupd_other f h x k : k <> h -> lupd f h x k = f k.
Proof. intro N. unfold lupd. apply Nat.eqb_neq in N. rewrite N. reflexivity. Qed.

Lemma lupd_id (f : hid -> hstate) h x : f h = x -> forall k, lupd f h x k = f k.
Proof. intros E k. unfold lupd. destruct (Nat.eqb k h) eqn:Ek; [apply Nat.eqb_eq in Ek; subst k; symmetry; exact E | reflexivity]. Qed.

Section Topology.
Variable proc : hid -> pid.

Notation step := (lstep ByDescription proc).
Notation run := (lrun ByDescription proc).

(* i_lt     descriptions are numbered below l_next: the one KOpen makes is new
   i_nodup  one reference per description (sharing comes only with a non-quiescent fork): the close of it removes the
            description, so `close_release` and `owner_after_kill` are decided by that one reference
   i_fd, i_ref  the reference table is exactly the graph of the handles' descriptors (fd_unique; an idle handle has none)
   i_owner, i_held  the kernel's owner is the description of a handle that holds, and every handle that holds is the
            owner: with fd_unique, at most one holds (inv_exclusive) and the flag agrees with the kernel
            (inv_flag_iff_view) *)
Record inv (s : lstate) : Prop := {
  i_lt : forall d h, In (d, h) (l_open s) -> d < l_next s;
  i_nodup : NoDup (map fst (l_open s));
  i_fd : forall h d, hfd (l_h s h) = Some d -> In (d, h) (l_open s);
  i_ref : forall d h, In (d, h) (l_open s) -> hfd (l_h s h) = Some d;       (* every open descriptor is one a handle's program is using: an idle handle holds none *)
  i_owner : forall o, l_owner s = Some o -> exists d h, o = OwnD d /\ l_h s h = HHeld d;
  i_held : forall h d, l_h s h = HHeld d -> l_owner s = Some (OwnD d) }.

Lemma inv_init : inv linit.
Proof.
  constructor; simpl; intros; try contradiction; try discriminate. constructor.
Qed.

Lemma idle_no_descriptor s h d : inv s -> l_h s h = HIdle -> ~ In (d, h) (l_open s).
Proof. intros Iv Hi Hin. pose proof (i_ref s Iv d h Hin) as R. rewrite Hi in R. discriminate. Qed.

Lemma fd_unique s h1 h2 d : inv s -> hfd (l_h s h1) = Some d -> hfd (l_h s h2) = Some d -> h1 = h2.
Proof.
  intros Iv H1 H2. apply (nodup_fst_inj (l_open s) d); [apply Iv | apply Iv; exact H1 | apply Iv; exact H2].
Qed.

Lemma inv_exclusive_held s h1 h2 d1 d2 : inv s -> l_h s h1 = HHeld d1 -> l_h s h2 = HHeld d2 -> h1 = h2.
Proof.
  intros Iv H1 H2.
  pose proof (i_held s Iv h1 d1 H1) as O1. pose proof (i_held s Iv h2 d2 H2) as O2. rewrite O1 in O2. inversion O2; subst d2.
  apply (fd_unique s h1 h2 d1 Iv); [rewrite H1 | rewrite H2]; reflexivity.
Qed.

(* an attempt through a description that is not the owner's is granted only when nobody owns the lock *)
Lemma granted_unowned s h d :
  inv s -> l_h s h = HOpened d -> grants ByDescription proc (l_owner s) d h = true -> l_owner s = None.
Proof.
  intros Iv Eh G. destruct (l_owner s) as [o|] eqn:Eo; [|reflexivity]. exfalso.
  destruct (i_owner s Iv o Eo) as [d0 [h0 [-> Hh0]]]. simpl in G. apply Nat.eqb_eq in G. subst d0.
  assert (h0 = h) by (apply (fd_unique s h0 h d Iv); [rewrite Hh0 | rewrite Eh]; reflexivity).
  subst h0. rewrite Eh in Hh0. discriminate.
Qed.

(* What a handle that does not hold does with ITS description -- closing it after a refused attempt, closing it after
   its own unlock -- never releases the lock of another handle, in whatever process either of them lives: the close removes
   the description's one reference, and the description is not the owner's *)
Lemma close_release_not_holder s h d :
  inv s -> hfd (l_h s h) = Some d -> (forall d', l_h s h <> HHeld d') ->
  close_release ByDescription proc (l_owner s) (close_ref (l_open s) d h) d h = l_owner s.
Proof.
  intros Iv Hd Hn. unfold close_release, release_by.
  rewrite (still_open_close_ref (l_open s) d h (i_nodup s Iv) (i_fd s Iv h d Hd)).
  destruct (l_owner s) as [o|] eqn:Eo; [|reflexivity].
  destruct (i_owner s Iv o Eo) as [d0 [h0 [-> Hh0]]]. simpl.
  destruct (Nat.eqb d0 d) eqn:E; [|reflexivity].
  apply Nat.eqb_eq in E. subst d0. exfalso.
  assert (h0 = h) by (apply (fd_unique s h0 h d Iv); [rewrite Hh0; reflexivity | exact Hd]).
  subst h0. exact (Hn d Hh0).
Qed.

Lemma inherited_idle s h h' : inv s -> l_h s h = HIdle -> inherited (l_open s) h h' = [].
Proof.
  intros Iv Hi. unfold inherited.
  replace (filter (fun x => Nat.eqb (snd x) h) (l_open s)) with (@nil (fdn * hid)); [reflexivity|].
  symmetry. apply filter_all_false. intros [d k] Hin. simpl. apply Nat.eqb_neq. intros ->.
  exact (idle_no_descriptor s h d Iv Hi Hin).
Qed.

(* the topology already says where the twin lives *)
Lemma quiescent_fork_inherits_nothing s h h' s' :
  inv s -> l_h s h = HIdle -> step s (LFork h h') = Some s' ->
  l_open s' = l_open s /\ l_next s' = l_next s /\ l_owner s' = l_owner s /\ forall k, l_h s' k = l_h s k.
Proof.
  intros Iv Hi St. simpl in St. destruct (l_h s h') eqn:Eh'; try discriminate. rewrite Hi in St.
  destruct (negb (Nat.eqb (proc h) (proc h')) && negb (has_refs (l_open s) h')); [|discriminate].
  inversion St; subst s'; clear St. simpl. rewrite (inherited_idle s h h' Iv Hi), app_nil_r.
  repeat split. apply lupd_id. exact Eh'.
Qed.

(* ---- the invariant in two parts: the reference table is the graph of the handles' descriptors, and the kernel's
   owner is the description of the one handle that holds ---- *)
(* i_lt, i_nodup, and i_fd with i_ref as one equivalence *)
Definition tab_ok (l : list (fdn * hid)) (n : fdn) (f : hid -> hstate) : Prop :=
  (forall d h, In (d, h) l -> d < n) /\ NoDup (map fst l) /\ (forall h d, hfd (f h) = Some d <-> In (d, h) l).

(* i_owner and i_held *)
Definition own_ok (o : option lowner) (f : hid -> hstate) : Prop :=
  (forall o', o = Some o' -> exists d h, o' = OwnD d /\ f h = HHeld d) /\ (forall h d, f h = HHeld d -> o = Some (OwnD d)).

Lemma inv_parts s : inv s <-> tab_ok (l_open s) (l_next s) (l_h s) /\ own_ok (l_owner s) (l_h s).
Proof.
  split.
  - intros [A B C D E F]. repeat split; auto.
  - intros [(A & B & C) (E & F)]. constructor; auto; intros; apply C; assumption.
Qed.

(* the form in which the two "a quiescent fork inherits nothing" lemmas say that the state is the same *)
Lemma inv_ext s s' :
  inv s -> l_open s' = l_open s /\ l_next s' = l_next s /\ l_owner s' = l_owner s /\ (forall k, l_h s' k = l_h s k) -> inv s'.
Proof.
  intros Iv [E1 [E2 [E3 E4]]]. constructor; rewrite ?E1, ?E2, ?E3; try apply Iv.
  - (* i_fd *) intros h d. rewrite E4. apply Iv.
  - (* i_ref *) intros d h Hin. rewrite E4. apply Iv. exact Hin.
  - (* i_owner *) intros o Eo. destruct (i_owner s Iv o Eo) as [d [h [-> Hh]]]. exists d, h. rewrite E4. auto.
  - (* i_held *) intros h d. rewrite E4. apply Iv.
Qed.

Lemma tab_relabel l n f h x : tab_ok l n f -> hfd x = hfd (f h) -> tab_ok l n (lupd f h x).
Proof.
  intros (A & B & C) E. split; [exact A|split; [exact B|]].
  (* the table against the new states: h's descriptor is the one it had *)
  intros k d. destruct (Nat.eq_dec k h) as [->|N]; [rewrite lupd_same, E|rewrite lupd_other by exact N]; apply C.
Qed.

Lemma tab_open l n f h : tab_ok l n f -> f h = HIdle -> tab_ok ((n, h) :: l) (S n) (lupd f h (HOpened n)).
Proof.
  intros (A & B & C) Hi. split; [|split; [|intros k d; split]].
  - (* numbered below S n *) intros d k [E|Hin]; [inversion E; lia|pose proof (A d k Hin); lia].
  - (* n is a new description *)
    constructor; [|exact B]. intro Hin. apply in_map_iff in Hin. destruct Hin as [[d k] [E Hin]]. simpl in E. subst d.
    pose proof (A _ _ Hin). lia.
  - (* a handle's descriptor is in the table *)
    destruct (Nat.eq_dec k h) as [->|N]; [rewrite lupd_same|rewrite lupd_other by exact N].
    + intro E. inversion E. left. reflexivity.
    + intro E. right. apply C. exact E.
  - (* a reference is its handle's descriptor; h, idle, had none *)
    destruct (Nat.eq_dec k h) as [->|N]; [rewrite lupd_same|rewrite lupd_other by exact N]; intros [E|Hin].
    + inversion E. reflexivity.
    + apply C in Hin. rewrite Hi in Hin. discriminate.
    + inversion E. congruence.
    + apply C. exact Hin.
Qed.

Lemma tab_close l n f h d : tab_ok l n f -> hfd (f h) = Some d -> tab_ok (close_ref l d h) n (lupd f h HIdle).
Proof.
  intros (A & B & C) Hd. split; [|split; [|intros k d'; split]].
  - (* numbered below n *) intros d' k Hin. apply in_close_ref in Hin. apply (A d' k), Hin.
  - (* one reference per description *) apply NoDup_map_filter. exact B.
  - (* a handle's descriptor is in the table: h has none now, the others' are not the closed one *)
    destruct (Nat.eq_dec k h) as [->|N]; [rewrite lupd_same; discriminate|rewrite lupd_other by exact N].
    intro E. apply in_close_ref. split; [apply C; exact E|]. intros [_ E']. contradiction.
  - (* a reference that is left is its handle's descriptor; one of h would be of h's own description, the closed one *)
    intro Hin. apply in_close_ref in Hin. destruct Hin as [Hin Nd].
    destruct (Nat.eq_dec k h) as [->|N]; [|rewrite lupd_other by exact N; apply C; exact Hin].
    apply C in Hin. destruct Nd. split; congruence.
Qed.

Lemma own_other o f h x : own_ok o f -> (forall d, f h <> HHeld d) -> (forall d, x <> HHeld d) -> own_ok o (lupd f h x).
Proof.
  intros [E F] N1 N2. split.
  - intros o' Eo. destruct (E o' Eo) as [d [k [-> Hk]]]. exists d, k. split; [reflexivity|].
    rewrite lupd_other; [exact Hk|]. intros ->. exact (N1 d Hk).
  - intros k d. destruct (Nat.eq_dec k h) as [->|N]; [rewrite lupd_same; intro H; destruct (N2 d H)|rewrite lupd_other by exact N; apply F].
Qed.

(* a handle that does not hold closes its descriptor: after a refused attempt, after its own unlock *)
Lemma inv_close s h d : inv s -> hfd (l_h s h) = Some d -> (forall d', l_h s h <> HHeld d') ->
  inv {| l_open := close_ref (l_open s) d h; l_next := l_next s;
         l_owner := close_release ByDescription proc (l_owner s) (close_ref (l_open s) d h) d h;
         l_h := lupd (l_h s) h HIdle |}.
Proof.
  intros Iv Hd Hn. pose proof (proj1 (inv_parts s) Iv) as [T O]. apply inv_parts. cbn [l_open l_next l_owner l_h].
  split; [apply tab_close; assumption|].
  rewrite (close_release_not_holder s h d Iv Hd Hn). apply own_other; [exact O|exact Hn|discriminate].
Qed.

Lemma inv_step s e s' : inv s -> fork_quiescent s e -> step s e = Some s' -> inv s'.
Proof.
  intros Iv Q St. pose proof (proj1 (inv_parts s) Iv) as [T O]. destruct e as [h k|p|h h'].
  - (* LStep, by the primitive *)
    simpl in St.
    destruct k as [|ok| | |]; destruct (l_h s h) as [|d|d|d|d|] eqn:Eh; try discriminate.
    + (* KOpen *)
      inversion St; subst s'; clear St. apply inv_parts. simpl. split; [apply tab_open; assumption|].
      apply own_other; [exact O|rewrite Eh|]; discriminate.
    + (* KTry *)
      destruct (Bool.eqb ok (grants ByDescription proc (l_owner s) d h)) eqn:Eg; [|discriminate].
      apply eqb_prop in Eg. destruct ok; inversion St; subst s'; clear St; apply inv_parts; simpl;
        (split; [apply tab_relabel; [exact T|rewrite Eh; reflexivity]|]).
      * (* granted: nobody owned it, nobody held *)
        pose proof (granted_unowned s h d Iv Eh (eq_sym Eg)) as On.
        split.
        -- intros o Eo. inversion Eo. exists d, h. split; [reflexivity|apply lupd_same].
        -- intros k d'. destruct (Nat.eq_dec k h) as [->|N]; [rewrite lupd_same; congruence|rewrite lupd_other by exact N].
           intro Hk. pose proof (i_held s Iv k d' Hk). congruence.
      * (* refused *) apply own_other; [exact O|rewrite Eh|]; discriminate.
    + (* KCloseRefused *)
      inversion St; subst s'; clear St. apply (inv_close s h d Iv); rewrite Eh; [reflexivity|discriminate].
    + (* KUnlock: the one holder lets go *)
      inversion St; subst s'; clear St. apply inv_parts. simpl. split; [apply tab_relabel; [exact T|rewrite Eh; reflexivity]|].
      unfold release_by. rewrite (i_held s Iv h d Eh). simpl. rewrite Nat.eqb_refl. split; [discriminate|].
      intros k d'. destruct (Nat.eq_dec k h) as [->|N]; [rewrite lupd_same; discriminate|rewrite lupd_other by exact N].
      intro Hk. destruct N. apply (inv_exclusive_held s k h d' d Iv Hk Eh).
    + (* KClose *)
      inversion St; subst s'; clear St. apply (inv_close s h d Iv); rewrite Eh; [reflexivity|discriminate].
  - (* LKill *)
    simpl in St. inversion St; subst s'; clear St. unfold refs_after_kill. constructor; simpl.
    + (* i_lt *) intros d h Hin. apply filter_In in Hin. apply Iv with h. apply Hin.
    + (* i_nodup *) apply NoDup_map_filter. apply Iv.
    + (* i_fd *) intros h d Hd. destruct (in_proc proc p h) eqn:Ep; [discriminate|].
      apply filter_In. split; [apply Iv; exact Hd | simpl; rewrite Ep; reflexivity].
    + (* i_ref *) intros d h Hin. apply filter_In in Hin. destruct Hin as [Hin Ep]. simpl in Ep. apply negb_true_iff in Ep. rewrite Ep.
      apply Iv. exact Hin.
    + (* i_owner: the owner's one reference survives iff its handle's process does *)
      intros o Eo. unfold owner_after_kill, refs_after_kill in Eo. destruct (l_owner s) as [o0|] eqn:Eo0; [|discriminate].
      destruct (i_owner s Iv o0 Eo0) as [d0 [h0 [-> Hh0]]].
      rewrite (still_open_filter_unique _ (l_open s) d0 h0 (i_nodup s Iv)) in Eo by (apply Iv; rewrite Hh0; reflexivity).
      simpl in Eo. destruct (in_proc proc p h0) eqn:Ep; [discriminate|]. inversion Eo; subst o.
      exists d0, h0. split; [reflexivity|]. rewrite Ep. exact Hh0.
    + (* i_held *) intros h d Hd. destruct (in_proc proc p h) eqn:Ep; [discriminate|].
      unfold owner_after_kill, refs_after_kill. rewrite (i_held s Iv h d Hd).
      rewrite (still_open_filter_unique _ (l_open s) d h (i_nodup s Iv)) by (apply Iv; rewrite Hd; reflexivity).
      simpl. rewrite Ep. reflexivity.
  - (* LFork: quiescent, nothing is inherited *)
    exact (inv_ext s s' Iv (quiescent_fork_inherits_nothing s h h' s' Iv Q St)).
Qed.

Lemma inv_step_skip s e : inv s -> fork_quiescent s e -> inv (lstep_skip ByDescription proc s e).
Proof.
  intros Iv Q. unfold lstep_skip. destruct (step s e) as [s'|] eqn:E; [exact (inv_step s e s' Iv Q E) | exact Iv].
Qed.

Lemma inv_run evs : forall s, inv s -> forks_quiescent ByDescription proc s evs -> inv (run s evs).
Proof.
  induction evs as [|e evs IH]; intros s Iv Q; simpl; [exact Iv|]. destruct Q as [Q1 Q2].
  apply IH; [apply inv_step_skip; assumption | exact Q2].
Qed.

Lemma reach_inv evs : forks_quiescent ByDescription proc linit evs -> inv (run linit evs).
Proof. apply inv_run. apply inv_init. Qed.

Lemma inv_exclusive s h1 h2 : inv s -> lholds s h1 -> lholds s h2 -> h1 = h2.
Proof. intros Iv [d1 H1] [d2 H2]. exact (inv_exclusive_held s h1 h2 d1 d2 Iv H1 H2). Qed.

Lemma inv_flag_iff_view s h : inv s -> (lholds s h <-> lock_view s = Some h).
Proof.
  intro Iv. unfold lock_view. split.
  - intros [d Hd]. rewrite (i_held s Iv h d Hd). apply opener_in; [apply Iv | apply Iv; rewrite Hd; reflexivity].
  - intro V. destruct (l_owner s) as [o|] eqn:Eo; [|discriminate].
    destruct (i_owner s Iv o Eo) as [d0 [h0 [-> Hh0]]].
    assert (Op : opener (l_open s) d0 = Some h0) by (apply opener_in; [apply Iv | apply Iv; rewrite Hh0; reflexivity]).
    rewrite Op in V. inversion V; subst h0. exists d0. exact Hh0.
Qed.

Lemma view_none s : inv s -> (lock_view s = None <-> forall h, ~ lholds s h).
Proof.
  intro Iv. split.
  - intros V h Hh. apply (inv_flag_iff_view s h Iv) in Hh. rewrite V in Hh. discriminate.
  - intro N. destruct (lock_view s) as [h|] eqn:V; [|reflexivity]. exfalso. apply (N h). apply (inv_flag_iff_view s h Iv). exact V.
Qed.

Lemma view_kept s h x (o : list (fdn * hid)) n ow :
  let s' := {| l_open := o; l_next := n; l_owner := ow; l_h := lupd (l_h s) h x |} in
  inv s -> inv s' -> (forall d, l_h s h <> HHeld d) -> (forall d, x <> HHeld d) -> lock_view s' = lock_view s.
Proof.
  intros s' Iv Iv' N1 N2.
  assert (Hh : forall k, lholds s k <-> lholds s' k).
  { intro k. unfold lholds, s'. simpl. destruct (Nat.eq_dec k h) as [->|N]; [rewrite lupd_same|rewrite lupd_other by exact N; tauto].
    split; intros [d Hd]; [destruct (N1 d Hd)|destruct (N2 d Hd)]. }
  destruct (lock_view s) as [k|] eqn:V.
  - apply (inv_flag_iff_view s' k Iv'), Hh, (inv_flag_iff_view s k Iv), V.
  - apply (view_none s' Iv'). intros k H'. apply Hh, (inv_flag_iff_view s k Iv) in H'. rewrite V in H'. discriminate.
Qed.

Lemma step_view_effect s e s' : inv s -> fork_quiescent s e -> step s e = Some s' -> view_effect proc s e s'.
Proof.
  intros Iv Q St. pose proof (inv_step s e s' Iv Q St) as Iv'.
  destruct e as [h k|p|h h'].
  - (* LStep *) simpl in St.
    destruct k as [|ok| | |]; destruct (l_h s h) as [|d|d|d|d|] eqn:Eh; try discriminate.
    + (* KOpen *)
      inversion St; subst s'. simpl. apply view_kept; [exact Iv | exact Iv' | intro; rewrite Eh | intro]; discriminate.
    + (* KTry *)
      destruct (Bool.eqb ok (grants ByDescription proc (l_owner s) d h)) eqn:Eg; [|discriminate].
      apply eqb_prop in Eg. destruct ok.
      * (* granted *) inversion St; subst s'. simpl. split.
        -- unfold lock_view. rewrite (granted_unowned s h d Iv Eh (eq_sym Eg)). reflexivity.
        -- apply (inv_flag_iff_view _ h Iv'). exists d. simpl. apply lupd_same.
      * (* refused *) inversion St; subst s'. simpl. split.
        -- destruct (l_owner s) as [o|] eqn:Eo; [|discriminate Eg].
           destruct (i_owner s Iv o Eo) as [d0 [h0 [-> Hh0]]]. exists h0. split.
           ++ intros ->. rewrite Eh in Hh0. discriminate.
           ++ apply (inv_flag_iff_view s h0 Iv). exists d0. exact Hh0.
        -- reflexivity.
    + (* KCloseRefused *)
      inversion St; subst s'. simpl. apply view_kept; [exact Iv | exact Iv' | intro; rewrite Eh | intro]; discriminate.
    + (* KUnlock *)
      inversion St; subst s'. simpl. split.
      * apply (inv_flag_iff_view s h Iv). exists d. exact Eh.
      * unfold lock_view. simpl. unfold release_by. rewrite (i_held s Iv h d Eh). simpl. rewrite Nat.eqb_refl. reflexivity.
    + (* KClose *)
      inversion St; subst s'. simpl. apply view_kept; [exact Iv | exact Iv' | intro; rewrite Eh | intro]; discriminate.
  - (* LKill *) simpl in St.
    inversion St; subst s'. simpl.
    destruct (lock_view s) as [h|] eqn:V.
    + apply (inv_flag_iff_view s h Iv) in V. destruct V as [d Hd]. destruct (in_proc proc p h) eqn:Ep.
      * apply (view_none _ Iv'). intros h0 [d0 Hh0]. simpl in Hh0. destruct (in_proc proc p h0) eqn:Ep0; [discriminate|].
        assert (h0 = h) by (apply (inv_exclusive s h0 h Iv); [exists d0; exact Hh0 | exists d; exact Hd]).
        subst h0. rewrite Ep in Ep0. discriminate.
      * apply (inv_flag_iff_view _ h Iv'). exists d. simpl. rewrite Ep. exact Hd.
    + apply (view_none _ Iv'). intros h0 [d0 Hh0]. simpl in Hh0. destruct (in_proc proc p h0) eqn:Ep0; [discriminate|].
      apply (proj1 (view_none s Iv) V h0). exists d0. exact Hh0.
  - (* LFork: quiescent, the state is the same *)
    simpl in Q. destruct (quiescent_fork_inherits_nothing s h h' s' Iv Q St) as [E1 [E2 [E3 E4]]].
    simpl. unfold lock_view. rewrite E1, E3. reflexivity.
Qed.

Lemma step_keeps_holder s e s' h :
  step s e = Some s' -> lholds s h -> e <> LStep h KUnlock -> e <> LKill (proc h) -> lholds s' h.
Proof.
  intros St [d Hd] N1 N2. destruct e as [h0 k|p|h0 h']; simpl in St.
  - (* LStep *) destruct (Nat.eq_dec h0 h) as [->|N].
    + rewrite Hd in St. destruct k as [|ok| | |]; try discriminate. exfalso. apply N1. reflexivity.
    + exists d.
      (* every primitive but KTry: the new state is a record, h0 <> h; KTry's enabledness test is destructed first *)
      destruct k as [|ok| | |]; destruct (l_h s h0) as [|d0|d0|d0|d0|]; try discriminate;
        try (inversion St; subst s'; simpl; rewrite lupd_other by (intro; subst; apply N; reflexivity); exact Hd).
      destruct (Bool.eqb ok (grants ByDescription proc (l_owner s) d0 h0)); [|discriminate].
      destruct ok; inversion St; subst s'; simpl; (rewrite lupd_other by (intro; subst; apply N; reflexivity)); exact Hd.
  - (* LKill *) inversion St; subst s'. exists d. simpl. unfold in_proc. destruct (Nat.eqb (proc h) p) eqn:E; [|exact Hd].
    apply Nat.eqb_eq in E. subst p. exfalso. apply N2. reflexivity.
  - (* LFork: the twin is a new (idle) handle, not the holder *)
    destruct (l_h s h') eqn:Eh'; try discriminate.
    assert (Nh : h <> h') by (intros ->; rewrite Hd in Eh'; discriminate).
    exists d. destruct (l_h s h0); try discriminate;
      (destruct (negb (Nat.eqb (proc h0) (proc h')) && negb (has_refs (l_open s) h')); [|discriminate]);
      inversion St; subst s'; simpl; rewrite lupd_other by exact Nh; exact Hd.
Qed.

Lemma free_lock_is_granted s h :
  inv s -> l_h s h = HIdle -> lock_view s = None ->
  exists s', lrun_strict ByDescription proc s (map (LStep h) attempt_granted_events) 0 = inl s' /\ lholds s' h /\ lock_view s' = Some h.
Proof.
  intros Iv Hi V.
  assert (On : l_owner s = None).
  { destruct (l_owner s) as [o|] eqn:Eo; [|reflexivity]. exfalso.
    destruct (i_owner s Iv o Eo) as [d0 [h0 [-> Hh0]]].
    assert (lock_view s = Some h0) by (apply (inv_flag_iff_view s h0 Iv); exists d0; exact Hh0). congruence. }
  simpl. rewrite Hi. simpl. rewrite lupd_same. rewrite On. simpl. eexists. split; [reflexivity|].
  assert (Hh : lholds {| l_open := (l_next s, h) :: l_open s; l_next := S (l_next s); l_owner := Some (OwnD (l_next s));
                        l_h := lupd (lupd (l_h s) h (HOpened (l_next s))) h (HHeld (l_next s)) |} h).
  { exists (l_next s). simpl. apply lupd_same. }
  split; [exact Hh|].
  unfold lock_view. simpl. rewrite Nat.eqb_refl. reflexivity.
Qed.

End Topology.
