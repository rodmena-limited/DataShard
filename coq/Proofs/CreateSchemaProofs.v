(* Proofs/CreateSchemaProofs.v -- what the regenerated schema kernels compute for a table created with / without a
   schema (C18), and that Model/Schema.v's `resolve` is the regenerated `gen_append_schema`. *)
From Coq Require Import ZArith List Bool.
Require Import DS.Model.Schema DS.Gen.GenCreateSchema DS.Model.CreateSchema.
Import ListNotations.
Open Scope Z_scope.

Local Notation sresolve := DS.Model.Schema.resolve.

(* whatever its schema_id, the schema given at creation is the only one in v0 and the current one *)
Lemma v0_schemas_some s : v0_schemas (Some s) = ([s], sid s).
Proof. unfold v0_schemas, gen_init_schemas, gen_post_init. destruct (sid s =? 0); reflexivity. Qed.

Lemma table_schema_some s : has_fields s = true -> table_schema (Some s) = Some s.
Proof.
  intro H. unfold table_schema. rewrite v0_schemas_some. unfold gen_resolve_table_schema. simpl.
  rewrite Z.eqb_refl, H. reflexivity.
Qed.

Lemma table_schema_none arg : arg = None \/ (exists s, arg = Some s /\ has_fields s = false) -> table_schema arg = None.
Proof.
  intros [->|[s [-> H]]]; [reflexivity|]. unfold table_schema. rewrite v0_schemas_some. unfold gen_resolve_table_schema. simpl.
  rewrite H, andb_false_r. reflexivity.
Qed.

(* Model/Schema.v's hand-written resolution (C11's append machine) is the regenerated one *)
Lemma resolve_is_generated t arg :
  match sresolve t arg with
  | inl s => gen_append_schema ischema t arg = Some s
  | inr RejNoSchema => gen_append_schema ischema t arg = None /\ arg = None
  | inr _ => arg <> None
  end.
Proof.
  unfold DS.Model.Schema.resolve, gen_append_schema. destruct arg as [a|], t as [ts|]; try reflexivity; try (split; reflexivity).
  destruct (accept_schema (sfields ts) (sfields a)); [reflexivity | discriminate].
Qed.
