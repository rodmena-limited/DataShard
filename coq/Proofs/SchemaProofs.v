(* Proofs/SchemaProofs.v -- lemmas for property C11 over Model/Schema.v and Gen/GenSchema.v: the equality tests and
   the signature; the reference predicate `representable` and the admission test; the table-layout invariant Inv,
   kept by appends, with what it gives for scans; a rejected append leaves no trace (any table, no invariant); exact
   rows (under conv_sound); pruned filtered scans and stored bounds (composition with C13, Proofs/PruneProofs.v). *)
From Coq Require Import Qround Qabs List Bool Lia.
Require Import DS.Model.Value DS.Model.Prune DS.Gen.GenSchema DS.Model.Schema.
Require Import DS.Proofs.PruneProofs.
Require DS.Proofs.ListFacts.
Import ListNotations.
Open Scope Z_scope.

Lemma ptype_of_tag a : nth_error all_ptypes (Z.to_nat (ptype_tag a)) = Some a.
Proof. destruct a; reflexivity. Qed.

Lemma ptype_eqb_eq a b : ptype_eqb a b = true <-> a = b.
Proof.
  split; [|intros ->; apply Z.eqb_refl].
  intro H. apply Z.eqb_eq in H. pose proof (ptype_of_tag a) as E. rewrite H, ptype_of_tag in E. congruence.
Qed.

Lemma atype_eqb_eq a b : atype_eqb a b = true <-> a = b.
Proof.
  split; [|intros ->; apply Z.eqb_refl].
  destruct a, b; try reflexivity; intro H; destruct (diff_false_true H).
Qed.

Lemma ctype_eqb_eq a : forall b, ctype_eqb a b = true <-> a = b.
Proof.
  induction a as [t|e IH]; destruct b as [u|f]; simpl; try (split; discriminate).
  - rewrite ptype_eqb_eq. split; congruence.
  - rewrite IH. split; congruence.
Qed.

Lemma catype_eqb_eq a : forall b, catype_eqb a b = true <-> a = b.
Proof.
  induction a as [t|e IH]; destruct b as [u|f]; simpl; try (split; discriminate).
  - rewrite atype_eqb_eq. split; congruence.
  - rewrite IH. split; congruence.
Qed.

Lemma sigv_eqb_eq x y : sigv_eqb x y = true <-> x = y.
Proof.
  destruct x as [a|a|a sa|a], y as [b|b|b sb|b]; simpl; try (split; discriminate).
  - (* SVId *) rewrite Z.eqb_eq. split; congruence.
  - (* SVName *) rewrite Z.eqb_eq. split; congruence.
  - (* SVType *) rewrite andb_true_iff, ctype_eqb_eq, Z.eqb_eq. split; [intros [-> ->]; reflexivity | intros [= -> ->]; auto].
  - (* SVReq *) rewrite Bool.eqb_true_iff. split; congruence.
Qed.

Lemma list_eqb_eq {A} (eqb : A -> A -> bool) :
  (forall a b, eqb a b = true <-> a = b) -> forall x y, list_eqb eqb x y = true <-> x = y.
Proof.
  intros E. induction x as [|a x IH]; destruct y as [|b y]; simpl; try (split; discriminate); [split; reflexivity|].
  rewrite andb_true_iff, E, IH. split; [intros [-> ->]; reflexivity | intros [= -> ->]; auto].
Qed.

Lemma tuple_eqb_eq x y : tuple_eqb x y = true <-> x = y.
Proof. apply list_eqb_eq. apply sigv_eqb_eq. Qed.

Lemma afield_eqb_eq x y : afield_eqb x y = true <-> x = y.
Proof.
  destruct x as [[n1 t1] b1], y as [[n2 t2] b2]. simpl.
  rewrite !andb_true_iff, Z.eqb_eq, catype_eqb_eq, Bool.eqb_true_iff.
  split; [intros [[-> ->] ->]; reflexivity | intros [= -> -> ->]; auto].
Qed.

Lemma aschema_eqb_eq x y : aschema_eqb x y = true <-> x = y.
Proof. apply list_eqb_eq. apply afield_eqb_eq. Qed.

(* The two facts the rest of the development needs from Gen/GenSchema.v: the signature is an ORDERED
   list, and its tuple determines a field completely (id, name, type with its spelling, required). *)
Lemma sig_field_inj f g : sig_field f = sig_field g -> f = g.
Proof.
  unfold sig_field, sig_comps. simpl. intro H. destruct f, g. simpl in H. injection H as -> -> -> -> ->. reflexivity.
Qed.

Lemma accept_schema_eq t a : accept_schema t a = true <-> a = t.
Proof.
  unfold accept_schema, sig_eqb, sig_ordered. split.
  - intro H. apply (list_eqb_eq tuple_eqb tuple_eqb_eq) in H. unfold signature in H.
    apply (ListFacts.map_inj _ _ sig_field sig_field_inj) in H. exact H.
  - intros ->. apply (list_eqb_eq tuple_eqb tuple_eqb_eq). reflexivity.
Qed.

(* `representable t v`: the declared type t can hold the Python value v without altering it
   (None apart: nullability is a property of the field, not of the type).  Written from the
   property text, independently of the code's admission test value_fits.
   Ints offered to float / double columns are handed to pyarrow, which stores them only when exact:
   that side is part of conv_sound (the stored value is the number z itself). *)
Definition int_range (t : ptype) (z : Z) : Prop :=
  match t with T_int => - 2 ^ 31 <= z < 2 ^ 31 | _ => - 2 ^ 63 <= z < 2 ^ 63 end.

Definition representable (t : ptype) (v : pyval) : Prop :=
  match v with
  | PV VNull => True
  | POther => False
  | PList _ => False
  | PBytes _ => t = T_binary \/ t = T_fixed
  | PV w =>
    match t with
    | T_boolean => exists b, w = VBool b
    | T_int | T_long =>
      exists z, int_range t z /\ (w = VInt z \/ exists q, w = VFlt (Fin q) /\ (q == inject_Z z)%Q)
    | T_float =>
      (exists z, w = VInt z) \/ (exists f, w = VFlt f /\ match f with Fin q => (Qabs q < inject_Z (2 ^ 128 - 2 ^ 103))%Q | _ => True end)
    | T_double => (exists z, w = VInt z) \/ (exists f, w = VFlt f)
    | T_string | T_uuid => exists s, w = VStr s
    | T_date => exists d, w = VDate d
    | T_time => exists u, w = VTime u
    | T_timestamp => exists u, w = VTs u
    | T_binary | T_fixed => False
    end
  end.

Lemma f32_finite_abs q : f32_finite q = true -> (Qabs q < inject_Z (2 ^ 128 - 2 ^ 103))%Q.
Proof.
  unfold f32_finite, f32_limit. intro H.
  apply andb_true_iff in H. destruct H as [H N2]. apply andb_true_iff in H. destruct H as [H H2].
  apply andb_true_iff in H. destruct H as [H1 N1].
  apply Qle_bool_iff in H1, H2. apply negb_true_iff in N1, N2.
  apply Qabs_Qlt_condition. split; apply Qlt_leneq.
  - rewrite <- inject_Z_opp. split; [exact H2|]. intro E. symmetry in E. apply Qeq_bool_iff in E. congruence.
  - split; [exact H1|]. intro E. apply Qeq_bool_iff in E. congruence.
Qed.

Lemma in_range t z : (int_min t <=? z) && (z <=? int_max t) = true -> int_range t z.
Proof.
  assert (B : forall n, (- n <=? z) && (z <=? n - 1) = true -> - n <= z < n).
  { intros n H. apply andb_true_iff in H. destruct H as [H1 H2]. apply Z.leb_le in H1, H2. lia. }
  destruct t; exact (B _).
Qed.

Lemma integral_in_range t q : q_integral q && (int_min t <=? Qfloor q) && (Qfloor q <=? int_max t) = true ->
  exists z, int_range t z /\ (VFlt (Fin q) = VInt z \/ exists q', VFlt (Fin q) = VFlt (Fin q') /\ (q' == inject_Z z)%Q).
Proof.
  rewrite <- andb_assoc. intro H. apply andb_true_iff in H. destruct H as [H1 H2].
  exists (Qfloor q). split; [exact (in_range t _ H2)|]. right. exists q. split; [reflexivity|].
  apply Qeq_bool_iff. exact H1.
Qed.

Lemma fits_int t z : value_fits t (PV (VInt z)) = true -> representable t (PV (VInt z)).
Proof.
  destruct t; intro H; try discriminate H.
  - (* double *) left. exists z. reflexivity.
  - (* float *) left. exists z. reflexivity.
  - (* int *) exists z. split; [exact (in_range _ z H) | left; reflexivity].
  - (* long *) exists z. split; [exact (in_range _ z H) | left; reflexivity].
Qed.

Lemma fits_flt t f : value_fits t (PV (VFlt f)) = true -> representable t (PV (VFlt f)).
Proof.
  destruct t; intro H; try discriminate H.
  - (* double *) right. exists f. reflexivity.
  - (* float *) right. exists f. split; [reflexivity|]. destruct f; try exact I. exact (f32_finite_abs q H).
  - (* int *) destruct f as [q| | |]; try discriminate H. exact (integral_in_range _ q H).
  - (* long *) destruct f as [q| | |]; try discriminate H. exact (integral_in_range _ q H).
Qed.

Lemma fits_representable t v : value_fits t v = true -> representable t v.
Proof.
  destruct v as [w|bs| |l].
  - destruct w as [|b|z|f|s|u|d|u].
    + (* None *) intros _. exact I.
    + (* bool *) destruct t; intro H; try discriminate H. exists b. reflexivity.
    + (* int *) apply fits_int.
    + (* float *) apply fits_flt.
    + (* str: string and uuid columns *) destruct t; intro H; try discriminate H; exists s; reflexivity.
    + (* datetime *) destruct t; intro H; try discriminate H. exists u. reflexivity.
    + (* date *) destruct t; intro H; try discriminate H. exists d. reflexivity.
    + (* time *) destruct t; intro H; try discriminate H. exists u. reflexivity.
  - (* bytes: binary and fixed columns *) destruct t; intro H; try discriminate H; [left | right]; reflexivity.
  - (* any other object *) discriminate.
  - (* a list offered to a primitive column *) discriminate.
Qed.

Fixpoint representable_c (c : ctype) (v : pyval) : Prop :=
  match c with
  | CPrim t => representable t v
  | CList e => match v with PV VNull => True | PList l => Forall (representable_c e) l | _ => False end
  end.

Lemma fits_representable_c c : forall v, value_fits_c c v = true -> representable_c c v.
Proof.
  induction c as [t|e IH]; intros v H; simpl in *.
  - apply fits_representable. exact H.
  - destruct v as [[| | | | | | |]| | |l]; try discriminate; auto.
    apply Forall_forall. intros x Hx. apply IH. rewrite forallb_forall in H. exact (H x Hx).
Qed.

Lemma aschema_eqb_refl a : aschema_eqb a a = true.
Proof. apply aschema_eqb_eq. reflexivity. Qed.

Lemma scan_ok_same (A : aschema) files : (forall f, In f files -> df_arrow f = A) -> scan_ok files = true.
Proof.
  intro H. destruct files as [|f fs]; simpl; auto.
  apply forallb_forall. intros g Hg. rewrite (H g (or_intror Hg)), (H f (or_introl eq_refl)). apply aschema_eqb_refl.
Qed.

Lemma scans_same w1 w2 : w_schema w1 = w_schema w2 -> w_snaps w1 = w_snaps w2 ->
  full_scan w1 = full_scan w2 /\ (forall X fs, filtered_scan X fs w1 = filtered_scan X fs w2).
Proof. intros Hs Hn. unfold full_scan, filtered_scan, current. rewrite Hs, Hn. split; reflexivity. Qed.

(* The invariant of a table whose persisted schema is ts, with layout A = arrow_of (sfields ts): every Arrow
   schema any handle has cached and the footer of every published file is A; P is whatever else is to be shown
   of the published files.  Appends (below), transactions (SchemaTxProofs) and openings (SchemaOpenProofs)
   preserve it; scans of a world that satisfies it work. *)
Section Layout.
  Variable ts : ischema.
  Let T := sfields ts.
  Let A := arrow_of T.

  Definition cache_ok (c : cache) : Prop := forall k a, In (k, a) c -> a = A.

  Lemma resolve_fields arg s : resolve (Some ts) arg = inl s -> sfields s = T.
  Proof.
    unfold resolve. destruct arg as [a|].
    - destruct (accept_schema (sfields ts) (sfields a)) eqn:Acc; intros [= <-].
      apply accept_schema_eq in Acc. exact Acc.
    - intros [= <-]. reflexivity.
  Qed.

  (* the cache is keyed by schema_id only -- and still every answer is the table's Arrow schema *)
  Lemma create_ok c s : cache_ok c -> sfields s = T -> exists c', create_arrow_schema c s = (A, c') /\ cache_ok c'.
  Proof.
    intros C F. unfold create_arrow_schema. destruct (lookup (sid s) c) as [x|] eqn:L.
    - (* cache hit *) exists c. apply lookup_In in L. rewrite (C _ _ L). split; [reflexivity | exact C].
    - (* cache miss: derived from s and stored *) exists ((sid s, A) :: c). rewrite F. split; [reflexivity|].
      intros k b [[= _ <-]|Hin]; [reflexivity | exact (C _ _ Hin)].
  Qed.

  Lemma recheck_ok c : cache_ok c -> exists c2, recheck (Some ts) c A = (c2, true) /\ cache_ok c2.
  Proof.
    intro C. unfold recheck. destruct (create_ok c ts C eq_refl) as [c2 [-> C2]]. exists c2.
    rewrite aschema_eqb_refl. split; [reflexivity | exact C2].
  Qed.

  Variable P : dfile -> Prop.

  Definition stored (f : dfile) : Prop := df_arrow f = A /\ P f.

  Record Inv (w : world) : Prop := {
    inv_schema : w_schema w = Some ts;                                       (* arguments are checked against ts *)
    inv_caches : forall h c, In (h, c) (w_caches w) -> cache_ok c;           (* so every derived layout is A: derive_ok *)
    inv_files : forall snap f, In snap (w_snaps w) -> In f snap -> stored f  (* what the scans and bounds theorems use *)
  }.

  Lemma inv_init : Inv (init (Some ts)).
  Proof. constructor; simpl; auto; intros; contradiction. Qed.

  Lemma inv_current w f : Inv w -> In f (current w) -> stored f.
  Proof.
    intros Iv Hf. unfold current in Hf. destruct (w_snaps w) as [|s l] eqn:E; [destruct Hf|].
    apply (inv_files w Iv s f); [rewrite E; left; reflexivity | exact Hf].
  Qed.

  Lemma inv_scans w : Inv w -> scan_ok (current w) = true /\ full_scan w <> None.
  Proof.
    intro Iv. assert (Sc : scan_ok (current w) = true).
    { apply (scan_ok_same A). intros f Hf. exact (proj1 (inv_current w f Iv Hf)). }
    split; [exact Sc|]. unfold full_scan. rewrite Sc. discriminate.
  Qed.

  Lemma cache_of_ok w h : Inv w -> cache_ok (cache_of w h).
  Proof.
    intro Iv. unfold cache_of. destruct (lookup h (w_caches w)) as [c|] eqn:L.
    - apply lookup_In in L. exact (inv_caches w Iv h c L).
    - intros k a [].
  Qed.

  Lemma derive_ok w h arg s : Inv w -> resolve (Some ts) arg = inl s ->
    sfields s = T /\ exists c', create_arrow_schema (cache_of w h) s = (A, c') /\ cache_ok c'.
  Proof.
    intros Iv R. pose proof (resolve_fields _ _ R) as F. split; [exact F | exact (create_ok _ s (cache_of_ok w h Iv) F)].
  Qed.

  Lemma inv_set_cache w h c : Inv w -> cache_ok c -> Inv (set_cache w h c).
  Proof.
    intros Iv C. constructor; simpl; try apply Iv.
    intros h0 c0 [[= _ <-]|H]; [exact C | exact (inv_caches w Iv h0 c0 H)].
  Qed.

  Lemma inv_with_store w st n : Inv w ->
    Inv {| w_schema := w_schema w; w_snaps := w_snaps w; w_store := st; w_next := n; w_caches := w_caches w |}.
  Proof. intro Iv. constructor; simpl; apply Iv. Qed.

  Lemma inv_publish w fs st n : Inv w -> (forall f, In f fs -> stored f) ->
    Inv {| w_schema := w_schema w; w_snaps := (current w ++ fs) :: w_snaps w; w_store := st; w_next := n;
           w_caches := w_caches w |}.
  Proof.
    intros Iv Pf. constructor; simpl; try apply Iv.
    intros snap f [<-|H] Hf; [|exact (inv_files w Iv snap f H Hf)].
    apply in_app_or in Hf. destruct Hf as [Hf|Hf]; [exact (inv_current w f Iv Hf) | exact (Pf f Hf)].
  Qed.

  Variable conv : catype -> pyval -> option pyval.

  (* f is a data file as an accepted append of the records rs writes it on this table *)
  Definition writes (rs : list record) (f : dfile) : Prop :=
    df_arrow f = A /\ convert conv A rs = Some (df_rows f)
    /\ df_lo f = fst (bounds_for T A (df_rows f)) /\ df_hi f = snd (bounds_for T A (df_rows f)).

  Hypothesis P_records : forall rs f, writes rs f -> P f.

  (* Under the invariant the caches are invisible: an append computes with the table's layout, and the handle's
     cache only changes hands (c: the cache the handle is left with). *)
  Definition append_with (c : cache) (w : world) (e : event) : world * outcome :=
    match resolve (Some ts) (e_arg e) with
    | inr o => (w, o)
    | inl _ =>
      if forallb (validate_record T) (e_recs e) then
        let w1 := set_cache w (e_handle e) c in
        match convert conv A (e_recs e) with
        | None => (w1, RejConvert)
        | Some rows =>
          let (lo, hi) := bounds_for T A rows in
          let f := {| df_id := w_next w; df_arrow := A; df_rows := rows; df_lo := lo; df_hi := hi |} in
          if e_commit_ok e then
            ({| w_schema := w_schema w1; w_snaps := (current w1 ++ [f]) :: w_snaps w1; w_store := w_next w :: w_store w1;
                w_next := w_next w + 1; w_caches := w_caches w1 |}, Accepted)
          else
            ({| w_schema := w_schema w1; w_snaps := w_snaps w1; w_store := remove (w_next w) (w_next w :: w_store w1);
                w_next := w_next w + 1; w_caches := w_caches w1 |}, RejCommit)
        end
      else (w, RejRecords)
    end.

  Lemma step_append w e : Inv w -> exists c, cache_ok c /\ step conv w e = append_with c w e.
  Proof.
    intro Iv. assert (N : cache_ok []) by (intros k a []).
    unfold step, append_with. rewrite (inv_schema w Iv).
    destruct (resolve (Some ts) (e_arg e)) as [s|o] eqn:R; [|exists []; split; [exact N | reflexivity]].
    destruct (derive_ok w (e_handle e) _ s Iv R) as [F [c' [E Cc]]]. rewrite F, E.
    destruct (forallb (validate_record T) (e_recs e)); cbn [negb]; [|exists []; split; [exact N | reflexivity]].
    destruct (convert conv A (e_recs e)) as [rows|]; [|exists c'; split; [exact Cc | reflexivity]].
    destruct (bounds_for T A rows) as [lo hi]. destruct (recheck_ok c' Cc) as [c2 [-> Cc2]].
    exists c2. split; [exact Cc2|]. cbn [andb]. destruct (e_commit_ok e); reflexivity.
  Qed.

  Lemma step_inv w e : Inv w -> Inv (fst (step conv w e)).
  Proof.
    intro Iv. destruct (step_append w e Iv) as [c [C ->]]. unfold append_with.
    destruct (resolve (Some ts) (e_arg e)); [|exact Iv].
    destruct (forallb (validate_record T) (e_recs e)); [|exact Iv].
    pose proof (inv_set_cache w (e_handle e) c Iv C) as Iv1.
    destruct (convert conv A (e_recs e)) as [rows|] eqn:CV; [|exact Iv1].
    destruct (bounds_for T A rows) as [lo hi] eqn:B.
    destruct (e_commit_ok e); [|exact (inv_with_store _ _ _ Iv1)].
    apply (inv_publish _ _ _ _ Iv1). intros f [<-|[]]. split; [reflexivity|].
    apply (P_records (e_recs e)). split; [reflexivity|]. split; [exact CV | simpl; rewrite B; split; reflexivity].
  Qed.

  Lemma run_inv es : forall w, Inv w -> Inv (run conv w es).
  Proof. induction es as [|e es IH]; simpl; intros w Iv; [exact Iv | apply IH, step_inv, Iv]. Qed.
End Layout.

(* nothing more shown of the files than their layout *)
Definition any_dfile (f : dfile) : Prop := True.
Lemma any_records ts conv rs f : writes ts conv rs f -> any_dfile f.
Proof. intro. exact I. Qed.

(* the files of a history of appends alone *)
Definition file_ok ts conv (f : dfile) : Prop := exists rs, writes ts conv rs f.

Lemma run_written ts conv es : Inv ts (file_ok ts conv) (run conv (init (Some ts)) es).
Proof. apply run_inv; [intros rs f W; exists rs; exact W | apply inv_init]. Qed.

(* two schema arguments that declare the same: sstring, an attribute derived once at construction, is left free *)
Definition same_decl (a b : option ischema) : Prop :=
  match a, b with
  | None, None => True
  | Some x, Some y => sid x = sid y /\ sfields x = sfields y
  | _, _ => False
  end.

(* so that `simpl` in step_store leaves `remove (w_next w) (w_next w :: _)` as it is, for remove_fresh *)
Arguments remove : simpl never.

Lemma remove_fresh x l : ~ In x l -> remove x (x :: l) = l.
Proof.
  intro NI. unfold remove. simpl. rewrite Z.eqb_refl. simpl.
  apply ListFacts.filter_all_true. intros y Hy. apply negb_true_iff, Z.eqb_neq. intros ->. exact (NI Hy).
Qed.

(* A rejected append leaves no trace (C11_reject_no_trace): on every table, with or without a persisted schema, and
   for every conversion oracle -- no invariant is assumed here. *)
Section NoTrace.
  Variable conv : catype -> pyval -> option pyval.

  Definition store_fresh (w : world) : Prop := forall x, In x (w_store w) -> x < w_next w.

  (* file names are never reused, so the cleanup of a failed append removes exactly the file it wrote *)
  Lemma step_store w e : store_fresh w ->
    let '(w', o) := step conv w e in
    store_fresh w'
    /\ (o <> Accepted -> w_schema w' = w_schema w /\ w_snaps w' = w_snaps w /\ w_store w' = w_store w).
  Proof.
    intros Sf. unfold step.
    destruct (resolve (w_schema w) (e_arg e)) as [s|o']; [|auto].
    destruct (negb (forallb (validate_record (sfields s)) (e_recs e))); [auto|].
    destruct (create_arrow_schema (cache_of w (e_handle e)) s) as [a c'].
    destruct (convert conv a (e_recs e)) as [rows|]; [|split; [exact Sf | auto]].
    destruct (bounds_for (sfields s) a rows) as [lo hi].
    destruct (recheck (w_schema w) c' a) as [c2 ok].
    destruct (ok && e_commit_ok e); cbn [w_schema w_snaps w_store set_cache].
    - split; [|intro H; contradiction H; reflexivity].
      intros x [<-|H]; simpl; [lia | specialize (Sf x H); lia].
    - rewrite remove_fresh by (intro H; specialize (Sf _ H); lia).
      split; [|auto]. intros x H. specialize (Sf x H). simpl. lia.
  Qed.

  Lemma run_fresh es : forall w, store_fresh w -> store_fresh (run conv w es).
  Proof.
    induction es as [|e es IH]; simpl; intros w Sf; [exact Sf|].
    pose proof (step_store w e Sf) as St. destruct (step conv w e) as [w' o]. exact (IH w' (proj1 St)).
  Qed.
End NoTrace.

Lemma resolve_rejects t arg o : resolve t arg = inr o -> o <> Accepted.
Proof.
  unfold resolve. destruct arg as [a|], t as [s|]; try discriminate.
  - destruct (accept_schema (sfields s) (sfields a)); intros [= <-]; discriminate.
  - intros [= <-]. discriminate.
Qed.

Section Exact.
  Variable rnd32 : Q -> num.
  Variable conv : catype -> pyval -> option pyval.

  (* What is assumed of pyarrow: a value the library ADMITS (value_fits) is stored as canon, or the
     conversion raises.  Nothing is assumed about values the library refuses, nor about when pyarrow
     raises.  Validated against real pyarrow by the correspondence harness on every run. *)
  Definition conv_sound : Prop :=
    forall t v c, value_fits_c t v = true -> conv (arrow_of_ctype t) v = Some c -> c = canon_c rnd32 t v.

  Hypothesis CS : conv_sound.
  Variable ts : ischema.
  Let T := sfields ts.
  Let A := arrow_of T.

  (* the row a scan must return for a supplied record: every column of the table, in table order *)
  Definition canon_row (fs : list field) (r : record) : srow :=
    map (fun f => (fname f, canon_c rnd32 (ftype f) (rget r (fname f)))) fs.

  Lemma conv_row_canon r : forall fs row,
    forallb (fun f => value_fits_c (ftype f) (rget r (fname f))) fs = true ->
    conv_row conv (arrow_of fs) r = Some row -> row = canon_row fs r.
  Proof.
    induction fs as [|f fs IH]; simpl; intros row V H.
    - injection H as <-. reflexivity.
    - apply andb_true_iff in V. destruct V as [V1 V2].
      destruct (conv (arrow_of_ctype (ftype f)) (rget r (fname f))) as [c|] eqn:C; [|discriminate].
      destruct (conv_row conv (arrow_of fs) r) as [rest|] eqn:R; [|discriminate].
      injection H as <-. rewrite (CS _ _ _ V1 C). rewrite (IH rest V2 eq_refl). reflexivity.
  Qed.

  Lemma convert_canon : forall rs rows,
    forallb (validate_record T) rs = true -> convert conv A rs = Some rows -> rows = map (canon_row T) rs.
  Proof.
    induction rs as [|r rs IH]; simpl; intros rows V H.
    - injection H as <-. reflexivity.
    - apply andb_true_iff in V. destruct V as [V1 V2].
      destruct (conv_row conv A r) as [x|] eqn:X; [|discriminate].
      destruct (convert conv A rs) as [xs|] eqn:XS; [|discriminate].
      injection H as <-. unfold validate_record in V1. apply andb_true_iff in V1. destruct V1 as [_ V1].
      rewrite (conv_row_canon r T x V1 X). rewrite (IH xs V2 eq_refl). reflexivity.
  Qed.

  (* what the property demands of every accepted record *)
  Definition record_ok (r : record) : Prop :=
    (forall k v, In (k, v) r -> key_is_str k = true /\ has_field T k = true)
    /\ forall f, In f T -> (freq f = true -> is_none (rget r (fname f)) = false) /\ representable_c (ftype f) (rget r (fname f)).

  Lemma validate_record_ok r : validate_record T r = true -> record_ok r.
  Proof.
    unfold validate_record. intro H. apply andb_true_iff in H. destruct H as [H H3]. apply andb_true_iff in H. destruct H as [H H2].
    apply andb_true_iff in H. destruct H as [H0 H1].
    split.
    - intros k v Hin. rewrite forallb_forall in H0, H1. split; [exact (H0 (k, v) Hin) | exact (H1 (k, v) Hin)].
    - intros f Hf. rewrite forallb_forall in H2, H3. split.
      + intro Rq. specialize (H2 f Hf). rewrite Rq in H2. simpl in H2. apply negb_true_iff in H2. exact H2.
      + apply fits_representable_c. exact (H3 f Hf).
  Qed.

  (* the rows an event contributes, judged in the world the run has reached by then; `expected` below: those of a history *)
  Definition step_rows (w : world) (e : event) : list srow :=
    match snd (step conv w e) with Accepted => map (canon_row T) (e_recs e) | _ => [] end.

  Lemma step_exact P w e : Inv ts P w ->
    flat_map df_rows (current (fst (step conv w e))) = flat_map df_rows (current w) ++ step_rows w e
    /\ (snd (step conv w e) = Accepted -> forall r, In r (e_recs e) -> record_ok r).
  Proof.
    intro Iv. unfold step_rows. destruct (step_append ts P conv w e Iv) as [c [_ ->]].
    (* a rejected append leaves the current snapshot as it is *)
    assert (Rej : forall w' o, current w' = current w -> o <> Accepted ->
              flat_map df_rows (current w') = flat_map df_rows (current w)
                ++ match o with Accepted => map (canon_row T) (e_recs e) | _ => [] end
              /\ (o = Accepted -> forall r, In r (e_recs e) -> record_ok r)).
    { intros w' o -> N. split; [|intro; contradiction]. destruct o; try apply app_nil_end. contradiction N; reflexivity. }
    unfold append_with.
    destruct (resolve (Some ts) (e_arg e)) as [s|o] eqn:R; [|exact (Rej _ _ eq_refl (resolve_rejects _ _ _ R))].
    destruct (forallb (validate_record (sfields ts)) (e_recs e)) eqn:V; [|apply Rej; [reflexivity | discriminate]].
    destruct (convert conv (arrow_of (sfields ts)) (e_recs e)) as [rows|] eqn:CV; [|apply Rej; [reflexivity | discriminate]].
    destruct (bounds_for (sfields ts) (arrow_of (sfields ts)) rows) as [lo hi].
    destruct (e_commit_ok e); [|apply Rej; [reflexivity | discriminate]].
    cbn [fst snd]. split.
    - unfold current at 1. cbn [w_snaps]. rewrite flat_map_app. simpl. rewrite app_nil_r.
      rewrite (convert_canon _ _ V CV). reflexivity.
    - intros _ r Hr. apply validate_record_ok. rewrite forallb_forall in V. exact (V r Hr).
  Qed.

  Fixpoint expected (w : world) (es : list event) : list srow :=
    match es with
    | [] => []
    | e :: es' => step_rows w e ++ expected (fst (step conv w e)) es'
    end.

  Lemma run_exact (P : dfile -> Prop) (PR : forall rs f, writes ts conv rs f -> P f) es : forall w, Inv ts P w ->
    full_scan (run conv w es) = Some (flat_map df_rows (current w) ++ expected w es).
  Proof.
    induction es as [|e es IH]; simpl; intros w Iv.
    - rewrite app_nil_r. unfold full_scan. rewrite (proj1 (inv_scans ts P w Iv)). reflexivity.
    - rewrite (IH _ (step_inv ts P conv PR w e Iv)). rewrite (proj1 (step_exact P w e Iv)). rewrite app_assoc. reflexivity.
  Qed.
End Exact.

Definition kind_of_atype (a : atype) : kind :=
  match a with
  | A_bool_ => KBool | A_int32 | A_int64 => KInt | A_float32 | A_float64 => KFlt
  | A_string => KStr | A_binary => KStr | A_date32 => KDate | A_time64_us => KTime | A_timestamp_us => KTs
  end.
(* list cells carry no bounds and count as NULL for pruning (bval), like bytes: any kind will do *)
Definition kind_of_catype (a : catype) : kind := match a with APrim p => kind_of_atype p | AList _ => KStr end.

(* An Arrow column holds values of one kind: what pyarrow's conversion returns for an Arrow type is
   None or a value of that type's kind. *)
Definition conv_kinds (conv : catype -> pyval -> option pyval) : Prop :=
  forall a v c, conv a v = Some c -> has_kind (kind_of_catype a) (bval c) = true.

Lemma lookup_ids_some fs c i : lookup c (ids_of fs) = Some i -> exists f, In f fs /\ fname f = c /\ fid f = i.
Proof.
  induction fs as [|f fs IH]; simpl; intro H; [discriminate|].
  destruct (Z.eqb_spec c (fname f)) as [->|NE].
  - injection H as <-. exists f. auto.
  - destruct (IH H) as [g [G1 G2]]. exists g. auto.
Qed.

Lemma lookup_ids_in fs f : NoDup (map fname fs) -> In f fs -> lookup (fname f) (ids_of fs) = Some (fid f).
Proof.
  induction fs as [|g fs IH]; simpl; intros ND Hf; [contradiction|].
  inversion ND as [|? ? NI ND']; subst.
  destruct Hf as [->|Hf]; [rewrite Z.eqb_refl; reflexivity|].
  destruct (Z.eqb_spec (fname f) (fname g)) as [E|NE]; [|apply IH; auto].
  exfalso. apply NI. rewrite <- E. apply in_map. exact Hf.
Qed.

Lemma map_snd_ids fs : map snd (ids_of fs) = map fid fs.
Proof. unfold ids_of. rewrite map_map. reflexivity. Qed.

Lemma file_may_match_nobounds ids es : file_may_match [] [] ids es = true.
Proof. induction es as [|e es IH]; simpl; [reflexivity|]. destruct (lookup (fcol e) ids); exact IH. Qed.

Section Pruned.
  Variable conv : catype -> pyval -> option pyval.
  Hypothesis CK : conv_kinds conv.

  (* a column the schema does not have: its cell is VNull, which has every kind, so any default will do *)
  Fixpoint colkind (a : aschema) (c : Z) : kind :=
    match a with
    | [] => KInt
    | (n, t, _) :: a' => if c =? n then kind_of_catype t else colkind a' c
    end.

  Lemma cell_conv_row r c : forall a row, conv_row conv a r = Some row -> has_kind (colkind a c) (cell (vrow row) c) = true.
  Proof.
    induction a as [|[[n t] b] a IH]; simpl; intros row H.
    - injection H as <-. reflexivity.
    - destruct (conv t (rget r n)) as [cv|] eqn:C; [|discriminate].
      destruct (conv_row conv a r) as [rest|] eqn:R; [|discriminate].
      injection H as <-. unfold cell. simpl.
      destruct (Z.eqb_spec c n) as [->|NE]; [exact (CK _ _ _ C)|].
      exact (IH rest eq_refl).
  Qed.

  Lemma convert_rows a : forall rs rows, convert conv a rs = Some rows -> forall row, In row rows -> exists r, conv_row conv a r = Some row.
  Proof.
    induction rs as [|r rs IH]; simpl; intros rows H row Hin.
    - injection H as <-. contradiction.
    - destruct (conv_row conv a r) as [x|] eqn:X; [|discriminate].
      destruct (convert conv a rs) as [xs|] eqn:XS; [|discriminate].
      injection H as <-. destruct Hin as [->|Hin]; [exists r; exact X | exact (IH xs eq_refl row Hin)].
  Qed.

  Lemma converted_homogeneous a rs rows c : convert conv a rs = Some rows -> homogeneous (column (map vrow rows) c).
  Proof.
    intro H. exists (colkind a c). intros v Hv. unfold column in Hv. rewrite map_map in Hv.
    apply in_map_iff in Hv. destruct Hv as [row [E Hrow]]. subst v.
    destruct (convert_rows a rs rows H row Hrow) as [r Hr]. exact (cell_conv_row r c a row Hr).
  Qed.

  Variable ts : ischema.
  Let T := sfields ts.
  Let A := arrow_of T.
  Hypothesis NDn : NoDup (map fname T).
  Hypothesis NDi : NoDup (map fid T).

  (* what pruning needs of a stored file: its bounds are none at all, or computed from its content under the
     table's field ids; each of its columns holds values of one kind *)
  Definition prunable (f : dfile) : Prop :=
    ((df_lo f = fst (bounds_for T A (df_rows f)) /\ df_hi f = snd (bounds_for T A (df_rows f))) \/ (df_lo f = [] /\ df_hi f = []))
    /\ (forall c, homogeneous (column (map vrow (df_rows f)) c)).

  Lemma writes_prunable rs f : writes ts conv rs f -> prunable f.
  Proof.
    intros [_ [CV B]]. split; [left; exact B|]. intro c. exact (converted_homogeneous _ rs _ c CV).
  Qed.

  (* The bounds are stored under the ids of the columns that carry bounds and looked up under the table's whole
     name -> id map: ids are unique, so an id under which a bound is found is the id of the column the map names,
     and the bound is that column's. *)
  Lemma prunable_skipped X fs f : prunable f ->
    file_may_match (df_lo f) (df_hi f) (ids_of T) fs = false ->
    forall r, In r (map vrow (df_rows f)) -> row_selected X fs r = false.
  Proof.
    intros [[[E1 E2]|[E1 E2]] Hom] M; rewrite E1, E2 in M.
    2:{ rewrite file_may_match_nobounds in M. discriminate. }
    revert M. unfold bounds_for. apply may_match_sound. intros e _ cid fmin fmax L L1 L2.
    assert (NDs : NoDup (map snd (bound_ids T A))).
    { unfold bound_ids. rewrite map_snd_ids. apply ListFacts.NoDup_map_filter. exact NDi. }
    apply (stored_expr_sound X (bound_ids T A) _ e cid fmin fmax NDs Hom); [|exact L1|exact L2].
    destruct (lookup_ids_some _ _ _ L) as [g [Hg [En Ei]]].
    destruct (in_dec Z.eq_dec cid (map snd (bound_ids T A))) as [I|NI];
      [|rewrite (proj1 (file_bounds_absent _ _ cid NI)) in L1; discriminate L1].
    unfold bound_ids in *. rewrite map_snd_ids in I. apply in_map_iff in I. destruct I as [g' [Gi Hg']].
    assert (g' = g).
    { apply (ListFacts.NoDup_map_inj_in _ _ fid T _ _ NDi); [apply filter_In in Hg'; apply Hg' | exact Hg | congruence]. }
    subst g'. rewrite <- En, <- Ei. apply lookup_ids_in; [apply ListFacts.NoDup_map_filter; exact NDn | exact Hg'].
  Qed.

  Lemma inv_filter X fs w : Inv ts prunable w ->
    filtered_scan X fs w = Some (filter (row_selected X fs) (map vrow (flat_map df_rows (current w)))).
  Proof.
    intro Iv. unfold filtered_scan. rewrite (inv_schema ts _ w Iv), prune_filter. fold T.
    rewrite (scan_ok_same A).
    2:{ intros f Hf. apply filter_In in Hf. exact (proj1 (inv_current ts _ w f Iv (proj1 Hf))). }
    f_equal. rewrite ListFacts.filter_flat_map. apply (skip_files_equal (fun f => map vrow (df_rows f))).
    intros f Hf. exact (prunable_skipped X fs f (proj2 (inv_current ts _ w f Iv Hf))).
  Qed.
End Pruned.

Lemma has_col_arrow T g : In g T -> has_col (arrow_of T) (fname g) = true.
Proof.
  intro H. unfold has_col, arrow_of. apply existsb_exists. exists (fname g, arrow_of_ctype (ftype g), negb (freq g)).
  split; [apply in_map_iff; exists g; auto | simpl; apply Z.eqb_refl].
Qed.

Section BoundsExact.
  Variable conv : catype -> pyval -> option pyval.
  Variable ts : ischema.
  Let T := sfields ts.
  Let A := arrow_of T.
  Hypothesis NDn : NoDup (map fname T).
  Hypothesis NDi : NoDup (map fid T).

  Lemma file_bounds_exact rs f g : writes ts conv rs f -> In g T -> bounds_skipped_c (ftype g) = false ->
    match bounds_of (column (map vrow (df_rows f)) (fname g)) with
    | Some (mn, mx) => lookup (fid g) (df_lo f) = Some mn /\ lookup (fid g) (df_hi f) = Some mx
    | None => lookup (fid g) (df_lo f) = None /\ lookup (fid g) (df_hi f) = None
    end.
  Proof.
    intros [_ [_ [E1 E2]]] Hg Sk. rewrite E1, E2. unfold bounds_for. apply lookup_file_bounds.
    - unfold bound_ids. rewrite map_snd_ids. apply ListFacts.NoDup_map_filter. exact NDi.
    - unfold bound_ids. apply lookup_ids_in; [apply ListFacts.NoDup_map_filter; exact NDn|].
      apply filter_In. split; [exact Hg|]. rewrite (has_col_arrow (sfields ts) g Hg), Sk. reflexivity.
  Qed.

  Lemma file_bounds_true rs f g lo hi : conv_kinds conv -> writes ts conv rs f -> In g T ->
    lookup (fid g) (df_lo f) = Some lo -> lookup (fid g) (df_hi f) = Some hi -> bounds_skipped_c (ftype g) = false ->
    forall r, In r (df_rows f) -> ordinary (cell (vrow r) (fname g)) = true ->
    vle lo (cell (vrow r) (fname g)) /\ vle (cell (vrow r) (fname g)) hi.
  Proof.
    intros CK W Hg L1 L2 Sk r Hr Or. pose proof (file_bounds_exact rs f g W Hg Sk) as E.
    destruct (bounds_of (column (map vrow (df_rows f)) (fname g))) as [[mn mx]|] eqn:B.
    - destruct E as [E1 E2]. rewrite L1 in E1. rewrite L2 in E2. injection E1 as ->. injection E2 as ->.
      destruct W as [_ [Cv _]].
      pose proof (bounds_true _ _ _ (converted_homogeneous conv CK _ rs (df_rows f) (fname g) Cv) B) as [BT _].
      apply BT; [|exact Or]. apply (in_map (fun r0 => cell r0 (fname g))), in_map, Hr.
    - destruct E as [E1 _]. rewrite L1 in E1. discriminate.
  Qed.
End BoundsExact.
