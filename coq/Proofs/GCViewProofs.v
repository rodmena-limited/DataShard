(* Proofs/GCViewProofs.v -- Part 1: the content a reader gets from a retained snapshot (Model/GCView.v snap_view) is the same
   after every step of every sequential history of Model/GCHist.v, collections with arbitrary faults included.
   Rests on: every step keeps the body of what the retained snapshots reference (GCHistProofs.hstep_keeps: new files get
   fresh keys, ageing changes no body, a collection deletes nothing referenced), and a view reads nothing else
   (snap_view_keeps); the writer-form invariant (GCHistProofs.history_invariant) gives every retained snapshot a view.
   Part 2: the manifest lists a collection opens (Gen/GenGCRoots.v, regenerated from GarbageCollector.collect) are the lists
   of ALL retained snapshots, whatever their parent links and operation labels; they are the roots `norm_set tp snaps` of
   the hand-written collector model (Model/GC.v reach). *)
From Coq Require Import String List Bool.
Require Import DS.Model.PyStr DS.Gen.GenNorm DS.Model.GC DS.Model.GCHist DS.Model.GCView.
Require Import DS.Model.SnapRec DS.Gen.GenGCRoots.
Require Import DS.Proofs.ListFacts DS.Proofs.PyStrProofs DS.Proofs.GCProofs DS.Proofs.GCHistProofs.
Import ListNotations.
Open Scope string_scope.
Open Scope Z_scope.
Open Scope list_scope.

(* Model/Read.v declares the same fixpoint all_some; ReadProofs.all_some_ok is its Forall2 characterisation there *)
Lemma all_some_map_mono : forall (A B : Type) (f g : A -> option B) xs v,
  (forall x y, In x xs -> f x = Some y -> g x = Some y) -> all_some (map f xs) = Some v -> all_some (map g xs) = Some v.
Proof.
  intros A B f g xs. induction xs as [|x r IH]; intros v H E; simpl in *; [exact E|].
  destruct (f x) as [y|] eqn:Fx; [|discriminate].
  destruct (all_some (map f r)) as [ys|] eqn:Fr; [|discriminate].
  rewrite (H x y (or_introl eq_refl) Fx). rewrite (IH ys); [exact E| |reflexivity].
  intros x0 y0 Hin. apply H. right. exact Hin.
Qed.

Lemma all_some_total : forall (A B : Type) (f : A -> option B) xs,
  (forall x, In x xs -> exists y, f x = Some y) -> exists v, all_some (map f xs) = Some v.
Proof.
  intros A B f xs. induction xs as [|x r IH]; intro H; simpl; [eexists; reflexivity|].
  destruct (H x (or_introl eq_refl)) as [y ->]. destruct IH as [ys ->]; [intros x0 Hin; apply H; right; exact Hin|].
  eexists; reflexivity.
Qed.

Lemma snap_view_keeps : forall snaps a b l v, In l snaps -> nonempty l = true ->
  keeps a b (referenced snaps a) -> snap_view a l = Some v -> snap_view b l = Some v.
Proof.
  intros snaps a b l v Hl N K E. unfold snap_view in *.
  destruct (lookup (resolve l) a) as [ob|] eqn:L; [|discriminate].
  destruct (as_list (body ob)) as [ms|] eqn:B; [|discriminate].
  assert (LA: list_at a (resolve l) ms) by (exists ob; auto).
  destruct (K (resolve l) ob) as [ob' [L' B']]; [left; exists l; repeat split; auto|exact L|].
  rewrite L', B', B.
  eapply all_some_map_mono; [|exact E].
  intros m y Hm Em. apply filter_In in Hm. destruct Hm as [Hm Nm].
  unfold manifest_view in *.
  destruct (lookup (resolve m) a) as [ob2|] eqn:L2; [|discriminate].
  destruct (as_manifest (body ob2)) as [es|] eqn:B2; [|discriminate].
  destruct (all_some (map (data_view a) es)) as [ds|] eqn:D; [|discriminate].
  assert (MA: manifest_at a (resolve m) es) by (exists ob2; auto).
  destruct (K (resolve m) ob2) as [ob2' [L2' B2']]; [right; left; exists l, ms, m; repeat split; auto|exact L2|].
  rewrite L2', B2', B2.
  rewrite (all_some_map_mono _ _ (data_view a) (data_view b) es ds); [exact Em| |exact D].
  intros e z He Ez. unfold data_view in *.
  destruct (lookup (resolve e) a) as [ob3|] eqn:L3; [|discriminate].
  destruct (K (resolve e) ob3) as [ob3' [L3' B3']];
    [right; right; exists l, ms, m, es, e; repeat split; auto|exact L3|].
  rewrite L3', B3'. exact Ez.
Qed.

(* one half of `snapshot_present st l <-> exists v, snap_view st l = Some v` (the converse is not needed);
   snap_view_keeps walks the same three levels as GCHistProofs.snapshot_present_keeps *)
Lemma present_view : forall st l, nonempty l = true -> snapshot_present st l -> exists v, snap_view st l = Some v.
Proof.
  intros st l N P. destruct (P N) as [ms [[ob [L B]] H]]. unfold snap_view. rewrite L, B.
  apply all_some_total. intros m Hm. apply filter_In in Hm. destruct Hm as [Hm Nm].
  destruct (H m Hm Nm) as [es [[ob2 [L2 B2]] H2]]. unfold manifest_view. rewrite L2, B2.
  destruct (all_some_total _ _ (data_view st) es) as [ds ->]; [|eexists; reflexivity].
  intros e He. specialize (H2 e He). unfold present in H2. unfold data_view.
  destruct (lookup (resolve e) st) as [ob3|]; [eexists; reflexivity|contradiction].
Qed.

Lemma view_step : forall h op l v, hinv h -> In l (h_lists h) -> nonempty l = true ->
  snap_view (h_store h) l = Some v -> snap_view (h_store (hstep h op)) l = Some v.
Proof. intros h op l v [W _] Hl N. exact (snap_view_keeps _ _ _ l v Hl N (hstep_keeps h op W)). Qed.

(* manifest-list references of the model's writers are never empty *)
Definition lists_ne (h : hstate) : Prop := forall l, In l (h_lists h) -> nonempty l = true.

Lemma lists_ne_step : forall h op, lists_ne h -> lists_ne (hstep h op).
Proof.
  intros h op Ne. destruct (hstep_cases h op) as [news snaps' cur' _ _ _ SN| |]; [|exact Ne|exact Ne].
  (* a retained list is an old one or the reference a commit adds, a man_key *)
  intros l Hl. destruct (SN l Hl) as [Ho|[N _]]; [exact (Ne l Ho)|exact N].
Qed.

Lemma lists_ne_hist : forall ops, lists_ne (run_hist ops).
Proof. intro ops. apply (fold_left_preserves _ _ hstep lists_ne lists_ne_step). intros l []. Qed.

Lemma hinv_run : forall ops h, hinv h -> hinv (fold_left hstep ops h).
Proof. exact (fold_left_preserves _ _ hstep hinv hinv_step). Qed.

Lemma view_along : forall ops h l v, hinv h -> nonempty l = true -> retained_along h ops l ->
  snap_view (h_store h) l = Some v -> snap_view (h_store (fold_left hstep ops h)) l = Some v.
Proof.
  induction ops as [|op r IH]; intros h l v Hi N R E; simpl; [exact E|].
  destruct R as [Hl R]. apply IH; auto.
  - apply hinv_step. exact Hi.
  - apply view_step; assumption.
Qed.

(* every snapshot retained after a history has a content, and any continuation along which it stays retained -- one
   more step in particular -- leaves it as it is *)
Theorem retained_view_stable : forall (ops1 ops2 : list hop) (l : string),
  In l (h_lists (run_hist ops1)) -> retained_along (run_hist ops1) ops2 l ->
  exists v, snap_view (h_store (run_hist ops1)) l = Some v /\ snap_view (h_store (run_hist (ops1 ++ ops2))) l = Some v.
Proof.
  intros ops1 ops2 l Hl R. pose proof (history_invariant ops1) as Hi. pose proof (lists_ne_hist ops1 l Hl) as N.
  destruct (present_view _ _ N (proj2 Hi l Hl)) as [v E]. exists v. split; [exact E|].
  unfold run_hist. rewrite fold_left_app. apply view_along; assumption.
Qed.

(* `retained_along` decided by evaluation, for concrete histories *)
Fixpoint retained_alongb (h : hstate) (ops : list hop) (l : string) : bool :=
  match ops with
  | [] => true
  | op :: r => str_mem l (h_lists h) && retained_alongb (hstep h op) r l
  end.

Lemma retained_alongb_sound : forall ops h l, retained_alongb h ops l = true -> retained_along h ops l.
Proof.
  induction ops as [|op r IH]; intros h l E; simpl in *; [exact I|].
  apply andb_true_iff in E. destruct E as [E1 E2]. split; [apply str_mem_In; exact E1|apply IH; exact E2].
Qed.

Lemma in_set_add_str : forall x s k, In k (set_add_str x s) <-> In k s \/ k = x.
Proof.
  intros x s k. unfold set_add_str. destruct (str_mem x s) eqn:E.
  - apply str_mem_In in E. split; [auto|]. intros [H| ->]; assumption.
  - rewrite in_app_iff. simpl. split; [intros [H|[H|[]]]; auto|intros [H|H]; auto].
Qed.

Lemma gc_roots_step_spec : forall tp acc s k,
  In k (gc_roots_step tp acc s) <-> In k acc \/ (nonempty (sr_manifest_list s) = true /\ k = normalize_path tp (sr_manifest_list s)).
Proof.
  intros tp acc s k. unfold gc_roots_step. cbv zeta. destruct (nonempty (sr_manifest_list s)).
  - rewrite in_set_add_str. split; [intros [H|H]; auto|intros [H|[_ H]]; auto].
  - split; [auto|intros [H|[H _]]; [exact H|discriminate]].
Qed.

Lemma gc_roots_fold_spec : forall tp snaps acc k,
  In k (fold_left (gc_roots_step tp) snaps acc) <->
  In k acc \/ exists s, In s snaps /\ nonempty (sr_manifest_list s) = true /\ k = normalize_path tp (sr_manifest_list s).
Proof.
  intros tp snaps. induction snaps as [|s r IH]; intros acc k; simpl.
  - split; [auto|intros [H|[s [[] _]]]; exact H].
  - rewrite IH, gc_roots_step_spec. split.
    + intros [[H|[N E]]|[s0 [H1 H2]]]; [left; exact H|right; exists s; auto|right; exists s0; auto].
    + intros [H|[s0 [[<-|H1] H2]]]; [left; left; exact H|left; right; exact H2|right; exists s0; auto].
Qed.

(* the roots: exactly the normalised list of every retained snapshot that names one -- for ANY parents / operations *)
Theorem roots_every_snapshot : forall (tp : string) (snaps : list snaprec) (k : string),
  In k (gc_list_roots tp snaps) <->
  exists s, In s snaps /\ nonempty (sr_manifest_list s) = true /\ k = normalize_path tp (sr_manifest_list s).
Proof.
  intros tp snaps k. unfold gc_list_roots. rewrite gc_roots_fold_spec. split; [intros [[]|H]; exact H|auto].
Qed.

(* ... and they are the roots of the hand-written collector model: a function of the snapshots' manifest lists alone, whatever
   their ids, parents and operation labels (Props/C09.v C09_collect_roots_ignore_lineage) *)
Theorem roots_are_norm_set : forall (tp : string) (snaps : list snaprec) (k : string),
  In k (gc_list_roots tp snaps) <-> In k (norm_set tp (map sr_manifest_list snaps)).
Proof.
  intros tp snaps k. rewrite roots_every_snapshot. split.
  - intros [s [H1 [H2 ->]]]. apply in_norm_set; [apply in_map; exact H1|exact H2].
  - intro H. apply norm_set_inv in H. destruct H as [r [H1 [H2 ->]]]. apply in_map_iff in H1. destruct H1 as [s [<- Hs]]. exists s. auto.
Qed.

(* r_reach_lists = the lists whose reading was attempted *)
Lemma reach_lists : forall tp o snaps g,
  match fst (reach tp o snaps g) with RAbort _ rl _ => rl | ROk rl _ _ => rl end = norm_set tp snaps.
Proof.
  intros tp o snaps g. unfold reach. destruct (read_all WList o g (norm_set tp snaps)) as [[mp|] g1]; [|reflexivity].
  destruct (read_all WManifest o g1 (norm_set tp mp)) as [[en|] g2]; reflexivity.
Qed.

Lemma sweeps_reach_lists : forall tp grace now o rl rm rd prot g, r_reach_lists (sweeps tp grace now o rl rm rd prot g) = rl.
Proof.
  intros. unfold sweeps. destruct (sweep tp grace now _ o g DATA_PREFIX []) as [[[|] d1] g4]; [reflexivity|].
  destruct (sweep tp grace now _ o g4 MANIFESTS_PREFIX d1) as [[[|] d2] g5]; reflexivity.
Qed.

Lemma gc_run_from_reach_lists : forall mf tp grace now timeout o snaps g0,
  r_out (gc_run_from mf tp grace now timeout o snaps g0) <> Aborted PhMarkers ->
  r_reach_lists (gc_run_from mf tp grace now timeout o snaps g0) = norm_set tp snaps.
Proof.
  intros mf tp grace now timeout o snaps g0. unfold gc_run_from. destruct mf.
  - destruct (load_protection tp timeout now o g0) as [[prot|] g1]; [|cbn; congruence].
    pose proof (reach_lists tp o snaps g1) as E. destruct (reach tp o snaps g1) as [[ph rl rm|rl rm rd] g2]; cbn in E |- *.
    + intros _. exact E.
    + intros _. rewrite sweeps_reach_lists. exact E.
  - pose proof (reach_lists tp o snaps g0) as E. destruct (reach tp o snaps g0) as [[ph rl rm|rl rm rd] g1]; cbn in E |- *.
    + intros _. exact E.
    + destruct (load_protection tp timeout now o g1) as [[prot|] g2]; intros _; [rewrite sweeps_reach_lists|cbn]; exact E.
Qed.
