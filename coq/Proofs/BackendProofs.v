(* Proofs/BackendProofs.v -- the range reader (Model/Range.v, over the seek / readinto / readall kernels regenerated
   from the source, Gen/GenRange.v) is indistinguishable from a plain file and only ever requests bytes that exist;
   both backends refine the abstract store (Model/Backend.v); a key spelled with leading slashes is the same key in
   both backends (s3_step_abs, local_step_str_abs); the boolean forms of the hypotheses are sound ( *_sound). *)
From Coq Require Import List Bool Ascii String ZArith Lia.
Require Import DS.Model.Str DS.Gen.GenS3 DS.Gen.GenRange DS.Model.Range DS.Model.Backend DS.Model.BackendTrace
  DS.Proofs.ListFacts DS.Proofs.StrProofs.
Import ListNotations.
Local Arguments Ascii.eqb : simpl never.
Local Open Scope nat_scope.

Section Range.
  Context {A : Type}.
  Local Open Scope Z_scope.

  Lemma zlen_nonneg : forall (l : list A), 0 <= zlen l.
  Proof. intro l. unfold zlen. lia. Qed.

  Lemma zlen_zskipn : forall (l : list A) p, 0 <= p <= zlen l -> zlen (zskipn p l) = zlen l - p.
  Proof. intros l p H. unfold zlen, zskipn in *. rewrite skipn_length. lia. Qed.

  Lemma zskipn_past : forall (l : list A) p, zlen l <= p -> zskipn p l = [].
  Proof. intros l p H. unfold zlen, zskipn in *. apply skipn_all2. lia. Qed.

  Lemma zfirstn_clamp : forall (l : list A) n, 0 <= n -> zfirstn (Z.min n (zlen l)) l = zfirstn n l.
  Proof.
    intros l n H. unfold zfirstn, zlen. destruct (Z.le_ge_cases n (Z.of_nat (List.length l))) as [Hle|Hge].
    - rewrite Z.min_l by exact Hle. reflexivity.
    - rewrite Z.min_r by lia. rewrite Nat2Z.id, firstn_all. symmetry. apply firstn_all2. lia.
  Qed.

  Lemma zfirstn_all : forall (l : list A), zfirstn (zlen l) l = l.
  Proof. intro l. unfold zfirstn, zlen. rewrite Nat2Z.id. apply firstn_all. Qed.

  Lemma server_range_in : forall (content : list A) f l, in_range content (f, l) ->
    server_range content f l = Some (zfirstn (l - f + 1) (zskipn f content)).
  Proof.
    intros content f l [H1 [H2 H3]]. cbn [fst snd] in *. unfold server_range.
    replace ((0 <=? f) && (f <=? l) && (f <? zlen content)) with true; [reflexivity|].
    symmetry. rewrite !andb_true_iff, !Z.leb_le, Z.ltb_lt. lia.
  Qed.

  Lemma rf_seek_file : forall size pos off w, rf_seek size pos off w = do_seek (A := A) size pos off w.
  Proof.
    intros size pos off w. unfold rf_seek, do_seek, gen_rf_seek. destruct w; cbn [whence_code seek_target]; cbv zeta.
    - change (0 =? 0) with true. cbv iota. destruct (off <? 0); reflexivity.
    - change (1 =? 0) with false. change (1 =? 1) with true. cbv iota. destruct (pos + off <? 0); reflexivity.
    - change (2 =? 0) with false. change (2 =? 1) with false. change (2 =? 2) with true. cbv iota. destruct (size + off <? 0); reflexivity.
    - reflexivity.
  Qed.

  Lemma rf_step_equiv : forall (content : list A) pos o, 0 <= pos -> wf_rop o ->
    let '(pos', ob, rs) := rf_step content pos o in
    file_step content pos o = (pos', ob) /\ 0 <= pos' /\ Forall (in_range content) rs /\ (List.length rs <= 1)%nat.
  Proof.
    intros content pos o Hpos Ho. pose proof (zlen_nonneg content) as Hsz. unfold rf_step.
    destruct o as [off w|n| |]; cbn [rf_step_on file_step wf_rop] in *.
    - (* Seek *)
      rewrite rf_seek_file. unfold do_seek. destruct (seek_target (zlen content) pos off w) as [new|]; [|repeat split; auto].
      destruct (new <? 0) eqn:E; [repeat split; auto|]. apply Z.ltb_ge in E. repeat split; auto.
    - (* ReadInto *)
      unfold gen_rf_readinto. cbv zeta. rewrite Z.geb_leb.
      destruct (n =? 0) eqn:En; cbn [orb rf_get].
      + apply Z.eqb_eq in En. subst n. unfold zfirstn. simpl. rewrite Z.add_0_r. repeat split; auto.
      + apply Z.eqb_neq in En. destruct (zlen content <=? pos) eqn:Ep; cbn [rf_get].
        * apply Z.leb_le in Ep. rewrite (zskipn_past content pos Ep). unfold zfirstn. rewrite firstn_nil. simpl. rewrite Z.add_0_r.
          repeat split; auto.
        * apply Z.leb_gt in Ep.
          assert (in_range content (pos, Z.min (pos + n) (zlen content) - 1)) as Hin by (unfold in_range; simpl; lia).
          rewrite (server_range_in _ _ _ Hin).
          replace (Z.min (pos + n) (zlen content) - 1 - pos + 1) with (Z.min n (zlen (zskipn pos content)))
            by (rewrite zlen_zskipn by lia; lia).
          rewrite zfirstn_clamp by lia. split; [reflexivity|]. split; [pose proof (zlen_nonneg (zfirstn n (zskipn pos content))); lia|].
          split; [|simpl; lia]. constructor; [exact Hin|constructor].
    - (* ReadAll *)
      unfold gen_rf_readall. rewrite Z.geb_leb.
      destruct (zlen content <=? pos) eqn:Ep; cbn [rf_get].
      + apply Z.leb_le in Ep. rewrite (zskipn_past content pos Ep). simpl. rewrite Z.add_0_r. repeat split; auto.
      + apply Z.leb_gt in Ep.
        assert (in_range content (pos, zlen content - 1)) as Hin by (unfold in_range; simpl; lia).
        rewrite (server_range_in _ _ _ Hin).
        replace (zlen content - 1 - pos + 1) with (zlen (zskipn pos content)) by (rewrite zlen_zskipn by lia; lia).
        rewrite zfirstn_all. split; [reflexivity|]. split; [pose proof (zlen_nonneg (zskipn pos content)); lia|].
        split; [|simpl; lia]. constructor; [exact Hin|constructor].
    - (* Tell *)
      repeat split; auto.
  Qed.

  Lemma run_rf_equiv : forall (content : list A) prog pos, 0 <= pos -> Forall wf_rop prog ->
    let '(obs, final, rs) := run_rf content pos prog in
    run_file content pos prog = (obs, final) /\ Forall (in_range content) rs /\ (List.length rs <= List.length prog)%nat.
  Proof.
    intros content prog. unfold run_rf. induction prog as [|o prog IH]; intros pos Hpos Hwf; cbn [run_rf_on run_file].
    - repeat split; auto.
    - apply Forall_cons_iff in Hwf. destruct Hwf as [Ho Hwf'].
      pose proof (rf_step_equiv content pos o Hpos Ho) as Hs. unfold rf_step in Hs.
      destruct (rf_step_on (zlen content) (server_range content) pos o) as [[pos' ob] rs]. destruct Hs as [Hf [Hpos' [Hr Hl]]]. rewrite Hf.
      specialize (IH pos' Hpos' Hwf'). destruct (run_rf_on (zlen content) (server_range content) pos' prog) as [[obs final] rs'].
      destruct IH as [Hf' [Hr' Hl']]. rewrite Hf'. split; [reflexivity|]. split; [apply Forall_app; split; assumption|].
      rewrite app_length. simpl. lia.
  Qed.

  Theorem range_equiv : forall (content : list A) (prog : list rop), Forall wf_rop prog ->
    let '(obs, final, rs) := run_rf content 0 prog in
    run_file content 0 prog = (obs, final) /\ Forall (in_range content) rs /\ (List.length rs <= List.length prog)%nat.
  Proof. intros content prog H. apply run_rf_equiv; [lia|exact H]. Qed.
End Range.

Lemma key_eqb_eq : forall a b, key_eqb a b = true <-> a = b.
Proof. exact (eqbl_eq str_eqb str_eqb_eq). Qed.

Lemma key_eqb_refl : forall a, key_eqb a a = true.
Proof. intro a. apply key_eqb_eq. reflexivity. Qed.

Lemma kmem_In : forall k l, kmem k l = true <-> In k l.
Proof.
  induction l as [|a l IH]; simpl; [split; [discriminate|tauto]|].
  rewrite orb_true_iff, IH, key_eqb_eq. split; intros [H|H]; auto.
Qed.

Lemma wf_seg_nonempty : forall s, wf_seg s -> s <> [].
Proof. intros s H E. subst. discriminate H. Qed.

Lemma wf_seg_noslash : forall s, wf_seg s -> noslash s.
Proof.
  intros s H Hin. unfold wf_seg, wf_segb in H. rewrite !andb_true_iff in H. destruct H as [[[_ Hs] _] _].
  assert (existsb (Ascii.eqb slash) s = true) as E.
  { apply existsb_exists. exists slash. split; [exact Hin|apply Ascii.eqb_refl]. }
  rewrite E in Hs. discriminate Hs.
Qed.

Lemma join_last : forall k, Forall wf_seg k -> k <> [] -> exists y c, join k = y ++ [c] /\ Ascii.eqb slash c = false.
Proof.
  induction k as [|a k IH]; intros Hk Hne; [contradiction|]. apply Forall_cons_iff in Hk. destruct Hk as [Ha Hk'].
  destruct k as [|b k].
  - destruct (exists_last (wf_seg_nonempty a Ha)) as [y [c E]]. exists y, c. split; [exact E|].
    apply Ascii.eqb_neq. intro Ec. apply (wf_seg_noslash a Ha). rewrite E. apply in_or_app. right. left. congruence.
  - destruct (IH Hk' ltac:(discriminate)) as [y [c [E Hc]]]. rewrite join_cons2, E.
    exists (a ++ slash :: y), c. split; [rewrite <- app_assoc; reflexivity|exact Hc].
Qed.

Lemma not_dirlike : forall x k, wf_key k -> ends_with (x ++ join k) (lit "/") = false.
Proof.
  intros x k [Hne Hk]. destruct (join_last k Hk Hne) as [y [c [E Hc]]]. rewrite E, app_assoc. change (lit "/") with [slash].
  rewrite ends_with_snoc. exact Hc.
Qed.

Lemma lstrip_join : forall k, Forall wf_seg k -> lstrip_slash (join k) = join k.
Proof.
  intros [|a k] Hk; [reflexivity|]. apply Forall_cons_iff in Hk. destruct Hk as [Ha _].
  pose proof (wf_seg_noslash a Ha) as Hn. destruct a as [|c y]; [discriminate Ha|].
  destruct k; [|rewrite join_cons2]; apply lstrip_noslash; apply (noslash_cons c y Hn).
Qed.

Lemma components_join : forall k, Forall wf_seg k -> components (join k) = k.
Proof.
  unfold components. induction k as [|a k IH]; intro Hk; [reflexivity|]. apply Forall_cons_iff in Hk. destruct Hk as [Ha Hk'].
  destruct k as [|b k].
  - simpl. rewrite (split_acc_last a [] (wf_seg_noslash a Ha)). simpl.
    destruct a; [exfalso; exact (wf_seg_nonempty [] Ha eq_refl)|reflexivity].
  - rewrite join_cons2. rewrite (split_acc_seg a [] _ (wf_seg_noslash a Ha)). simpl rev. simpl app.
    rewrite (IH Hk'). destruct a; [exfalso; exact (wf_seg_nonempty [] Ha eq_refl)|reflexivity].
Qed.

Lemma join_inj : forall a b, Forall wf_seg a -> Forall wf_seg b -> join a = join b -> a = b.
Proof. intros a b Ha Hb E. rewrite <- (components_join a Ha), <- (components_join b Hb), E. reflexivity. Qed.

Lemma ltb_SS : forall n m, (S n <? S m)%nat = (n <? m)%nat.
Proof. reflexivity. Qed.

(* a directory as a listing Prefix spells it: nothing for the table root, "a/b/" for [a; b] *)
Definition dirstr (d : key) : str := match d with [] => [] | _ => join d ++ [slash] end.

Lemma dirstr_cons : forall a d, dirstr (a :: d) = a ++ slash :: dirstr d.
Proof. intros a [|b d]; [reflexivity|]. unfold dirstr. rewrite join_cons2, <- app_assoc. reflexivity. Qed.

(* a segment never matches part of another (starts_with_seg), and a key that ends inside d's spelling is too short
   (starts_with_seg_short) *)
Lemma dirstr_under : forall d, Forall wf_seg d -> forall k, Forall wf_seg k -> k <> [] ->
  starts_with (join k) (dirstr d) = under d k.
Proof.
  induction d as [|a d IH]; intros Hd k Hk Hne; [destruct k; [contradiction|reflexivity]|].
  apply Forall_cons_iff in Hd. destruct Hd as [Ha Hd']. pose proof (wf_seg_noslash a Ha) as Na. rewrite dirstr_cons.
  destruct k as [|b k]; [contradiction|]. apply Forall_cons_iff in Hk. destruct Hk as [Hb Hk']. pose proof (wf_seg_noslash b Hb) as Nb.
  unfold under. cbn [kprefix Datatypes.length]. rewrite ltb_SS. destruct k as [|c k].
  - simpl join. rewrite starts_with_seg_short by exact Nb. rewrite andb_false_r. reflexivity.
  - rewrite join_cons2, starts_with_seg by assumption. rewrite (IH Hd' (c :: k) Hk' ltac:(discriminate)).
    unfold under. rewrite andb_assoc. reflexivity.
Qed.

(* what gen_get_s3_key puts in front of every stripped path (get_key_join); it is Backend.table_root (table_root_eq) *)
Definition root (pfx : str) : str := if nonempty pfx then pfx ++ [slash] else [].

Lemma lit_slash : lit "/" = [slash].
Proof. reflexivity. Qed.

Lemma get_key_join : forall pfx k, Forall wf_seg k -> gen_get_s3_key pfx (join k) = root pfx ++ join k.
Proof.
  intros pfx k Hk. unfold gen_get_s3_key, root. cbv zeta. rewrite (lstrip_join k Hk), lit_slash.
  destruct (nonempty pfx); [rewrite <- app_assoc; reflexivity|reflexivity].
Qed.

Lemma get_key_not_dirlike : forall pfx k, wf_key k -> ends_with (gen_get_s3_key pfx (join k)) (lit "/") = false.
Proof. intros pfx k Hk. rewrite (get_key_join pfx k (proj2 Hk)). apply not_dirlike. exact Hk. Qed.

Lemma table_root_eq : forall pfx, table_root pfx = root pfx.
Proof.
  intro pfx. unfold table_root. change (@nil ascii) with (join []) at 1.
  rewrite (get_key_join pfx [] (Forall_nil _)). simpl. apply app_nil_r.
Qed.

Lemma nonempty_snoc : forall (x : str) c, nonempty (x ++ [c]) = true.
Proof. destruct x; reflexivity. Qed.

Lemma list_prefix_join : forall pfx d, Forall wf_seg d -> gen_list_prefix pfx (join d) = root pfx ++ dirstr d.
Proof.
  intros pfx d Hd. unfold gen_list_prefix. cbv zeta. rewrite (get_key_join pfx d Hd), lit_slash.
  destruct d as [|a d].
  - cbn [join dirstr]. rewrite app_nil_r. unfold root. destruct pfx as [|c p]; [reflexivity|].
    cbn [nonempty]. rewrite nonempty_snoc, ends_with_snoc, Ascii.eqb_refl. reflexivity.
  - destruct (join_last (a :: d) Hd ltac:(discriminate)) as [y [c [E Hc]]]. unfold dirstr. rewrite E.
    rewrite (app_assoc (root pfx) y [c]). rewrite nonempty_snoc, ends_with_snoc, Hc.
    simpl. rewrite <- !app_assoc. reflexivity.
Qed.

Lemma strip_root : forall pfx x, gen_strip_prefix pfx (root pfx ++ x) = x.
Proof.
  intros pfx x. unfold gen_strip_prefix, root. rewrite lit_slash. destruct (nonempty pfx) eqn:E; [|reflexivity].
  rewrite starts_with_app. cbn [andb]. unfold drop.
  replace (Datatypes.length pfx + 1) with (Datatypes.length (pfx ++ [slash])) by (rewrite app_length; reflexivity).
  rewrite skipn_app, skipn_all, Nat.sub_diag. reflexivity.
Qed.

(* an association list l kept inside a larger one: under mapped keys (fm), behind entries F that belong to others *)
Section RepAssoc.
  Context {K K' V : Type} (eqb : K -> K -> bool) (eqb' : K' -> K' -> bool) (f : K -> K').
  Definition fm (kv : K * V) : K' * V := (f (fst kv), snd kv).

  (* at key k, F ++ map fm l stands for l: the image of k is no key of F, and f reflects the comparison of k with the keys of l *)
  Definition faithful (k : K) (F : list (K' * V)) (l : list (K * V)) : Prop :=
    (forall k2, In k2 (map fst F) -> eqb' (f k) k2 = false) /\ (forall k2, In k2 (map fst l) -> eqb' (f k) (f k2) = eqb k k2).

  Lemma faithful_tl_F : forall k kv F l, faithful k (kv :: F) l -> faithful k F l.
  Proof. intros k kv F l [HF Hl]. split; [intros k2 H2; apply HF; right; exact H2|exact Hl]. Qed.

  Lemma faithful_tl : forall k kv l, faithful k [] (kv :: l) -> faithful k [] l.
  Proof. intros k kv l [HF Hl]. split; [exact HF|intros k2 H2; apply Hl; right; exact H2]. Qed.

  Lemma lookup_rep : forall k F l, faithful k F l -> lookup eqb' (f k) (F ++ map fm l) = lookup eqb k l.
  Proof.
    intros k. induction F as [|[k2 v] F IH]; intros l H; cbn [app lookup].
    - induction l as [|[k2 v] l IH]; cbn [map fm fst snd lookup]; [reflexivity|].
      rewrite (proj2 H k2 (or_introl eq_refl)), (IH (faithful_tl _ _ _ H)). reflexivity.
    - rewrite (proj1 H k2 (or_introl eq_refl)). exact (IH l (faithful_tl_F _ _ _ _ H)).
  Qed.

  Lemma upsert_rep : forall k v F l, faithful k F l -> upsert eqb' (f k) v (F ++ map fm l) = F ++ map fm (upsert eqb k v l).
  Proof.
    intros k v. induction F as [|[k2 v2] F IH]; intros l H; cbn [app upsert].
    - induction l as [|[k2 v2] l IH]; cbn [map fm fst snd upsert]; [reflexivity|].
      rewrite (proj2 H k2 (or_introl eq_refl)), (IH (faithful_tl _ _ _ H)). destruct (eqb k k2); reflexivity.
    - rewrite (proj1 H k2 (or_introl eq_refl)), (IH l (faithful_tl_F _ _ _ _ H)). reflexivity.
  Qed.

  Lemma remove_rep : forall k F l, faithful k F l -> remove eqb' (f k) (F ++ map fm l) = F ++ map fm (remove eqb k l).
  Proof.
    unfold remove. intros k. induction F as [|[k2 v2] F IH]; intros l H; cbn [app filter fst].
    - induction l as [|[k2 v2] l IH]; cbn [map fm fst snd filter]; [reflexivity|].
      rewrite (proj2 H k2 (or_introl eq_refl)), (IH (faithful_tl _ _ _ H)). destruct (eqb k k2); reflexivity.
    - rewrite (proj1 H k2 (or_introl eq_refl)), (IH l (faithful_tl_F _ _ _ _ H)). reflexivity.
  Qed.
End RepAssoc.

Section Assoc.
  Context {K V : Type} (eqb : K -> K -> bool).

  Lemma remove_absent : forall k (l : list (K * V)), lookup eqb k l = None -> remove eqb k l = l.
  Proof.
    unfold remove. induction l as [|[k2 v] l IH]; intro H; simpl in *; [reflexivity|].
    destruct (eqb k k2); [discriminate|]. simpl. f_equal. apply IH. exact H.
  Qed.

  Lemma upsert_keys : forall k v (l : list (K * V)) x, In x (map fst (upsert eqb k v l)) -> x = k \/ In x (map fst l).
  Proof.
    induction l as [|[k2 v2] l IH]; intros x H; simpl in *.
    - destruct H as [H|[]]; left; congruence.
    - destruct (eqb k k2); simpl in H.
      + destruct H as [H|H]; [left; congruence|right; right; exact H].
      + destruct H as [H|H]; [right; left; exact H|]. destruct (IH x H) as [E|E]; [left; exact E|right; right; exact E].
  Qed.

  Lemma remove_keys : forall k (l : list (K * V)) x, In x (map fst (remove eqb k l)) -> In x (map fst l).
  Proof.
    intros k l x H. unfold remove in H. apply in_map_iff in H. destruct H as [[k2 v] [E H]]. apply filter_In in H.
    apply in_map_iff. exists (k2, v). tauto.
  Qed.

  Lemma upsert_idem : (forall k, eqb k k = true) ->
    forall k v (l : list (K * V)), upsert eqb k v (upsert eqb k v l) = upsert eqb k v l.
  Proof.
    intros Hrefl k v. induction l as [|[k2 v2] l IH]; cbn [upsert].
    - rewrite Hrefl. reflexivity.
    - destruct (eqb k k2) eqn:E; cbn [upsert]; [rewrite Hrefl; reflexivity|]. rewrite E, IH. reflexivity.
  Qed.

  Lemma has_In : (forall a b, eqb a b = true -> a = b) ->
    forall k (l : list (K * V)), has eqb k l = true -> In k (map fst l).
  Proof.
    intros Heq k. unfold has. induction l as [|[k2 v] l IH]; simpl; [discriminate|].
    destruct (eqb k k2) eqn:E; [intros _; left; symmetry; exact (Heq _ _ E)|intro H; right; apply IH; exact H].
  Qed.
End Assoc.

(* one step of a history, with projections instead of the two destructuring lets *)
Lemma run_cons : forall {St Ev} (step : St -> Ev -> St * obs) s e es,
  run step s (e :: es) = (fst (run step (fst (step s e)) es), snd (step s e) :: snd (run step (fst (step s e)) es)).
Proof. intros St Ev step s e es. cbn [run]. destruct (step s e) as [s' o]. cbn [fst snd]. destruct (run step s' es). reflexivity. Qed.

Lemma run_app : forall {St Ev} (step : St -> Ev -> St * obs) es1 es2 s,
  run step s (es1 ++ es2) =
  (fst (run step (fst (run step s es1)) es2), snd (run step s es1) ++ snd (run step (fst (run step s es1)) es2)).
Proof.
  intros St Ev step. induction es1 as [|e es1 IH]; intros es2 s; cbn [app].
  - cbn [run fst snd app]. destruct (run step s es2); reflexivity.
  - rewrite !run_cons, IH. reflexivity.
Qed.

(* f spells an operation for the backend, P is what the step needs of it *)
Lemma run_sim : forall {St Ev} (step : St -> Ev -> St * obs) (f : op key -> Ev) (R : St -> store -> Prop) (P : op key -> Prop),
  (forall s st o, R s st -> P o -> R (fst (step s (f o))) (fst (spec_step st o)) /\ snd (step s (f o)) = snd (spec_step st o)) ->
  forall ops s st, R s st -> Forall P ops -> snd (run step s (map f ops)) = snd (run spec_step st ops).
Proof.
  intros St Ev step f R P Hstep. induction ops as [|o ops IH]; intros s st HR Hops; [reflexivity|].
  apply Forall_cons_iff in Hops. destruct Hops as [Ho Hops']. cbn [map]. rewrite !run_cons. cbn [snd].
  destruct (Hstep s st o HR Ho) as [HR' Eo]. rewrite Eo, (IH _ _ HR' Hops'). reflexivity.
Qed.

Definition wf_keys (st : store) : Prop := Forall wf_key (map fst st).

Lemma spec_step_wf_keys : forall st o, wf_keys st -> wf_op o -> wf_keys (fst (spec_step st o)).
Proof.
  intros st o Hst Ho. unfold wf_keys in *. rewrite Forall_forall in *.
  (* the operations that leave the store alone keep it as it is *)
  destruct o; cbn [spec_step fst wf_op] in *; try exact Hst; intros x Hx.
  - (* Write *)
    apply upsert_keys in Hx. destruct Hx as [->|Hx]; [exact Ho|exact (Hst x Hx)].
  - (* Delete *)
    apply remove_keys in Hx. exact (Hst x Hx).
  - (* WriteCas *)
    apply upsert_keys in Hx. destruct Hx as [->|Hx]; [exact Ho|exact (Hst x Hx)].
Qed.

(* gen_open_size_path / gen_open_key are open_seekable's wiring, regenerated from the source *)
Lemma s3_open_eq : forall pfx b p prog,
  s3_open pfx b p prog =
  match lookup str_eqb (gen_get_s3_key pfx p) b with
  | Some v => let '(os, final, rs) := run_rf v 0 prog in (OOpened os final, rs)
  | None => (OErr NotFound, [])
  end.
Proof.
  intros pfx b p prog. unfold s3_open, s3_get_size, gen_open_size_path, gen_open_key, s3_head_object.
  unfold s3_get_range, s3_get_object.
  (* with the key's entry known, the function that answers the ranged GETs is server_range of its content *)
  destruct (lookup str_eqb (gen_get_s3_key pfx p) b) as [v|]; reflexivity.
Qed.

(* "requesting only in-range bytes", one operation (s3_ranges_run carries this along a history) *)
Lemma s3_trace_ranges : forall page pfx b o, wf_op o -> Forall (ranged_ok b) (s3_trace page pfx b (map_op join o)).
Proof.
  intros page pfx b o Ho.
  destruct o as [k v|k|k|d|k|k|k|k prog|k|k v|k]; cbn [map_op s3_trace].
  (* only Open issues ranged GETs; every other request is ranged_ok by definition *)
  - (* Write: one PUT *)
    repeat constructor.
  - (* Read: GETs *)
    apply Forall_repeat. exact I.
  - (* Exists: a HEAD, perhaps a listing *)
    constructor; [exact I|]. destruct (has str_eqb _ _); [constructor|]. destruct (ends_with _ _); repeat constructor.
  - (* ListDir: one listing request per page *)
    apply Forall_repeat. exact I.
  - (* Delete: one DELETE *)
    repeat constructor.
  - (* Size: HEADs *)
    apply Forall_repeat. exact I.
  - (* Mtime: HEADs *)
    apply Forall_repeat. exact I.
  - (* Open: get_size's HEADs, then the reader's ranged GETs, which range_equiv puts inside the content the key holds *)
    destruct Ho as [_ Hprog]. apply Forall_app. split; [apply Forall_repeat; exact I|].
    rewrite s3_open_eq. unfold gen_open_key. destruct (lookup str_eqb (gen_get_s3_key pfx (join k)) b) as [v|] eqn:El; [|constructor].
    pose proof (range_equiv v prog Hprog) as Hr. destruct (run_rf v 0 prog) as [[os final] rs].
    destruct Hr as [_ [Hr _]]. cbn [snd]. apply Forall_forall. intros r Hin. apply in_map_iff in Hin.
    destruct Hin as [[f l] [<- Hin]]. cbn [ranged_ok fst snd]. exists v. split; [exact El|].
    rewrite Forall_forall in Hr. exact (Hr (f, l) Hin).
  - (* Stream: GETs *)
    apply Forall_repeat. exact I.
  - (* WriteCas: the tag's GETs, then one PUT *)
    apply Forall_app. split; [apply Forall_repeat; exact I|repeat constructor].
  - (* ReadTag: GETs *)
    apply Forall_repeat. exact I.
Qed.

Lemma s3_ranges_run : forall page pfx ops b, Forall wf_op ops -> ranges_in_objects page pfx b (map (map_op join) ops).
Proof.
  intros page pfx. induction ops as [|o ops IH]; intros b Hops; [exact I|].
  apply Forall_cons_iff in Hops. destruct Hops as [Ho Hops']. cbn [map ranges_in_objects].
  split; [apply s3_trace_ranges; exact Ho|apply IH; exact Hops'].
Qed.

Section S3.
  Variable pfx : str.
  Variable F : bucket.
  Hypothesis HF : foreign_ok pfx F.

  (* the S3 key of a canonical key *)
  Definition s3k (k : key) : str := root pfx ++ join k.
  Definition km : key * bytes -> str * bytes := fm s3k.
  (* the bucket that holds store st: the foreign objects, then st's own under their S3 keys *)
  Notation B st := (F ++ map km st).

  Lemma s3k_eqb : forall a b, Forall wf_seg a -> Forall wf_seg b -> str_eqb (s3k a) (s3k b) = key_eqb a b.
  Proof.
    intros a b Ha Hb. unfold s3k. destruct (key_eqb a b) eqn:E.
    - apply key_eqb_eq in E. subst. apply str_eqb_refl.
    - apply str_eqb_neq. intro H. apply app_inv_head in H. apply (join_inj a b Ha Hb) in H. subst.
      rewrite key_eqb_refl in E. discriminate.
  Qed.

  Lemma s3k_faithful : forall st k, wf_keys st -> wf_key k -> faithful key_eqb str_eqb s3k k F st.
  Proof.
    intros st k Hst [_ Hk]. split; intros k2 Hin.
    - (* a foreign key does not start with the table's root *)
      apply str_eqb_neq. intro E. pose proof (HF k2 Hin) as H. rewrite table_root_eq in H.
      rewrite <- E in H. unfold s3k in H. rewrite starts_with_app in H. discriminate.
    - unfold wf_keys in Hst. rewrite Forall_forall in Hst. apply s3k_eqb; [exact Hk|apply (Hst k2 Hin)].
  Qed.

  Lemma s3_lookup : forall st k, wf_keys st -> wf_key k ->
    lookup str_eqb (gen_get_s3_key pfx (join k)) (B st) = lookup key_eqb k st.
  Proof.
    intros st k Hst Hk. rewrite (get_key_join pfx k (proj2 Hk)). apply (lookup_rep key_eqb str_eqb s3k). apply s3k_faithful; assumption.
  Qed.

  Lemma s3_upsert : forall st k v, wf_keys st -> wf_key k ->
    upsert str_eqb (gen_get_s3_key pfx (join k)) v (B st) = B (upsert key_eqb k v st).
  Proof.
    intros st k v Hst Hk. rewrite (get_key_join pfx k (proj2 Hk)). apply (upsert_rep key_eqb str_eqb s3k). apply s3k_faithful; assumption.
  Qed.

  Lemma s3_remove : forall st k, wf_keys st -> wf_key k ->
    remove str_eqb (gen_get_s3_key pfx (join k)) (B st) = B (remove key_eqb k st).
  Proof.
    intros st k Hst Hk. rewrite (get_key_join pfx k (proj2 Hk)). apply (remove_rep key_eqb str_eqb s3k). apply s3k_faithful; assumption.
  Qed.

  Lemma list_prefix_selects : forall d k, Forall wf_seg d -> wf_key k ->
    starts_with (s3k k) (gen_list_prefix pfx (join d)) = under d k.
  Proof.
    intros d k Hd [Hne Hk]. rewrite (list_prefix_join pfx d Hd). unfold s3k. rewrite starts_with_app_cancel.
    apply dirstr_under; assumption.
  Qed.

  Lemma list_prefix_foreign : forall d k2, Forall wf_seg d -> In k2 (map fst F) ->
    starts_with k2 (gen_list_prefix pfx (join d)) = false.
  Proof.
    intros d k2 Hd Hin. pose proof (HF k2 Hin) as H. rewrite table_root_eq in H. rewrite (list_prefix_join pfx d Hd).
    destruct (starts_with k2 (root pfx ++ dirstr d)) eqn:E; [|reflexivity]. apply starts_with_weaken in E. congruence.
  Qed.

  Lemma s3_listing : forall st d, wf_keys st -> Forall wf_seg d ->
    map (gen_strip_prefix pfx) (s3_list_objects (B st) (gen_list_prefix pfx (join d)))
    = map join (filter (under d) (map fst st)).
  Proof.
    intros st d Hst Hd. unfold s3_list_objects. rewrite map_app, filter_app.
    rewrite (proj1 (filter_all_false _ _ (map fst F))) by (intros; apply list_prefix_foreign; assumption).
    simpl. induction st as [|[k v] st IH]; [reflexivity|].
    apply Forall_cons_iff in Hst. destruct Hst as [Hk Hst']. cbn [map fst km fm snd filter].
    rewrite (list_prefix_selects d k Hd Hk). destruct (under d k).
    - cbn [map]. unfold s3k at 1. rewrite strip_root. f_equal. apply IH. exact Hst'.
    - apply IH. exact Hst'.
  Qed.

  (* where an object is missing, the not-found code each closure tests for is the one the store answers (GenS3 / GenRange
     literals): that comparison is decided by computation once the store's answer is known *)
  Lemma s3_sim_step : forall st o, wf_keys st -> wf_op o ->
    s3_step pfx (B st) (map_op join o) = (B (fst (spec_step st o)), snd (spec_step st o)).
  Proof.
    intros st o Hst Ho.
    destruct o as [k v|k|k|d|k|k|k|k prog|k|k v|k]; cbn [map_op s3_step spec_step fst snd wf_op] in *;
      unfold s3_get_size, s3_get_object, s3_head_object, s3_put_object, s3_delete_object;
      (* Read, Size, Mtime, Stream, ReadTag: one GET / HEAD, answered from the key's entry *)
      try (rewrite (s3_lookup st k Hst Ho); destruct (lookup key_eqb k st); reflexivity).
    - (* Write *)
      rewrite (s3_upsert st k v Hst Ho). reflexivity.
    - (* Exists: a canonical key is not spelled as a directory, so no listing is consulted *)
      rewrite (s3_lookup st k Hst Ho). unfold has. destruct (lookup key_eqb k st); [reflexivity|].
      cbn [negb str_eqb]. rewrite (get_key_not_dirlike pfx k Ho). reflexivity.
    - (* ListDir *)
      rewrite (s3_listing st d Hst Ho). reflexivity.
    - (* Delete *)
      rewrite (s3_remove st k Hst Ho). reflexivity.
    - (* Open: the reader over the current content is a plain file over it *)
      destruct Ho as [Hk Hprog]. rewrite s3_open_eq, (s3_lookup st k Hst Hk). f_equal.
      destruct (lookup key_eqb k st) as [v|]; [|reflexivity]. unfold file_obs.
      pose proof (range_equiv v prog Hprog) as Hr. destruct (run_rf v 0 prog) as [[os final] rs].
      destruct Hr as [Hf _]. rewrite Hf. reflexivity.
    - (* WriteCas: the tag just read matches, so the conditional PUT lands like a plain one *)
      cbv zeta. unfold s3_put_if.
      replace (tag_matches _ _) with true
        by (destruct (lookup str_eqb _ (B st)); cbn [tag_matches]; [rewrite str_eqb_refl|]; reflexivity).
      rewrite (s3_upsert st k v Hst Ho). reflexivity.
  Qed.
End S3.

Theorem refine_s3 : forall (raw_prefix : str) (F : bucket) (ops : list (op key)),
  foreign_ok (gen_init_prefix raw_prefix) F -> Forall wf_op ops ->
  run_s3 raw_prefix F ops = run_spec ops.
Proof.
  intros raw F ops HF Hops. unfold run_s3, run_spec.
  apply (run_sim _ _ (fun b st => b = F ++ map (km (gen_init_prefix raw)) st /\ wf_keys st) wf_op).
  - intros b st o [-> Hst] Ho. rewrite (s3_sim_step _ F HF st o Hst Ho).
    split; [split; [reflexivity|apply spec_step_wf_keys; assumption]|reflexivity].
  - split; [symmetry; apply app_nil_r|constructor].
  - exact Hops.
Qed.

Lemma pp_under : forall k p, In p (proper_prefixes k) -> under p k = true.
Proof.
  induction k as [|a k IH]; intros p H; [destruct H|]. simpl in H. destruct k as [|b k]; [destruct H|].
  destruct H as [<-|H].
  - unfold under. simpl. rewrite str_eqb_refl. reflexivity.
  - apply in_map_iff in H. destruct H as [p' [<- Hp']]. specialize (IH p' Hp'). unfold under in *.
    cbn [kprefix Datatypes.length]. rewrite str_eqb_refl, ltb_SS. exact IH.
Qed.

Lemma under_pp : forall k d, under d k = true -> d = [] \/ In d (proper_prefixes k).
Proof.
  induction k as [|b k IH]; intros d H.
  - unfold under in H. destruct d; [left; reflexivity|discriminate].
  - destruct d as [|a d]; [left; reflexivity|]. right. unfold under in H. cbn [kprefix Datatypes.length] in H. rewrite ltb_SS in H.
    apply andb_true_iff in H. destruct H as [H Hl]. apply andb_true_iff in H. destruct H as [Hab Hp].
    apply str_eqb_eq in Hab. subst b.
    destruct (IH d) as [->|Hin]; [unfold under; rewrite Hp, Hl; reflexivity| |].
    + destruct k as [|c k]; [discriminate|]. left. reflexivity.
    + destruct k as [|c k]; [destruct Hin|]. right. apply in_map. exact Hin.
Qed.

Lemma add_dirs_In : forall ps dirs p, In p (add_dirs ps dirs) <-> In p ps \/ In p dirs.
Proof.
  induction ps as [|q ps IH]; intros dirs p; simpl; [tauto|]. rewrite IH.
  destruct (kmem q dirs) eqn:E.
  - apply kmem_In in E. split; [tauto|]. intros [[<-|H]|H]; auto.
  - rewrite in_app_iff. simpl. tauto.
Qed.

(* what the local backend's state keeps while a history writes keys of KS only: every file is a key of KS, every
   directory lies above a key of KS (so, KS being prefix-free, no directory is a key and no key lies below a file), and
   the directories above every file exist *)
Definition dirs_ok (KS : list key) (dirs : list key) : Prop :=
  forall p, In p dirs -> exists k, In k KS /\ under p k = true.

Definition linv (KS : list key) (s : lstate) : Prop :=
  (forall k, In k (map fst (lfiles s)) -> In k KS)
  /\ dirs_ok KS (ldirs s)
  /\ (forall k p, In k (map fst (lfiles s)) -> In p (proper_prefixes k) -> In p (ldirs s)).

Section Local.
  Variable KS : list key.
  Hypothesis Hpf : prefix_free KS.

  Lemma no_dir : forall dirs k, dirs_ok KS dirs -> In k KS -> kmem k dirs = false.
  Proof.
    intros dirs k Hd Hk. destruct (kmem k dirs) eqn:E; [|reflexivity]. apply kmem_In in E.
    destruct (Hd k E) as [k' [Hk' Hu]]. rewrite (Hpf k k' Hk Hk') in Hu. discriminate.
  Qed.

  Lemma not_below_file : forall s k, linv KS s -> In k KS -> below_file s k = false.
  Proof.
    intros s k [Hf _] Hk. unfold below_file. destruct (existsb (is_file s) (proper_prefixes k)) eqn:E; [|reflexivity].
    apply existsb_exists in E. destruct E as [p [Hp Hfile]]. apply (has_In key_eqb (fun a b => proj1 (key_eqb_eq a b))) in Hfile.
    pose proof (pp_under k p Hp) as Hu. rewrite (Hpf p k (Hf p Hfile) Hk) in Hu. discriminate.
  Qed.

  Lemma local_write_sim : forall s k v, linv KS s -> k <> [] -> In k KS ->
    let s' := {| lfiles := upsert key_eqb k v (lfiles s); ldirs := add_dirs (proper_prefixes k) (ldirs s) |} in
    local_write s k v = (s', OUnit) /\ linv KS s'.
  Proof.
    intros s k v Hi Hne HkKS. pose proof Hi as [Hf [Hd Hp]].
    assert (dirs_ok KS (add_dirs (proper_prefixes k) (ldirs s))) as Hd'.
    { intros p Hp'. apply add_dirs_In in Hp'. destruct Hp' as [Hp'|Hp']; [|apply Hd; exact Hp'].
      exists k. split; [exact HkKS|apply pp_under; exact Hp']. }
    split.
    - unfold local_write. rewrite (not_below_file s k Hi HkKS). unfold is_dir. cbn [ldirs].
      destruct k; [contradiction|]. rewrite (no_dir _ _ Hd' HkKS). reflexivity.
    - split; [|split]; cbn [lfiles ldirs].
      + intros x Hx. apply upsert_keys in Hx. destruct Hx as [->|Hx]; [exact HkKS|apply Hf; exact Hx].
      + exact Hd'.
      + intros x p Hx Hpp. apply add_dirs_In. apply upsert_keys in Hx.
        destruct Hx as [->|Hx]; [left; exact Hpp|right; eapply Hp; eassumption].
  Qed.

  (* a probe may name ANY well-formed key: a written key, a directory of one, a path below one, or nothing *)
  Lemma local_sim_step : forall s o, linv KS s -> wf_op o -> (forall k, In k (op_written o) -> In k KS) ->
    lfiles (fst (local_step s o)) = fst (spec_step (lfiles s) o) /\ snd (local_step s o) = snd (spec_step (lfiles s) o)
    /\ linv KS (fst (local_step s o)).
  Proof.
    intros s o Hi Ho Hin. pose proof Hi as [Hf [Hd Hp]].
    destruct o as [k v|k|k|d|k|k|k|k prog|k|k v|k]; cbn [local_step spec_step fst snd wf_op op_written] in *;
      (* the operations that only look the key up answer from lfiles as the spec does from its store *)
      try (split; [reflexivity|split; [reflexivity|exact Hi]]).
    - (* Write *)
      destruct (local_write_sim s k v Hi (proj1 Ho) (Hin k (or_introl eq_refl))) as [E Hi']. rewrite E. auto.
    - (* ListDir: a directory that does not exist has no key below it *)
      split; [reflexivity|]. split; [|exact Hi]. destruct (is_dir s d) eqn:E; [reflexivity|].
      rewrite (proj1 (filter_all_false _ (under d) (map fst (lfiles s)))); [reflexivity|].
      intros x Hx. destruct (under d x) eqn:Eu; [|reflexivity]. apply under_pp in Eu. destruct Eu as [->|Hpp]; [discriminate E|].
      pose proof (Hp x d Hx Hpp) as Hdir. unfold is_dir in E. destruct d; [discriminate|]. apply kmem_In in Hdir. congruence.
    - (* Delete *)
      unfold is_file, has. destruct (lookup key_eqb k (lfiles s)) eqn:El; cbn [fst snd lfiles].
      + split; [reflexivity|]. split; [reflexivity|]. split; [|split]; cbn [lfiles ldirs].
        * intros x Hx. apply remove_keys in Hx. apply Hf. exact Hx.
        * exact Hd.
        * intros x p Hx Hpp. apply remove_keys in Hx. eapply Hp; eassumption.
      + rewrite (remove_absent key_eqb k (lfiles s) El). auto.
    - (* WriteCas: a plain write on a backend without CAS *)
      destruct (local_write_sim s k v Hi (proj1 Ho) (Hin k (or_introl eq_refl))) as [E Hi']. rewrite E. auto.
  Qed.
End Local.

Definition abs_join (n : nat) (k : key) : str := repeat slash n ++ join k.

Definition op_segs (o : op key) : key :=
  match o with
  | Write k _ | Read k | Exists k | ListDir k | Delete k | Size k | Mtime k | Open k _ | Stream k | WriteCas k _
  | ReadTag k => k
  end.

Lemma wf_op_segs : forall o, wf_op o -> Forall wf_seg (op_segs o).
Proof.
  intros o Ho. destruct o; cbn [wf_op op_segs] in *.
  (* for an operation on a key, wf_op is wf_key, whose second half this is *)
  all: try exact (proj2 Ho).
  - (* ListDir: the directory is given by its segments *)
    exact Ho.
  - (* Open: wf_op pairs the key with the program *)
    exact (proj2 (proj1 Ho)).
Qed.

Lemma lstrip_abs : forall n k, Forall wf_seg k -> lstrip_slash (abs_join n k) = join k.
Proof.
  unfold abs_join. induction n as [|n IH]; intros k Hk; [apply lstrip_join; exact Hk|].
  cbn [repeat app lstrip_slash]. rewrite Ascii.eqb_refl. apply IH. exact Hk.
Qed.

Lemma get_key_abs : forall pfx n k, Forall wf_seg k -> gen_get_s3_key pfx (abs_join n k) = gen_get_s3_key pfx (join k).
Proof. intros pfx n k Hk. unfold gen_get_s3_key. cbv zeta. rewrite (lstrip_abs n k Hk), (lstrip_join k Hk). reflexivity. Qed.

Lemma components_abs : forall n k, Forall wf_seg k -> components (abs_join n k) = k.
Proof.
  unfold abs_join, components. induction n as [|n IH]; intros k Hk; [apply components_join; exact Hk|].
  cbn [repeat app split_acc]. rewrite Ascii.eqb_refl. apply IH. exact Hk.
Qed.

Lemma s3_step_abs : forall pfx b n o, wf_op o -> s3_step pfx b (map_op (abs_join n) o) = s3_step pfx b (map_op join o).
Proof.
  intros pfx b n o Hw. pose proof (wf_op_segs o Hw) as Ho.
  (* every operation reaches the bucket through gen_get_s3_key, which strips leading slashes *)
  destruct o; cbn [map_op s3_step op_segs] in *;
    unfold gen_list_prefix, s3_open, s3_get_size, gen_open_key, gen_open_size_path;
    rewrite ?(get_key_abs pfx n _ Ho); reflexivity.
Qed.

Lemma local_step_str_abs : forall s n o, wf_op o -> local_step_str s (map_op (abs_join n) o) = local_step s o.
Proof.
  intros s n o Hw. pose proof (wf_op_segs o Hw) as Ho. unfold local_step_str.
  destruct o; cbn [map_op op_segs wf_op] in *; rewrite (components_abs n _ Ho); try reflexivity.
  (* Exists: a canonical key is not spelled as a directory, so it is the file that is asked for *)
  unfold abs_join at 1. rewrite (not_dirlike _ _ Hw). reflexivity.
Qed.

Lemma local_step_str_join : forall s o, wf_op o -> local_step_str s (map_op join o) = local_step s o.
Proof. intros s o. exact (local_step_str_abs s 0 o). Qed.

Theorem refine_local : forall (ops : list (op key)),
  Forall wf_op ops -> prefix_free (written_keys ops) -> run_local ops = run_spec ops.
Proof.
  intros ops Hops Hpf. unfold run_local, run_spec.
  apply (run_sim _ _ (fun s st => lfiles s = st /\ linv (written_keys ops) s)
                 (fun o => wf_op o /\ forall k, In k (op_written o) -> In k (written_keys ops))).
  - intros s st o [<- Hi] [Ho Hw]. rewrite (local_step_str_join s o Ho).
    destruct (local_sim_step _ Hpf s o Hi Ho Hw) as [E1 [E2 Hi']]. auto.
  - split; [reflexivity|]. split; [intros k []|split; [intros p []|intros k p []]].
  - rewrite Forall_forall in *. intros o Ho. split; [exact (Hops o Ho)|].
    intros k Hk. apply in_flat_map. exists o. split; assumption.
Qed.

(* the store the contract holds after a history *)
Definition spec_store (ops : list (op key)) : store := fst (run spec_step [] ops).

Lemma wf_keyb_sound : forall k, wf_keyb k = true -> wf_key k.
Proof.
  intros k H. destruct k as [|a k]; [discriminate|]. split; [discriminate|].
  unfold wf_keyb in H. rewrite forallb_forall in H. apply Forall_forall. exact H.
Qed.

Lemma wf_opb_sound : forall o, wf_opb o = true -> wf_op o.
Proof.
  intros o H. destruct o; cbn [wf_opb wf_op] in *; try (apply wf_keyb_sound; exact H).
  - (* ListDir *) rewrite forallb_forall in H. apply Forall_forall. exact H.
  - (* Open: the key, then each reader operation *) apply andb_true_iff in H. destruct H as [Hk Hp]. split; [apply wf_keyb_sound; exact Hk|].
    rewrite forallb_forall in Hp. apply Forall_forall. intros x Hx. specialize (Hp x Hx).
    destruct x; cbn [wf_ropb wf_rop] in *; try exact I. apply Z.leb_le. exact Hp.
Qed.

Lemma wf_opsb_sound : forall ops, forallb wf_opb ops = true -> Forall wf_op ops.
Proof. intros ops H. rewrite forallb_forall in H. apply Forall_forall. intros o Ho. apply wf_opb_sound. apply H. exact Ho. Qed.

Lemma prefix_freeb_sound : forall ks, prefix_freeb ks = true -> prefix_free ks.
Proof.
  intros ks H a b Ha Hb. unfold prefix_freeb in H. rewrite forallb_forall in H. specialize (H a Ha).
  rewrite forallb_forall in H. specialize (H b Hb). apply negb_true_iff in H. exact H.
Qed.

Lemma foreign_okb_sound : forall pfx F, foreign_okb pfx F = true -> foreign_ok pfx F.
Proof.
  intros pfx F H k Hk. unfold foreign_okb in H. rewrite forallb_forall in H. specialize (H k Hk).
  apply negb_true_iff in H. exact H.
Qed.
