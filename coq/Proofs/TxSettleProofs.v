(* Proofs/TxSettleProofs.v -- Model/TxSettle.v: a transaction that settles a failed commit-point write outside the lock
   tells its caller nothing the version chain contradicts, for every schedule, if its policy never contradicts the
   published history (settle_sound); the policy of the regenerated handler table is such a policy, because it asserts
   nothing; "is the current version ours?" is not (tip_witness). *)
From Coq Require Import ZArith List Bool.
Require Import DS.Model.Commit DS.Model.FlipFault DS.Model.TxSettle.
Require Import DS.Proofs.CommitProofs DS.Proofs.FlipFaultProofs.
Require DS.Proofs.ListFacts.
Import ListNotations.

Lemma set_rep_inv a r f b want : set_rep a r f b = Some want -> (b = a /\ r = want) \/ f b = Some want.
Proof.
  unfold set_rep. destruct (Nat.eqb_spec b a) as [->|NE]; intro R; [injection R as ->|]; auto.
Qed.

(* where a definite report says its committer ended *)
Definition asserts (r : report) : option outcome :=
  match r with RepSuccess => Some AbortedPost | RepFailed => Some Aborted | RepAmbiguous => None end.

(* Reports and deletions are tied to the committer's FINAL pc (`asserts`), not to membership in the history: a finished pc is
   stable under every step (xstep_pdone_stable) while the history grows; membership is recovered at the end through Inv_acked
   (TI_consistent). *)
Record TI (c : cfg) (m0 : meta) (T : tworld) : Prop := {
  TI_x : XAll c m0 (t_x T);
  TI_rep : forall a r o, t_rep T a = Some r -> asserts r = Some o -> a_pc (w_actors (xw (t_x T)) a) = PDone o;
  TI_deleted : forall a, In a (t_deleted T) -> a_pc (w_actors (xw (t_x T)) a) = PDone Aborted }.

(* FlipFaultProofs.failed_outcome in the terms the settle policy is asked in *)
Lemma settled_pc c m0 X a : XAll c m0 X -> In a (x_failed X) -> x_err X a = None ->
  a_pc (w_actors (xw X) a) = PDone (if in_history (xw X) a then AbortedPost else Aborted).
Proof.
  intros A F E. unfold in_history, memb. destruct (failed_outcome c m0 X a A F E) as [[P N]|[P Hin]]; rewrite P.
  - apply (ListFacts.existsb_eqb_not_In _ _ Nat.eqb_eq) in N. rewrite N. reflexivity.
  - apply (ListFacts.existsb_eqb_In _ _ Nat.eqb_eq) in Hin. rewrite Hin. reflexivity.
Qed.

Lemma tstep_TI pol c m0 atomic T t T' : cas c = true -> sound_policy pol -> TI c m0 T -> tstep pol c atomic T t = Some T' -> TI c m0 T'.
Proof.
  intros CAS SP [A Rp De] H. destruct t as [x|a].
  - simpl in H. destruct (xstep_p true c atomic (t_x T) x) as [X'|] eqn:St; [|discriminate]. injection H as <-.
    assert (K : XK (t_x T)) by apply A.
    constructor; simpl.
    + eapply xstep_all; eauto.
    + intros a r o R E. eapply xstep_pdone_stable; eauto.
    + intros a D. eapply xstep_pdone_stable; eauto.
  - unfold tstep in H. cbv zeta in H.
    destruct (memb a (x_failed (t_x T))) eqn:MF; [|discriminate].
    destruct (x_err (t_x T) a) eqn:EE; [discriminate|].
    destruct (t_rep T a) eqn:TR; [discriminate|]. simpl in H.
    apply (ListFacts.existsb_eqb_In _ _ Nat.eqb_eq) in MF. pose proof (settled_pc c m0 (t_x T) a A MF EE) as End.
    set (tip := names_ours (xw (t_x T)) (w_actors (xw (t_x T)) a)) in *. set (inh := in_history (xw (t_x T)) a) in *.
    destruct (SP tip inh) as [SL SN].
    (* a's report becomes r, the others keep theirs: it is enough that a ended where r says *)
    assert (Frame : forall r, (forall o, asserts r = Some o -> a_pc (w_actors (xw (t_x T)) a) = PDone o) ->
                    forall b r' o, set_rep a r (t_rep T) b = Some r' -> asserts r' = Some o -> a_pc (w_actors (xw (t_x T)) b) = PDone o).
    { intros r Ha b r' o R E. destruct (set_rep_inv _ _ _ _ _ R) as [[-> <-]|R']; [exact (Ha o E) | exact (Rp b r' o R' E)]. }
    destruct (pol tip inh) eqn:V; injection H as <-.
    + (* VLanded: a is told "committed"; a sound policy says so only of a commit in the history *)
      rewrite (SL eq_refl) in End. constructor; simpl; [exact A | | exact De].
      apply Frame. intros o E. injection E as <-. exact End.
    + (* VNotLanded: a is told "failed" and its files are deleted; only of a commit not in the history *)
      rewrite (SN eq_refl) in End. constructor; simpl; [exact A | |].
      * apply Frame. intros o E. injection E as <-. exact End.
      * intros b [<-|D]; [exact End | exact (De b D)].
    + (* VUnknown: a is told "ambiguous", which asserts nothing *)
      constructor; simpl; [exact A | | exact De]. apply Frame. discriminate.
Qed.

Lemma tinit_TI c m0 kind mr : TI c m0 (tinit (init_world m0 kind mr)).
Proof. constructor; simpl; try (intros; discriminate); [apply xinit_all | intros a []]. Qed.

Lemma TI_consistent c m0 T : TI c m0 T -> settle_consistent T.
Proof.
  intros [A Rp De] a. cbv zeta. pose proof (Inv_acked c _ a (Lin_inv c m0 _ (XA_lin c m0 _ A))) as HF. repeat split.
  - intros R Hin. apply HF in Hin. rewrite (Rp a _ _ R eq_refl) in Hin. discriminate.
  - intro R. apply HF. rewrite (Rp a _ _ R eq_refl). reflexivity.
  - intros D Hin. apply HF in Hin. rewrite (De a D) in Hin. discriminate.
Qed.

Lemma settle_sound pol c atomic m0 kind mr ts : cas c = true -> sound_policy pol ->
  settle_consistent (trun pol c atomic (tinit (init_world m0 kind mr)) ts).
Proof.
  intros CAS SP. apply (TI_consistent c m0).
  apply (ListFacts.run_skip_preserves _ _ (tstep pol c atomic) (TI c m0)); [intros T t T'; apply tstep_TI; assumption | apply tinit_TI].
Qed.

(* the regenerated handler for a commit-point write that failed on conditional-write storage asserts nothing *)
Lemma gen_policy_cas_unknown atomic last tip inh : gen_policy true atomic last tip inh = VUnknown.
Proof. destruct atomic, last; reflexivity. Qed.

Lemma gen_policy_sound atomic last : sound_policy (gen_policy true atomic last).
Proof. intros tip inh. rewrite gen_policy_cas_unknown. split; discriminate. Qed.

(* no caller has been told anything definite, nothing has been deleted *)
Definition asserts_nothing (T : tworld) : Prop :=
  (forall a, t_rep T a = None \/ t_rep T a = Some RepAmbiguous) /\ t_deleted T = [].

Lemma gen_trun_asserts_nothing c atomic last ts T0 :
  asserts_nothing T0 -> asserts_nothing (trun (gen_policy true atomic last) c atomic T0 ts).
Proof.
  apply (ListFacts.run_skip_preserves _ _ (tstep (gen_policy true atomic last) c atomic) asserts_nothing).
  intros T t T' [R D] St. unfold asserts_nothing. destruct t as [x|b]; simpl in St.
  - destruct (xstep_p true c atomic (t_x T) x); [|discriminate]. injection St as <-. split; assumption.
  - destruct (memb b (x_failed (t_x T)) && unset (x_err (t_x T) b) && unset (t_rep T b)); [|discriminate].
    rewrite gen_policy_cas_unknown in St. injection St as <-. simpl. split; [|exact D].
    intro a. unfold set_rep. destruct (Nat.eqb a b); [right; reflexivity | apply R].
Qed.

Lemma tinit_asserts_nothing w : asserts_nothing (tinit w).
Proof. split; [intro a; left; reflexivity | reflexivity]. Qed.

Lemma regenerated_settle_sound c atomic last m0 kind mr ts : cas c = true ->
  let T := trun (gen_policy (cas c) atomic last) c atomic (tinit (init_world m0 kind mr)) ts in
  settle_consistent T /\ t_deleted T = [].
Proof.
  intros CAS T. subst T. rewrite CAS. split; [apply settle_sound; [exact CAS | apply gen_policy_sound]|].
  apply (gen_trun_asserts_nothing c atomic last ts _ (tinit_asserts_nothing _)).
Qed.

(* tip_policy ("is the current version ours?") is not sound: committer 0's conditional write is applied, the response is lost; its exception leaves commit() (lock released); committer 1
   reads the version committer 0 published, commits on top of it; only now committer 0's transaction reads the pointer back:
   the tip is committer 1's.  It concludes "did not take effect", deletes its data files and reports a definite failure --
   while its commit is in the chain every later version was built on. *)
Definition tip_witness : list tevent :=
  [ TX (xev 0 (EBegin 0)); TX (xev 0 (ELockTry true)); TX (xev 0 (EValidate 0 true)); TX (xev 0 (EMetaW 100)); TX (xev 0 (EFence true));
    TX (XFlipErr 0 true); TX (XUnwind 0);
    TX (xev 1 (EBegin 1)); TX (xev 1 (ELockTry true)); TX (xev 1 (EValidate 1 true)); TX (xev 1 (EMetaW 101)); TX (xev 1 (EFence true));
    TX (xev 1 (EFlip true)); TX (xev 1 ERelease);
    TSettle 0 ]%nat.
Definition tip_cfg := {| cas := true; lockkind := Lease |}.
Definition tip_m0 := {| m_ops := []; m_cur := 1; m_lu := 100%Z |}.
Definition tip_world := trun tip_policy tip_cfg false (tinit (init_world tip_m0 (fun _ => KFresh) (fun _ => 50%nat))) tip_witness.

Lemma tip_witness_accepted :
  match trun_strict tip_policy tip_cfg false (tinit (init_world tip_m0 (fun _ => KFresh) (fun _ => 50%nat))) tip_witness 0 with
  | inl T => t_rep T 0%nat = Some RepFailed /\ t_deleted T = [0%nat] /\ map snd (w_hist (xw (t_x T))) = [0%nat; 1%nat]
             /\ a_pc (w_actors (xw (t_x T)) 1%nat) = PDone Success
  | inr _ => False
  end.
Proof. vm_compute. repeat split; reflexivity. Qed.

(* without the interleaved commit the same policy answers correctly: the defect needs the second writer *)
Lemma tip_policy_alone_lands :
  match trun_strict tip_policy tip_cfg false (tinit (init_world tip_m0 (fun _ => KFresh) (fun _ => 50%nat)))
          (firstn 7 tip_witness ++ [TSettle 0%nat]) 0 with
  | inl T => t_rep T 0%nat = Some RepSuccess /\ t_deleted T = []
  | inr _ => False
  end.
Proof. vm_compute. split; reflexivity. Qed.
