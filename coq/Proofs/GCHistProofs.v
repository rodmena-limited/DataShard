(* Proofs/GCHistProofs.v -- the writer-form invariant and "every retained snapshot is fully present" hold after
   every sequential history (induction over the operation list), collections with arbitrary faults included.

   The invariant's second half rests on one notion, `keeps`: a step keeps the body of every object a retained snapshot
   references (hstep_keeps), and presence depends on nothing else (snapshot_present_keeps); Proofs/GCViewProofs.v takes the
   content a reader gets from a retained snapshot through the same two facts.  What a step can do to a state is listed once
   (hchange, hstep_cases); hstep_keeps and hinv_step go by cases on it.
   Also here, because HOpenTx writes such a marker: the key the regenerated _register_inflight writes spells the file's whole
   path (register_marker_path_injective, registered_marker_fallback_covers: Props/C06.v, C07.v). *)
From Coq Require Import ZArith String Ascii List Bool.
Require Import DS.Model.PyStr DS.Gen.GenNorm DS.Model.GC DS.Model.GCHist.
Require Import DS.Proofs.ListFacts DS.Proofs.PyStrProofs DS.Proofs.GCNormProofs DS.Proofs.GCProofs.
Require Import DS.Proofs.GCAcceptProofs.
Import ListNotations.
Open Scope string_scope.
Open Scope Z_scope.
Open Scope list_scope.

Lemma lookup_app : forall k a b, lookup k (a ++ b) = match lookup k a with Some ob => Some ob | None => lookup k b end.
Proof.
  intros k a b. induction a as [|[k' o] r IH]; simpl; [reflexivity|]. destruct (String.eqb k k'); [reflexivity|exact IH].
Qed.

Lemma lookup_none_notin : forall k st, lookup k st = None <-> ~ In k (map fst st).
Proof.
  intros k st. split.
  - intros H Hin. apply In_keys_lookup in Hin. destruct Hin as [ob E]. congruence.
  - intro H. destruct (lookup k st) as [ob|] eqn:E; [|reflexivity]. exfalso. apply H. eapply lookup_In_keys; eauto.
Qed.

Lemma has_key_false : forall k st, has_key k st = false <-> lookup k st = None.
Proof. intros. unfold has_key. rewrite str_mem_false, lookup_none_notin. tauto. Qed.

Lemma has_key_true : forall k st, has_key k st = true <-> exists ob, lookup k st = Some ob.
Proof.
  intros. unfold has_key. rewrite str_mem_In. split.
  - apply In_keys_lookup.
  - intros [ob E]. eapply lookup_In_keys; eauto.
Qed.

Lemma lookup_new : forall news st k ob, NoDup (map fst news) -> In (k, ob) news -> lookup k (news ++ st) = Some ob.
Proof.
  induction news as [|[k' o] r IH]; intros st k ob ND Hin; [contradiction|]. simpl in *. inversion ND; subst.
  destruct Hin as [E|Hin].
  - inversion E; subst. rewrite String.eqb_refl. reflexivity.
  - destruct (String.eqb k k') eqn:E.
    + apply String.eqb_eq in E. subst. exfalso. apply H1. apply in_map_iff. exists (k', ob). auto.
    + apply IH; assumption.
Qed.

Lemma fresh_store_le : forall news st, (forall k, In k (map fst news) -> lookup k st = None) -> store_le st (news ++ st).
Proof.
  intros news st F k ob L. rewrite lookup_app. destruct (lookup k news) as [ob'|] eqn:E; [|exact L].
  exfalso. apply lookup_In_keys in E. apply F in E. congruence.
Qed.

Lemma lookup_extend : forall news st k ob, lookup k (news ++ st) = Some ob -> In (k, ob) news \/ lookup k st = Some ob.
Proof.
  intros news st k ob H. rewrite lookup_app in H. destruct (lookup k news) as [ob'|] eqn:E; [|right; exact H].
  left. inversion H; subst. apply lookup_In. exact E.
Qed.

(* b still holds, with the same body, every object of a whose key satisfies P.  With P := what the retained snapshots
   reference, it is what every step of a history does (hstep_keeps), and all that presence (below) and a snapshot's content
   (Proofs/GCViewProofs.v) depend on. *)
Definition keeps (a b : store) (P : key -> Prop) : Prop :=
  forall k ob, P k -> lookup k a = Some ob -> exists ob', lookup k b = Some ob' /\ body ob' = body ob.

Lemma keeps_le : forall a b P, store_le a b -> keeps a b P.
Proof. intros a b P L k ob _ H. exists ob. split; [apply L; exact H|reflexivity]. Qed.

(* the inner layer of snapshot_present (which unfolds to it): what is asked of one manifest reference of a list *)
Definition manifest_present (st : store) (m : string) : Prop :=
  nonempty m = true -> exists es, manifest_at st (resolve m) es /\ forall e, In e es -> present st (resolve e).

(* f := as_list / as_manifest: list_at / manifest_at *)
Lemma at_keeps : forall (f : content -> option (list string)) a b (P : key -> Prop) k xs, keeps a b P -> P k ->
  (exists o, lookup k a = Some o /\ f (body o) = Some xs) -> exists o, lookup k b = Some o /\ f (body o) = Some xs.
Proof. intros f a b P k xs K Pk [ob [L B]]. destruct (K k ob Pk L) as [ob' [L' E]]. exists ob'. rewrite E. auto. Qed.

Lemma present_keeps : forall a b (P : key -> Prop) k, keeps a b P -> P k -> present a k -> present b k.
Proof.
  intros a b P k K Pk. unfold present. destruct (lookup k a) as [ob|] eqn:L; [|contradiction].
  destruct (K k ob Pk L) as [ob' [-> _]]. discriminate.
Qed.

Lemma manifest_present_keeps : forall snaps a b l ms m, keeps a b (referenced snaps a) ->
  In l snaps -> nonempty l = true -> list_at a (resolve l) ms -> In m ms ->
  manifest_present a m -> manifest_present b m.
Proof.
  intros snaps a b l ms m K Hl N LA Hm P Nm. destruct (P Nm) as [es [MA Q]]. exists es. split.
  - apply (at_keeps as_manifest _ _ _ _ _ K); [|exact MA]. right. left. exact (ref_manifest_intro _ _ l ms m Hl N LA Hm Nm).
  - intros e He. apply (present_keeps _ _ _ _ K); [|exact (Q e He)]. right. right.
    exact (ref_data_intro _ _ l ms m es e Hl N LA Hm Nm MA He).
Qed.

Lemma snapshot_present_keeps : forall snaps a b l, keeps a b (referenced snaps a) -> In l snaps ->
  snapshot_present a l -> snapshot_present b l.
Proof.
  intros snaps a b l K Hl P N. destruct (P N) as [ms [LA Q]]. exists ms. split.
  - apply (at_keeps as_list _ _ _ _ _ K); [|exact LA]. left. exists l. auto.
  - intros m Hm. exact (manifest_present_keeps snaps a b l ms m K Hl N LA Hm (Q m Hm)).
Qed.

Lemma resolve_man_key : forall n, resolve (man_key n) = man_key n.
Proof. intro n. reflexivity. Qed.

Lemma resolve_data_key : forall n, resolve (data_key n) = data_key n.
Proof. intro n. reflexivity. Qed.

Lemma man_key_meta : forall n, wf_meta_ref (man_key n).
Proof. intro n. unfold wf_meta_ref. rewrite resolve_man_key. unfold man_key. apply startswith_app. Qed.

Lemma wf_store_grow : forall snaps snaps' st news, wf_store snaps st -> NoDup (map fst news) ->
  (forall k, In k (map fst news) -> lookup k st = None) -> (forall k ob, In (k, ob) news -> obj_wf k ob) ->
  (forall l, In l snaps' -> In l snaps \/ wf_meta_ref l) -> wf_store snaps' (news ++ st).
Proof.
  intros snaps snaps' st news W ND F OW Sn. apply wf_store_iff in W. destruct W as [W1 [W2 W3]].
  apply wf_store_iff. split; [|split].
  - rewrite map_app. apply NoDup_app. split; [exact ND|]. split; [exact W1|]. intros k Hk. apply lookup_none_notin, F, Hk.
  - intros l Hl N. destruct (Sn l Hl); auto.
  - intros k ob L. destruct (lookup_extend _ _ _ _ L); auto.
Qed.

Lemma obj_wf_opaque : forall k ob, body ob = CData \/ body ob = CGarbage -> obj_wf k ob.
Proof. intros k ob [E|E]; unfold obj_wf; rewrite E; repeat split; intros; discriminate. Qed.

Lemma lookup_touch : forall k mt st k', lookup k' (touch k mt st) =
  match lookup k' st with Some ob => Some (if String.eqb k k' then mkObj mt (body ob) else ob) | None => None end.
Proof.
  intros k mt st k'. induction st as [|[k2 o] r IH]; simpl; [reflexivity|].
  destruct (String.eqb k k2) eqn:E; simpl.
  - destruct (String.eqb k' k2) eqn:E2; [|exact IH]. apply String.eqb_eq in E, E2. subst. rewrite String.eqb_refl. reflexivity.
  - destruct (String.eqb k' k2) eqn:E2; [|exact IH]. apply String.eqb_eq in E2. subst. rewrite E. reflexivity.
Qed.

Lemma touch_keys : forall k mt st, map fst (touch k mt st) = map fst st.
Proof. intros. unfold touch. rewrite map_map. apply map_ext. intros [k2 o]. simpl. destruct (String.eqb k k2); reflexivity. Qed.

Lemma touch_body : forall k mt st k' ob', lookup k' (touch k mt st) = Some ob' -> exists ob, lookup k' st = Some ob /\ body ob = body ob'.
Proof.
  intros k mt st k' ob' H. rewrite lookup_touch in H. destruct (lookup k' st) as [ob|]; [|discriminate]. exists ob. split; [reflexivity|].
  inversion H. destruct (String.eqb k k'); reflexivity.
Qed.

Lemma keeps_touch : forall k mt st P, keeps st (touch k mt st) P.
Proof.
  intros k mt st P k' ob _ L. rewrite lookup_touch, L. eexists. split; [reflexivity|]. destruct (String.eqb k k'); reflexivity.
Qed.

Lemma wf_store_touch : forall snaps st k mt, wf_store snaps st -> wf_store snaps (touch k mt st).
Proof.
  intros snaps st k mt W. apply wf_store_iff in W. destruct W as [W1 [W2 W3]]. apply wf_store_iff. rewrite touch_keys.
  split; [exact W1|]. split; [exact W2|].
  intros k0 ob' L. apply touch_body in L. destruct L as [ob [L E]]. unfold obj_wf. rewrite <- E. exact (W3 k0 ob L).
Qed.

Lemma suffix_no_slash : has_char slash INFLIGHT_SUFFIX = false.
Proof. reflexivity. Qed.

Lemma basename_noslash : forall x, has_char slash x = false -> basename x = x.
Proof.
  intros [|a r] H; [reflexivity|]. cbn [has_char] in H. apply orb_false_iff in H. destruct H as [H1 H2].
  cbn [basename]. rewrite H2, H1. reflexivity.
Qed.

Lemma basename_app_noslash : forall s x, has_char slash x = false -> basename (s ++ x) = (basename s ++ x)%string.
Proof.
  induction s as [|a r IH]; intros x H.
  - apply basename_noslash. exact H.
  - cbn [append basename]. rewrite has_char_app, H, orb_false_r.
    destruct (has_char slash r); [apply IH; exact H|]. destruct (Ascii.eqb a slash); reflexivity.
Qed.

Lemma register_marker_keyed : forall f,
  register_marker_path f = ((INFLIGHT_PATH ++ "/") ++ (resolve f ++ INFLIGHT_SUFFIX))%string
  /\ register_marker_payload f = resolve f.
Proof. intro f. split; reflexivity. Qed.

(* name_candidates' `keyed` (strip "metadata/inflight/" and ".inflight") gives a key of the registered form its path back *)
Lemma keyed_of_registered : forall t,
  py_drop_end (String.length INFLIGHT_SUFFIX)
              (py_drop (String.length (INFLIGHT_PATH ++ "/")) ((INFLIGHT_PATH ++ "/") ++ (t ++ INFLIGHT_SUFFIX))) = t.
Proof. intro t. rewrite py_drop_app. apply py_drop_end_app. discriminate. Qed.

Theorem register_marker_path_injective : forall f g, register_marker_path f = register_marker_path g -> resolve f = resolve g.
Proof.
  intros f g H. rewrite (proj1 (register_marker_keyed f)), (proj1 (register_marker_keyed g)) in H.
  rewrite <- (keyed_of_registered (resolve f)), <- (keyed_of_registered (resolve g)), H. reflexivity.
Qed.

(* The writer's marker naming and the collector's fallback agree for every file a transaction can register, in ANY
   sub-directory of data/ or metadata/: what the collector protects when the marker's PAYLOAD cannot be used is exactly the
   file the writer registered.  With markers named after the file's basename this is false (data/p1/x.parquet: Props/C07.v). *)
Theorem registered_marker_fallback_covers : forall f, table_relative (resolve f) ->
  is_marker_key (register_marker_path f)
  /\ name_candidates (register_marker_path f) = [resolve (register_marker_payload f)]
  /\ marker_fallback (register_marker_path f) (basename (register_marker_path f)) = [resolve (register_marker_payload f)].
Proof.
  intros f TR. destruct (register_marker_keyed f) as [P Q].
  assert (R: resolve (register_marker_payload f) = resolve f) by (rewrite Q; apply lstrip_c_idem).
  assert (NC: name_candidates (register_marker_path f) = [resolve f]).
  { rewrite P. unfold name_candidates. cbv zeta. rewrite keyed_of_registered.
    destruct TR as [D|M]; [rewrite D; reflexivity|rewrite M, orb_true_r; reflexivity]. }
  split; [|split].
  - rewrite P. split; [apply (startswith_app (INFLIGHT_PATH ++ "/"))|].
    rewrite <- (append_assoc (INFLIGHT_PATH ++ "/") (resolve f) INFLIGHT_SUFFIX).
    rewrite basename_app_noslash by exact suffix_no_slash. apply endswith_app.
  - rewrite R. exact NC.
  - rewrite marker_fallback_covers, R. exact NC.
Qed.

(* The same for every path append_files accepts, under any normpath: such a path lies under data/
   (GCAcceptProofs.accepts_under_data); quoted by Props/C07.v. *)
Theorem accepted_marker_fallback_covers : forall normpath f, append_accepts_path normpath f = true ->
  is_marker_key (register_marker_path f)
  /\ marker_fallback (register_marker_path f) (basename (register_marker_path f)) = [resolve (register_marker_payload f)]
  /\ startswith "data/" (resolve (register_marker_payload f)) = true.
Proof.
  intros np f A. pose proof (accepts_under_data np f A) as D. unfold wf_data_ref in D.
  destruct (registered_marker_fallback_covers f (or_introl D)) as [K [_ F]].
  split; [exact K|]. split; [exact F|].
  rewrite (proj2 (register_marker_keyed f)). unfold resolve at 1. rewrite lstrip_c_idem. exact D.
Qed.

(* the wf_markers clause (third conjunct of obj_wf) for the marker HOpenTx writes *)
Lemma open_tx_marker : forall name,
  In (resolve (register_marker_payload (data_key name))) (name_candidates (register_marker_path (data_key name))).
Proof.
  intros name.
  assert (TR: table_relative (resolve (data_key name))) by (left; rewrite resolve_data_key; apply startswith_app).
  destruct (registered_marker_fallback_covers _ TR) as [_ [NC _]]. rewrite NC. left. reflexivity.
Qed.

Lemma cur_manifests_in : forall h m, In m (cur_manifests h) ->
  exists l ms, In l (h_lists h) /\ nonempty l = true /\ list_at (h_store h) (resolve l) ms /\ In m ms.
Proof.
  intros h m H. unfold cur_manifests in H. destruct (h_cur h) as [c|]; [|contradiction].
  destruct (find (fun p => fst p =? c) (h_snaps h)) as [p|] eqn:F; [|contradiction]. apply find_some in F. destruct F as [F _].
  destruct (nonempty (snd p)) eqn:N; [|contradiction].
  destruct (lookup (resolve (snd p)) (h_store h)) as [ob|] eqn:L; [|contradiction].
  destruct (as_list (body ob)) as [ms|] eqn:B; [|contradiction].
  exists (snd p), ms. split; [apply in_map; exact F|]. split; [exact N|]. split; [exists ob; auto|exact H].
Qed.

(* what the side conditions of a commit step say *)
Record commit_ok (h : hstate) (newdata : list (string * Z)) (newmans : list (string * list string * Z)) (kept : list string)
  (lname : string) (lmt : Z) : Prop := {
  (* the new objects' keys are distinct and fresh *)
  co_nodup : NoDup (map fst (new_objects newdata newmans kept lname lmt));
  co_fresh : forall k, In k (map fst (new_objects newdata newmans kept lname lmt)) -> lookup k (h_store h) = None;
  (* every entry of a new manifest is an accepted path and names an existing file or one of the commit's own *)
  co_entry : forall p e, In p newmans -> In e (snd (fst p)) ->
    accepts e = true /\ ((exists ob, lookup (resolve e) (h_store h) = Some ob) \/ exists q, data_key (fst q) = resolve e /\ In q newdata);
  (* the manifests carried over are named by a retained list *)
  co_kept : forall m, In m kept ->
    exists l ms, In l (h_lists h) /\ nonempty l = true /\ list_at (h_store h) (resolve l) ms /\ In m ms }.

Lemma valid_commit_ok : forall h newdata newmans kept lname lmt,
  valid_commit h newdata newmans kept lname lmt = true -> commit_ok h newdata newmans kept lname lmt.
Proof.
  intros h newdata newmans kept lname lmt V. unfold valid_commit in V. cbv zeta in V.
  rewrite !andb_true_iff in V. destruct V as [[[V1 V2] V3] V4]. rewrite forallb_forall in V2, V3, V4. constructor.
  - apply nodupb_sound. exact V1.
  - intros k Hk. apply has_key_false, negb_true_iff, V2, Hk.
  - intros p e Hp He. specialize (V3 p Hp). rewrite forallb_forall in V3. specialize (V3 e He).
    apply andb_true_iff in V3. destruct V3 as [A X]. split; [exact A|]. apply orb_true_iff in X.
    destruct X as [X|X]; [left; apply has_key_true; exact X|right; apply str_mem_In, in_map_iff in X; exact X].
  - intros m Hm. apply cur_manifests_in, str_mem_In, V4, Hm.
Qed.

Lemma in_new_objects : forall newdata newmans kept lname lmt k ob,
  In (k, ob) (new_objects newdata newmans kept lname lmt) <->
  (exists p, (data_key (fst p), mkObj (snd p) CData) = (k, ob) /\ In p newdata)
  \/ (exists p, (man_key (fst (fst p)), mkObj (snd p) (CManifest FAvro (snd (fst p)))) = (k, ob) /\ In p newmans)
  \/ (man_key lname, mkObj lmt (CList FAvro (kept ++ map (fun p => man_key (fst (fst p))) newmans))) = (k, ob).
Proof.
  intros. unfold new_objects. split.
  - intro H. apply in_app_or in H. destruct H as [H|H]; [left; apply in_map_iff in H; exact H|right].
    apply in_app_or in H. destruct H as [H|[H|[]]]; [left; apply in_map_iff in H; exact H|right; exact H].
  - intro H. apply in_or_app. destruct H as [H|H]; [left; apply in_map_iff; exact H|right].
    apply in_or_app. destruct H as [H|H]; [left; apply in_map_iff; exact H|right; left; exact H].
Qed.

Lemma new_objects_wf : forall h newdata newmans kept lname lmt, wf_store (h_lists h) (h_store h) ->
  commit_ok h newdata newmans kept lname lmt ->
  forall k ob, In (k, ob) (new_objects newdata newmans kept lname lmt) -> obj_wf k ob.
Proof.
  intros h newdata newmans kept lname lmt W C k ob Hin.
  apply in_new_objects in Hin. destruct Hin as [[p [E _]]|[[p [E Hp]]|E]]; injection E as <- <-.
  - (* a data file *) apply obj_wf_opaque. left. reflexivity.
  - (* a manifest: every entry is an accepted path *)
    split; [|split]; try (intros; discriminate).
    intros es e B He. inversion B; subst es. exact (accepts_under_data _ _ (proj1 (co_entry _ _ _ _ _ _ C p e Hp He))).
  - (* the list: a kept manifest is named by a list of the old store, a new one is a man_key *)
    split; [|split]; try (intros; discriminate).
    intros ms m B Hm Nm. inversion B; subst ms. apply in_app_or in Hm. destruct Hm as [Hm|Hm].
    + destruct (co_kept _ _ _ _ _ _ C m Hm) as [l [ms0 [_ [_ [[ob0 [L0 B0]] Hm0]]]]]. exact (wf_lists _ _ W _ _ _ _ L0 B0 Hm0 Nm).
    + apply in_map_iff in Hm. destruct Hm as [p [<- _]]. apply man_key_meta.
Qed.

Lemma new_snapshot_present : forall h newdata newmans kept lname lmt, hinv h ->
  commit_ok h newdata newmans kept lname lmt ->
  snapshot_present (new_objects newdata newmans kept lname lmt ++ h_store h) (man_key lname).
Proof.
  intros h newdata newmans kept lname lmt [W P] C.
  set (news := new_objects newdata newmans kept lname lmt) in *. set (st := h_store h) in *.
  assert (LE: store_le st (news ++ st)) by (apply fresh_store_le; exact (co_fresh _ _ _ _ _ _ C)).
  pose proof (fun k ob => lookup_new news st k ob (co_nodup _ _ _ _ _ _ C)) as NEW.
  intros _. rewrite resolve_man_key. exists (kept ++ map (fun p => man_key (fst (fst p))) newmans). split.
  { eexists. split; [apply NEW; apply in_new_objects; right; right; reflexivity|reflexivity]. }
  intros m Hm. apply in_app_or in Hm. destruct Hm as [Hm|Hm].
  - (* carried over from a retained snapshot, which is present *)
    destruct (co_kept _ _ _ _ _ _ C m Hm) as [l [ms0 [Hl [N [LA Hm0]]]]].
    apply (manifest_present_keeps (h_lists h) st _ l ms0 m (keeps_le _ _ _ LE) Hl N LA Hm0).
    destruct (P l Hl N) as [ms1 [LA1 Q]]. rewrite (holds_fun WList _ _ _ _ LA LA1) in Hm0. exact (Q m Hm0).
  - (* new: each entry names an existing file or one of the commit's own *)
    apply in_map_iff in Hm. destruct Hm as [p [<- Hp]]. intros _. rewrite resolve_man_key. exists (snd (fst p)). split.
    { eexists. split; [apply NEW; apply in_new_objects; right; left; exists p; auto|reflexivity]. }
    intros e He. unfold present. destruct (co_entry _ _ _ _ _ _ C p e Hp He) as [_ [[ob L]|[q [<- Hq]]]].
    + rewrite (LE _ _ L). discriminate.
    + rewrite (NEW (data_key (fst q)) (mkObj (snd q) CData)); [discriminate|]. apply in_new_objects. left. exists q. auto.
Qed.

(* What a step can do to a state.  Every operation but an ageing and a collection GROWS it: objects in writer form are added under
   fresh, distinct keys (none, when a guard fails or only snapshots are dropped), and the snapshots retained afterwards are old
   ones or, after a commit, the new one, which is then fully present.  The writer-form and presence clauses of HC_grow are
   conditional on the old state's wf_store / hinv, so that hstep_cases has no hypothesis and hstep_keeps,
   GCViewProofs.lists_ne_step can use it with less than hinv. *)
Inductive hchange (h : hstate) : hstate -> Prop :=
| HC_grow news snaps' cur' :
    NoDup (map fst news) -> (forall k, In k (map fst news) -> lookup k (h_store h) = None) ->
    (wf_store (h_lists h) (h_store h) -> forall k ob, In (k, ob) news -> obj_wf k ob) ->
    (forall l, In l (map snd snaps') ->
       In l (h_lists h) \/ (nonempty l = true /\ wf_meta_ref l /\ (hinv h -> snapshot_present (news ++ h_store h) l))) ->
    hchange h (mkH (news ++ h_store h) snaps' cur')
| HC_touch k mt : hchange h (mkH (touch k mt (h_store h)) (h_snaps h) (h_cur h))
| HC_collect tp grace now timeout o :
    hchange h (mkH (g_store (r_final (gc_run tp grace now timeout o (h_lists h) (h_store h)))) (h_snaps h) (h_cur h)).

Lemma hchange_snaps : forall h snaps' cur', incl (map snd snaps') (h_lists h) -> hchange h (mkH (h_store h) snaps' cur').
Proof.
  intros h snaps' cur' Sn. apply (HC_grow h [] snaps' cur'); [constructor|intros k []|intros _ k ob []|]. intros l Hl. left. exact (Sn l Hl).
Qed.

Lemma hchange_refl : forall h, hchange h h.
Proof. intros [st snaps cur]. apply (hchange_snaps (mkH st snaps cur)). apply incl_refl. Qed.

Lemma hstep_cases : forall h op, hchange h (hstep h op).
Proof.
  intros h op. destruct op as [sid newdata newmans kept lname lmt expire|keep|sid|name mt mmt|k garbage mt|k mt|tp grace now timeout o].
  - (* HCommit *) cbn [hstep]. destruct (valid_commit h newdata newmans kept lname lmt) eqn:V; [|apply hchange_refl].
    pose proof (valid_commit_ok _ _ _ _ _ _ V) as C.
    apply HC_grow; [exact (co_nodup _ _ _ _ _ _ C)|exact (co_fresh _ _ _ _ _ _ C)|intro W; exact (new_objects_wf h _ _ _ _ _ W C)|].
    intros l Hl.
    assert (Hl' : In l (map snd (h_snaps h ++ [(sid, man_key lname)]))) by (destruct expire; [exact (incl_map snd (incl_filter _ _) l Hl)|exact Hl]).
    rewrite map_app in Hl'. apply in_app_or in Hl'. destruct Hl' as [Ho|[<-|[]]]; [left; exact Ho|right].
    split; [reflexivity|]. split; [apply man_key_meta|]. intro Hi. exact (new_snapshot_present h _ _ _ _ _ Hi C).
  - (* HExpire *) apply hchange_snaps. exact (incl_map snd (incl_filter _ _)).
  - (* HDeleteSnapshot *) apply hchange_snaps. exact (incl_map snd (incl_filter _ _)).
  - (* HOpenTx: unless a guard refuses, the marker, keyed by the file's whole path, and the file *)
    cbn [hstep]. cbv zeta. destruct (has_char slash name); [apply hchange_refl|].
    destruct (has_key (data_key name) (h_store h)) eqn:F1; [apply hchange_refl|].
    destruct (has_key (register_marker_path (data_key name)) (h_store h)) eqn:F2; [apply hchange_refl|].
    apply has_key_false in F1, F2. cbn [negb andb].
    apply (HC_grow h [(register_marker_path (data_key name), _); (data_key name, _)]); [| | |auto].
    + constructor; [|constructor; [intros []|constructor]]. intros [E|[]]. discriminate E.
    + intros k [<-|[<-|[]]]; assumption.
    + intros _ k ob [E|[E|[]]]; inversion E; subst k ob.
      * split; [|split]; try (intros; discriminate). intros t _ B _. inversion B; subst t. apply open_tx_marker.
      * apply obj_wf_opaque. left. reflexivity.
  - (* HPlant *)
    cbn [hstep]. destruct (startswith "data/" k || startswith "metadata/manifests/" k); [|apply hchange_refl].
    destruct (has_key k (h_store h)) eqn:F; [apply hchange_refl|]. apply has_key_false in F. cbn [negb andb].
    apply (HC_grow h [(k, _)]); [constructor; [intros []|constructor]|intros k0 [<-|[]]; exact F| |auto].
    intros _ k0 ob [E|[]]. inversion E; subst k0 ob. apply obj_wf_opaque. destruct garbage; auto.
  - (* HTouch *) apply HC_touch.
  - (* HCollect *) apply HC_collect.
Qed.

Lemma hstep_keeps : forall h op, wf_store (h_lists h) (h_store h) ->
  keeps (h_store h) (h_store (hstep h op)) (referenced (h_lists h) (h_store h)).
Proof.
  intros h op W. destruct (hstep_cases h op) as [news snaps' cur' _ FR _ _|k mt|tp grace now timeout o]; cbn [h_store].
  - (* new files have fresh keys *) apply keeps_le, fresh_store_le, FR.
  - apply keeps_touch.
  - (* a collection deletes nothing a retained snapshot references *)
    intros k0 ob R L. exists ob. split; [|reflexivity].
    exact (gc_keeps_referenced _ _ _ _ _ _ W (gc_safe_all_faults tp grace now timeout o _ _ W) k0 ob L R).
Qed.

Lemma hinv_step : forall h op, hinv h -> hinv (hstep h op).
Proof.
  intros h op Hi. pose proof Hi as [W P]. pose proof (hstep_keeps h op W) as K.
  (* a snapshot retained from before stays present: what it references is kept *)
  assert (OLD : forall l, In l (h_lists h) -> snapshot_present (h_store (hstep h op)) l).
  { intros l Hl. exact (snapshot_present_keeps _ _ _ l K Hl (P l Hl)). }
  destruct (hstep_cases h op) as [news snaps' cur' ND FR OW SN|k mt|tp grace now timeout o].
  - (* HC_grow *) split.
    + apply (wf_store_grow _ _ _ _ W ND FR (OW W)). intros l Hl. destruct (SN l Hl) as [Ho|[_ [M _]]]; auto.
    + intros l Hl. destruct (SN l Hl) as [Ho|[_ [_ N]]]; [exact (OLD l Ho)|exact (N Hi)].
  - (* HC_touch *) split; [apply wf_store_touch; exact W|exact OLD].
  - (* HC_collect: gc_run unfolds to gc_run_from MARKERS_FIRST from (mkG 0 st []) *)
    split; [exact (gc_run_from_wf MARKERS_FIRST tp grace now timeout o _ (mkG 0 (h_store h) []) W)|exact OLD].
Qed.

Lemma hinv_init : hinv hinit.
Proof.
  split.
  - constructor; simpl; try (intros; contradiction); try (intros; discriminate). constructor.
  - intros l [].
Qed.

Theorem history_invariant : forall ops, hinv (run_hist ops).
Proof. intro ops. exact (fold_left_preserves _ _ hstep hinv hinv_step ops hinit hinv_init). Qed.

(* the test the harness evaluates on real table directories *)
Lemma snapshot_presentb_sound : forall st l, snapshot_presentb st l = true -> snapshot_present st l.
Proof.
  intros st l H N. unfold snapshot_presentb in H. rewrite N in H. cbn [negb orb] in H.
  destruct (lookup (resolve l) st) as [ob|] eqn:L; [|discriminate].
  destruct (as_list (body ob)) as [ms|] eqn:B; [|discriminate].
  exists ms. split; [exists ob; auto|]. rewrite forallb_forall in H.
  intros m Hm Nm. specialize (H m Hm). rewrite Nm in H. cbn [negb orb] in H.
  destruct (lookup (resolve m) st) as [ob2|] eqn:L2; [|discriminate].
  destruct (as_manifest (body ob2)) as [es|] eqn:B2; [|discriminate].
  exists es. split; [exists ob2; auto|]. rewrite forallb_forall in H.
  intros e He. specialize (H e He). apply has_key_true in H. destruct H as [ob3 L3]. unfold present. congruence.
Qed.

Lemma hinvb_sound : forall snaps st cur, hinvb (map snd snaps) st = true -> hinv (mkH st snaps cur).
Proof.
  intros snaps st cur H. unfold hinvb in H. apply andb_true_iff in H. destruct H as [H1 H2]. split.
  - apply wf_storeb_sound. exact H1.
  - intros l Hl. apply snapshot_presentb_sound. rewrite forallb_forall in H2. apply H2. exact Hl.
Qed.

Lemma resolve_spell : forall sp n, resolve (spell sp (data_key n)) = data_key n.
Proof. intros sp n. destruct sp as [|[|sp]]; reflexivity. Qed.

Lemma forallb_str_mem_self : forall l, forallb (fun m => str_mem m l) l = true.
Proof. intro l. apply forallb_forall. intros m H. apply str_mem_In. exact H. Qed.

Lemma append_inj_l : forall p a b : string, (p ++ a)%string = (p ++ b)%string -> a = b.
Proof. induction p; simpl; intros a0 b H; [exact H|]. inversion H. auto. Qed.

(* the generic commit is not vacuous: the append of Table.append_records (any of the three canonical spellings of the new
   file's path) with fresh names always satisfies the side conditions, so it really extends the history *)
Lemma op_append_valid : forall h sid name sp mname lname mt,
  lookup (data_key name) (h_store h) = None -> lookup (man_key mname) (h_store h) = None -> lookup (man_key lname) (h_store h) = None ->
  mname <> lname ->
  match op_append h sid name sp mname lname mt with
  | HCommit _ nd nm kept ln lmt _ => valid_commit h nd nm kept ln lmt = true
  | _ => False
  end.
Proof.
  intros h sid name sp mname lname mt F1 F2 F3 NE. unfold op_append, valid_commit. cbv zeta.
  unfold new_objects. cbn [map app fst snd].
  rewrite !andb_true_iff. repeat split.
  - cbn [nodupb]. rewrite !andb_true_iff. repeat split; try reflexivity.
    apply negb_true_iff. apply str_mem_false. intros [E|[]]. apply append_inj_l in E. congruence.
  - cbn [forallb]. rewrite (proj2 (has_key_false _ _) F1), (proj2 (has_key_false _ _) F2), (proj2 (has_key_false _ _) F3). reflexivity.
  - cbn [forallb fst snd]. rewrite resolve_spell. rewrite !andb_true_iff. repeat split; try reflexivity.
    + apply (accepts_data_key literal_normpath _ name); [apply resolve_spell|reflexivity].
    + apply orb_true_iff. right. apply str_mem_In. left. reflexivity.
  - apply forallb_str_mem_self.
Qed.

(* a path that is not literally the key of an existing file is never committed: an alias spelling ("data//f", "data/./f",
   "data/x/../f" name the file data/f only to a filesystem) makes the commit step a no-op, whatever else holds of the table *)
Lemma commit_alias_rejected : forall h sid newdata newmans kept lname lmt expire mn es mt e,
  In (mn, es, mt) newmans -> In e es ->
  has_key (resolve e) (h_store h) = false -> str_mem (resolve e) (map (fun q => data_key (fst q)) newdata) = false ->
  hstep h (HCommit sid newdata newmans kept lname lmt expire) = h.
Proof.
  intros h sid newdata newmans kept lname lmt expire mn es mt e Hm He K1 K2. cbn [hstep].
  destruct (valid_commit h newdata newmans kept lname lmt) eqn:V; [|reflexivity]. exfalso.
  destruct (co_entry _ _ _ _ _ _ (valid_commit_ok _ _ _ _ _ _ V) _ e Hm He) as [_ [[ob L]|[q [E Hq]]]].
  - apply has_key_false in K1. congruence.
  - apply str_mem_false in K2. apply K2. rewrite <- E. exact (in_map (fun q => data_key (fst q)) _ _ Hq).
Qed.
