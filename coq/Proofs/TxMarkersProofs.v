(* Proofs/TxMarkersProofs.v -- the marker ledger of a transaction covers everything it is going to publish, through
   any number of lost commit attempts (Model/TxMarkers.v over the regenerated Gen/GenTxMarkers.v). *)
From Coq Require Import List Arith.
Require Import DS.Model.TxMarkers DS.Proofs.ListFacts.
Import ListNotations.

Lemma memb_In : forall f l, memb f l = true <-> In f l.
Proof. exact (existsb_eqb_In nat Nat.eqb Nat.eqb_eq). Qed.

Lemma hold_self : forall f l, In f (hold f l).
Proof.
  intros f l. unfold hold. destruct (memb f l) eqn:E.
  - apply memb_In. exact E.
  - left. reflexivity.
Qed.

Lemma hold_incl : forall f l, incl l (hold f l).
Proof.
  intros f l x Hx. unfold hold. destruct (memb f l); [exact Hx | right; exact Hx].
Qed.

Lemma uncovered_nil : forall p m, incl p m -> uncovered p m = [].
Proof.
  intros p m Hincl. apply filter_all_false. intros f Hp. rewrite (proj2 (memb_In f m) (Hincl f Hp)). reflexivity.
Qed.

Lemma uncovered_sound : forall p m f, In f p -> ~ In f m -> In f (uncovered p m).
Proof.
  intros p m f Hp Hm. unfold uncovered. apply filter_In. split; [exact Hp|].
  destruct (memb f m) eqn:E; [|reflexivity]. exfalso. apply Hm. apply memb_In. exact E.
Qed.

Lemma hold_covers : forall f p m, incl p m -> uncovered (f :: p) (hold f m) = [] /\ incl (f :: p) (hold f m).
Proof.
  intros f p m H.
  assert (N : incl (f :: p) (hold f m)) by (intros x [<-|Hx]; [apply hold_self | apply hold_incl, H, Hx]).
  split; [apply uncovered_nil; exact N | exact N].
Qed.

(* the ledger's invariant: nothing was ever payload without a marker, and until the transaction is over every file it is
   going to publish (or has just published) is marked *)
Definition xinv (s : xtx) : Prop :=
  x_bare s = [] /\ (x_phase s = XOpen \/ x_phase s = XFlipped -> incl (x_payload s) (x_markers s)).

Lemma xinv_init : xinv xinit.
Proof. split; [reflexivity|]. intros _ x []. Qed.

(* kept folded: xstep_inv uses them only through hold_covers / uncovered_nil, whose statements must match the goal *)
Local Opaque uncovered hold.
Lemma xstep_inv : forall k, kernels_ok k -> forall s e s', xinv s -> xstep k s e = Some s' -> xinv s'.
Proof.
  intros k [Hw [Ha [Ht Hr]]] s e s' [Hbare Hcov] Hstep.
  unfold xstep in Hstep. rewrite Hw, Ha, Ht, Hr in Hstep.
  destruct (x_phase s) eqn:Hph; [| |discriminate|discriminate].
  - assert (Hc : incl (x_payload s) (x_markers s)) by (apply Hcov; left; reflexivity).
    destruct e; try discriminate; injection Hstep as <-; unfold xinv, x_payload, mk in *;
      cbn [x_bare x_phase x_markers x_queued x_attempt app]; rewrite Hbare.
    + (* XWrite: the new file is held before it counts as payload *)
      destruct (hold_covers f _ _ Hc) as [U N]. split; [rewrite U; reflexivity | intros _; exact N].
    + (* XAdopt: likewise *)
      destruct (hold_covers f _ _ Hc) as [U N]. split; [rewrite U; reflexivity | intros _; exact N].
    + (* XRefuse: nothing changes *)
      split; [reflexivity | intros _; exact Hc].
    + (* XAttempt: the manifest joins the attempt's part of the payload *)
      destruct (hold_covers m _ _ Hc) as [U N]. split; [rewrite U; reflexivity|].
      intros _ x Hx. apply N. apply in_elt_inv in Hx. destruct Hx as [<-|Hx]; [left; reflexivity | right; exact Hx].
    + (* XConflict: the lost attempt's manifests are no longer payload *)
      assert (Hq : incl (x_queued s) (x_markers s)) by (intros x Hx; apply Hc, in_or_app; left; exact Hx).
      split; [rewrite (uncovered_nil _ _ Hq); reflexivity | intros _; rewrite app_nil_r; exact Hq].
    + (* XCommit: the payload is covered at the flip *)
      split; [rewrite (uncovered_nil _ _ Hc); reflexivity | intros _; exact Hc].
    + (* XRollback: the transaction is over, the coverage clause is vacuous *)
      split; [reflexivity | intros [H|H]; discriminate].
  - (* flipped: only XFinish is enabled *)
    destruct e; try discriminate. injection Hstep as <-. split; [exact Hbare | intros [H|H]; discriminate].
Qed.

Local Transparent uncovered hold.
(* Props/C06.v reads C06_tx_markers_cover_payload_kernels and, with gen_kernels_ok, C06_tx_markers_cover_payload off this *)
Lemma xrun_inv : forall k, kernels_ok k -> forall evs s, xinv s -> xinv (xrun k s evs).
Proof. intros k Hk. exact (run_skip_preserves _ _ (xstep k) xinv (xstep_inv k Hk)). Qed.

Lemma gen_kernels_ok : kernels_ok gen_xkernels.
Proof. repeat split. Qed.

Lemma xstep_published : forall k s e s', xstep k s e = Some s' ->
  (x_phase s' = XFlipped -> x_published s' = x_payload s') /\ (x_phase s = XFlipped -> x_phase s' = XDone).
Proof.
  intros k s e s' Hstep. unfold xstep in Hstep.
  destruct (x_phase s) eqn:Hph; [| |discriminate|discriminate].
  - (* open: the second clause is vacuous; of the events only XCommit flips, and it publishes the payload as it stands *)
    split; [|intro H; discriminate].
    destruct e; inversion Hstep; subst s'; cbn [x_phase mk]; intro H; try discriminate.
    + (* XRefuse leaves the state as it is: still open *)
      congruence.
    + (* XCommit *)
      reflexivity.
  - (* flipped: only XFinish is enabled, and it ends the transaction *)
    destruct e; try discriminate. inversion Hstep; subst s'. split; [intro H; discriminate|reflexivity].
Qed.
