(* Proofs/SchemaTxProofs.v -- explicit transactions (Model/SchemaTx.v): what one call does to the world and to the
   queue (any table), what the calls of a transaction add up to (run_calls_spec) and what the whole transaction
   leaves of the table (run_tx_spec), and the table-layout invariant of
   Proofs/SchemaProofs.v through calls, transactions and histories of transactions -- with what an accepted call
   queues (`adds`), from which the published files' properties and the exact rows of the full scan follow.

   The behaviour under storage faults is derived from the flags REGENERATED from the source
   (Gen/GenSchema.v: resolve_refresh_propagates, marker_failure_propagates, queue_failure_propagates,
   files_exists_failure_propagates, and adopt_* for the GC-protection step of append_files): the
   proofs compute with their current values, so a source in which a failing refresh() -- or a failure
   in the protection step of a pre-built-file call -- no longer reaches the caller breaks them. *)
From Coq Require Import QArith List.
Require Import DS.Model.Value DS.Model.Prune DS.Gen.GenSchema DS.Model.Schema DS.Model.SchemaTx.
Require Import DS.Proofs.SchemaProofs.
Import ListNotations.
Open Scope Z_scope.

Lemma rows_to_dfile t1 fs : flat_map df_rows (map (to_dfile t1) fs) = flat_map pf_rows fs.
Proof. induction fs as [|p fs IH]; simpl; [reflexivity | rewrite IH; reflexivity]. Qed.

Section TxProofs.
  Variable conv : catype -> pyval -> option pyval.

  Lemma tag_of_rej o : o <> Accepted -> tag_of o <> 0.
  Proof. destruct o; simpl; intro H; try discriminate; contradiction H; reflexivity. Qed.

  (* what the source does with a failing refresh() (regenerated) *)
  Lemma seen_unreadable w : seen_schema true w = None.
  Proof. reflexivity. Qed.
  Lemma seen_readable w : seen_schema false w = Some (w_schema w).
  Proof. reflexivity. Qed.

  (* the last conjunct holds BECAUSE the regenerated flags say that the failures propagate: a failing marker write, or
     a failure after the data file was written (s2 = None), hands on nothing *)
  Lemma stage_records_spec s1 mk s2 w h arg recs :
    let '(w', fo, wr, t) := stage_records conv s1 mk s2 w h arg recs in
    w_schema w' = w_schema w /\ w_snaps w' = w_snaps w
    /\ match fo with Some _ => t = 0 | None => t <> 0 end
    /\ (mk = true \/ s2 = None -> fo = None).
  Proof.
    (* every exit that raises (tag t1 <> 0) hands on no file; what it leaves of the world, w1, has w's schema and
       snapshots *)
    assert (Raises : forall w1 t1, w_schema w1 = w_schema w -> w_snaps w1 = w_snaps w -> t1 <> 0 ->
              w_schema w1 = w_schema w /\ w_snaps w1 = w_snaps w /\ t1 <> 0 /\ (mk = true \/ s2 = None -> @None dfile = None)).
    { intros w1 t1 Hs Hn Ht. auto. }
    unfold stage_records.
    destruct s1 as [t1|]; [|apply Raises; [reflexivity | reflexivity | discriminate]].
    destruct (resolve t1 arg) as [s|o] eqn:R;
      [|apply Raises; [reflexivity | reflexivity | exact (tag_of_rej o (resolve_rejects _ _ _ R))]].
    destruct (mk && marker_failure_propagates) eqn:M; [apply Raises; [reflexivity | reflexivity | discriminate]|].
    destruct (negb (forallb (validate_record (sfields s)) recs)); [apply Raises; [reflexivity | reflexivity | discriminate]|].
    destruct (create_arrow_schema (cache_of w h) s) as [a c'].
    destruct (convert conv a recs) as [rows|]; [|apply Raises; [reflexivity | reflexivity | discriminate]].
    destruct (bounds_for (sfields s) a rows) as [lo hi].
    destruct s2 as [t2|]; [|apply Raises; [reflexivity | reflexivity | discriminate]].
    match goal with |- context [check_files ?x ?y ?z] => destruct (check_files x y z) as [c2 ok] end.
    destruct ok; [|apply Raises; [reflexivity | reflexivity | discriminate]].
    (* the one exit that hands on a file: tag 0; it is not reached under a failing marker write (M) or with s2 = None *)
    split; [reflexivity|]. split; [reflexivity|]. split; [reflexivity|].
    intros [->|N]; [discriminate M | discriminate N].
  Qed.

  Lemma call_records_quiet s1 mk s2 w h arg recs :
    let '(w', _, t, added) := call_records conv s1 mk s2 w h arg recs in
    w_schema w' = w_schema w /\ w_snaps w' = w_snaps w /\ (t <> 0 -> added = []).
  Proof.
    unfold call_records. pose proof (stage_records_spec s1 mk s2 w h arg recs) as S.
    destruct (stage_records conv s1 mk s2 w h arg recs) as [[[w1 fo] wr1] t1]. destruct S as [H1 [H2 [H3 _]]].
    destruct fo; repeat split; auto. intro N. contradiction.
  Qed.

  Lemma call_records_raises s1 mk s2 w h arg recs : mk = true \/ s2 = None ->
    let '(_, _, t, added) := call_records conv s1 mk s2 w h arg recs in t <> 0 /\ added = [].
  Proof.
    intro F. unfold call_records. pose proof (stage_records_spec s1 mk s2 w h arg recs) as S.
    destruct (stage_records conv s1 mk s2 w h arg recs) as [[[w1 fo] wr1] t1]. destruct S as [_ [_ [H3 H4]]].
    rewrite (H4 F) in *. split; [exact H3 | reflexivity].
  Qed.

  (* the protection step of append_files: whatever the regenerated flags say, a raise carries a non-zero tag *)
  Lemma protect_tag ft m fs t : protect ft m fs = Some t -> t <> 0.
  Proof.
    assert (F : forall (b : bool) k, k <> 0 -> (if b then Some k else None) = Some t -> t <> 0).
    { intros [|] k N [= <-]. exact N. }
    unfold protect. destruct (unprotected m fs); [discriminate|].
    destruct ft as [[]|]; try discriminate; apply F; discriminate.
  Qed.

  Lemma protect_nothing ft m fs : unprotected m fs = [] -> protect ft m fs = None.
  Proof. unfold protect. intros ->. reflexivity. Qed.

  Lemma protect_no_window ft m fs : match ft with Some f => hits_protection f = false | None => True end -> protect ft m fs = None.
  Proof. unfold protect. destruct (unprotected m fs); [reflexivity|]. destruct ft as [[]|]; simpl; intro H; try discriminate; reflexivity. Qed.

  Lemma call_files_quiet s1 ft m w h fs :
    let '(w', _, t, added) := call_files s1 ft m w h fs in
    w_schema w' = w_schema w /\ w_snaps w' = w_snaps w /\ (t <> 0 -> added = []).
  Proof.
    unfold call_files. destruct s1 as [t1|]; [|auto].
    destruct (check_files t1 (cache_of w h) fs) as [c' ok].
    destruct ok; [destruct (protect ft m fs)|]; repeat split; auto.
    intro N; contradiction N; reflexivity.
  Qed.

  Lemma call_files_store s1 ft m w h fs :
    let '(w', wr, _, _) := call_files s1 ft m w h fs in wr = [] /\ w_store w' = w_store w /\ w_next w' = w_next w.
  Proof.
    unfold call_files. destruct s1 as [t1|]; [|auto].
    destruct (check_files t1 (cache_of w h) fs) as [c' ok].
    destruct ok; [destruct (protect ft m fs)|]; auto.
  Qed.

  Lemma call_files_protect s1 ft ft' m w h fs :
    protect ft m fs = protect ft' m fs -> call_files s1 ft m w h fs = call_files s1 ft' m w h fs.
  Proof. unfold call_files. intros ->. reflexivity. Qed.

  Lemma call_rejected w m h c :
    let '(w', _, t, added) := call_step conv w m h c in
    w_schema w' = w_schema w /\ w_snaps w' = w_snaps w /\ (t <> 0 -> added = []).
  Proof.
    destruct c as [arg recs|fs|ft arg recs|ft fs]; unfold call_step.
    - apply call_records_quiet.
    - apply call_files_quiet.
    - destruct ft; apply call_records_quiet.
    - destruct ft; apply call_files_quiet.
  Qed.

  Lemma marked_enqueue q wr added :
    forall i, In i (marked (enqueue q wr added)) <-> In i (marked q) \/ In i wr \/ In i (map df_id added).
  Proof.
    intro i. unfold marked, enqueue. simpl. rewrite map_app, !in_app_iff. tauto.
  Qed.

  (* a call that raised (non-zero tag) stands in the trace with no files *)
  Definition honest (tr : list (Z * list dfile)) : Prop := Forall (fun x => fst x <> 0 -> snd x = []) tr.

  Lemma run_calls_spec h cs : forall w q,
    let '(w', q', tr) := run_calls conv w q h cs in
    q_files q' = q_files q ++ flat_map snd tr /\ honest tr /\ length tr = length cs
    /\ w_schema w' = w_schema w /\ w_snaps w' = w_snaps w.
  Proof.
    induction cs as [|c cs IH]; simpl; intros w q.
    - rewrite app_nil_r. repeat split; constructor.
    - pose proof (call_rejected w (marked q) h c) as Cr.
      destruct (call_step conv w (marked q) h c) as [[[w1 wr] t] added]. destruct Cr as [C1 [C2 C3]].
      specialize (IH w1 (enqueue q wr added)).
      destruct (run_calls conv w1 (enqueue q wr added) h cs) as [[w2 q2] tr2]. destruct IH as [Qe [Hn [L [S1 S2]]]].
      simpl in Qe. simpl. rewrite Qe, app_assoc, L, S1, S2.
      split; [reflexivity|]. split; [constructor; assumption|]. split; [reflexivity|]. split; assumption.
  Qed.

  (* what the end of a transaction publishes of the files its calls queued *)
  Definition published (e : tend) (fs : list dfile) : list dfile := match e with EndCommit true => fs | _ => [] end.

  Lemma run_tx_spec w t w1 q tr : run_calls conv w tx_empty (t_handle t) (t_calls t) = (w1, q, tr) ->
    q_files q = flat_map snd tr /\ honest tr /\ length tr = length (t_calls t)
    /\ w_schema (run_tx conv w t) = w_schema w
    /\ w_snaps (run_tx conv w t) = match published (t_end t) (flat_map snd tr) with
                                   | [] => w_snaps w
                                   | fs => (current w ++ fs) :: w_snaps w
                                   end.
  Proof.
    intro R. unfold run_tx. pose proof (run_calls_spec (t_handle t) (t_calls t) w tx_empty) as Sp. rewrite R in *.
    destruct Sp as [Qe [Hn [L [S1 S2]]]]. simpl in Qe. rewrite <- Qe, <- S1. unfold current. rewrite <- S2.
    split; [reflexivity|]. split; [exact Hn|]. split; [exact L|].
    (* only a successful commit of a non-empty queue touches the snapshot list *)
    destruct (t_end t) as [[|]| |]; simpl; destruct (q_files q); auto.
  Qed.

  Variable ts : ischema.
  Let T := sfields ts.
  Let A := arrow_of T.

  Lemma check_layouts_ok fs : forall c, cache_ok ts c ->
    let '(c', ok) := check_layouts (Some ts) c fs in
    cache_ok ts c' /\ (ok = true -> forall p, In p fs -> footer_of p = A).
  Proof.
    induction fs as [|p r IH]; simpl; intros c C.
    - split; [exact C | intros _ q []].
    - destruct (pf_canonical p && pf_exists p && pf_parquet p); [|split; [exact C | discriminate]].
      destruct (create_ok ts c ts C eq_refl) as [c1 [-> C1]].
      destruct (pf_footer p) as [ft|] eqn:F; [|split; [exact C1 | discriminate]].
      destruct (aschema_eqb ft (arrow_of (sfields ts))) eqn:EQ; [|split; [exact C1 | discriminate]].
      specialize (IH c1 C1). destruct (check_layouts (Some ts) c1 r) as [c2 ok]. destruct IH as [C2 Pf].
      split; [exact C2|]. intros O q [->|Hq]; [|exact (Pf O q Hq)].
      unfold footer_of. rewrite F. apply aschema_eqb_eq. exact EQ.
  Qed.

  Lemma check_files_ok fs c : cache_ok ts c ->
    let '(c', ok) := check_files (Some ts) c fs in
    cache_ok ts c' /\ (ok = true -> forall p, In p fs -> footer_of p = A).
  Proof.
    intro C. unfold check_files. pose proof (check_layouts_ok fs c C) as L.
    destruct (check_layouts (Some ts) c fs) as [c1 ok1]. destruct L as [C1 Pf]. split; [exact C1|].
    intro O. apply andb_true_iff in O. exact (Pf (proj1 O)).
  Qed.

  (* what _resolve_table_schema can have yielded on this table: the call raised, or the table's schema *)
  Definition seen_ok (s : option (option ischema)) : Prop := s = None \/ s = Some (Some ts).

  (* What a call with tag t adds to the queue of a transaction on this table: nothing when it raised; when it was
     accepted, the one file its validated records write / its pre-built files, each with the table's footer. *)
  Definition adds_records (recs : list record) (added : list dfile) : Prop :=
    forallb (validate_record T) recs = true /\ exists f, added = [f] /\ writes ts conv recs f.
  Definition adds_files (fs : list pfile) (added : list dfile) : Prop :=
    added = map (to_dfile (Some ts)) fs /\ forall p, In p fs -> footer_of p = A.
  Definition adds (c : call) (t : Z) (added : list dfile) : Prop :=
    if t =? 0 then
      match c with
      | CRecords _ recs | CRecordsF _ _ recs => adds_records recs added
      | CFiles fs | CFilesF _ fs => adds_files fs added
      end
    else added = [].

  Section Generic.
    (* P: what is shown of every published file; Q: what is assumed of the pre-built files handed in. *)
    Variable P : dfile -> Prop.
    Variable Q : pfile -> Prop.

    Lemma seen_schema_ok b w : Inv ts P w -> seen_ok (seen_schema b w).
    Proof.
      intro Iv. destruct b; [left; apply seen_unreadable | right; rewrite seen_readable, (inv_schema ts P w Iv); reflexivity].
    Qed.

    Lemma call_records_inv s1 mk s2 w h arg recs : seen_ok s1 -> seen_ok s2 -> Inv ts P w ->
      let '(w', _, t, added) := call_records conv s1 mk s2 w h arg recs in
      Inv ts P w' /\ if t =? 0 then adds_records recs added else added = [].
    Proof.
      intros K1 K2 Iv.
      (* every exit that raises carries a non-zero tag and queues nothing, so only the invariant of the world it
         leaves is to be shown *)
      assert (Raises : forall w1 t1, Inv ts P w1 -> t1 <> 0 ->
                Inv ts P w1 /\ if t1 =? 0 then adds_records recs [] else @nil dfile = []).
      { intros w1 t1 I1 N. split; [exact I1|]. destruct (Z.eqb_spec t1 0); [contradiction | reflexivity]. }
      unfold call_records, stage_records. destruct K1 as [->| ->]; [apply Raises; [exact Iv | discriminate]|].
      destruct (resolve (Some ts) arg) as [s|o] eqn:R;
        [|apply Raises; [exact Iv | exact (tag_of_rej o (resolve_rejects _ _ _ R))]].
      destruct (mk && marker_failure_propagates); [apply Raises; [exact Iv | discriminate]|].
      destruct (forallb (validate_record (sfields s)) recs) eqn:V; cbn [negb]; [|apply Raises; [exact Iv | discriminate]].
      destruct (derive_ok ts P w h _ s Iv R) as [F [c' [-> Cc]]]. rewrite F in *.
      pose proof (inv_set_cache ts P w h c' Iv Cc) as I1.
      destruct (convert conv (arrow_of (sfields ts)) recs) as [rows|] eqn:CV; [|apply Raises; [exact I1 | discriminate]].
      destruct (bounds_for (sfields ts) (arrow_of (sfields ts)) rows) as [lo hi] eqn:B.
      set (w2 := with_store (set_cache w h c') (w_next w :: w_store (set_cache w h c')) (w_next w + 1)).
      assert (I2 : Inv ts P w2) by (apply inv_with_store; exact I1).
      destruct K2 as [->| ->]; [apply Raises; [exact I2 | discriminate]|].
      match goal with |- context [check_files ?x ?y ?z] =>
        pose proof (check_files_ok z y (cache_of_ok ts P w2 h I2)) as K; destruct (check_files x y z) as [c2 ok] end.
      pose proof (inv_set_cache ts P w2 h c2 I2 (proj1 K)) as I3.
      destruct ok; [|apply Raises; [exact I3 | discriminate]].
      (* the file queued is the one written from the validated records *)
      split; [exact I3|]. split; [exact V|]. eexists. split; [reflexivity|].
      split; [reflexivity|]. split; [exact CV | simpl; rewrite B; split; reflexivity].
    Qed.

    Lemma call_files_inv s1 ft m w h fs : seen_ok s1 -> Inv ts P w ->
      let '(w', _, t, added) := call_files s1 ft m w h fs in
      Inv ts P w' /\ if t =? 0 then adds_files fs added else added = [].
    Proof.
      intros K1 Iv. unfold call_files. destruct K1 as [->| ->]; [split; [exact Iv | reflexivity]|].
      pose proof (check_files_ok fs _ (cache_of_ok ts P w h Iv)) as K.
      destruct (check_files (Some ts) (cache_of w h) fs) as [c' ok]. destruct K as [C1 Pf].
      pose proof (inv_set_cache ts P w h c' Iv C1) as I1.
      destruct ok; [|split; [exact I1 | reflexivity]].
      destruct (protect ft m fs) as [t0|] eqn:Pr; (split; [exact I1|]).
      - destruct (Z.eqb_spec t0 0) as [E|_]; [destruct (protect_tag _ _ _ _ Pr E) | reflexivity].
      - split; [reflexivity | exact (Pf eq_refl)].
    Qed.

    Lemma call_step_inv w m h c : Inv ts P w ->
      let '(w', _, t, added) := call_step conv w m h c in Inv ts P w' /\ adds c t added.
    Proof.
      intro Iv. pose proof (seen_schema_ok false w Iv) as K0. pose proof (seen_schema_ok true w Iv) as K1.
      destruct c as [arg recs|fs|ft arg recs|ft fs]; unfold call_step.
      - apply call_records_inv; assumption.
      - apply call_files_inv; assumption.
      - (* append_data under a window: s1 and s2 are each the readable or the unreadable schema (K0, K1); for FRecheck
           the regenerated flag files_exists_failure_propagates decides which, by computation *)
        destruct ft; apply call_records_inv; assumption.
      - destruct ft; apply call_files_inv; assumption.
    Qed.

    Hypothesis P_records : forall rs f, writes ts conv rs f -> P f.
    Hypothesis P_files : forall p, Q p -> footer_of p = A -> P (to_dfile (Some ts) p).

    Definition call_Q (c : call) : Prop := match c with CFiles fs | CFilesF _ fs => Forall Q fs | _ => True end.
    Definition txn_Q (t : txn) : Prop := Forall call_Q (t_calls t).

    Lemma adds_stored c t added : call_Q c -> adds c t added -> forall f, In f added -> stored ts P f.
    Proof.
      assert (R : forall recs, adds_records recs added -> forall f, In f added -> stored ts P f).
      { intros recs [_ [f0 [-> W]]] f [<-|[]]. split; [apply W | exact (P_records recs f0 W)]. }
      assert (Fl : forall fs, Forall Q fs -> adds_files fs added -> forall f, In f added -> stored ts P f).
      { intros fs QF [-> Ft] f Hf. apply in_map_iff in Hf. destruct Hf as [p [<- Hp]]. rewrite Forall_forall in QF.
        split; [exact (Ft p Hp) | exact (P_files p (QF p Hp) (Ft p Hp))]. }
      unfold adds. destruct (t =? 0); [|intros _ -> f []].
      destruct c; simpl; intros QC H; eauto.
    Qed.

    Lemma run_calls_inv h cs : forall w q, Inv ts P w -> (forall f, In f (q_files q) -> stored ts P f) -> Forall call_Q cs ->
      let '(w', q', _) := run_calls conv w q h cs in
      Inv ts P w' /\ forall f, In f (q_files q') -> stored ts P f.
    Proof.
      induction cs as [|c cs IH]; simpl; intros w q Iv St QC; [split; [exact Iv | exact St]|].
      inversion QC as [|? ? QC1 QC2]; subst.
      pose proof (call_step_inv w (marked q) h c Iv) as Si.
      destruct (call_step conv w (marked q) h c) as [[[w1 wr] t] added]. destruct Si as [I1 Ad].
      specialize (IH w1 (enqueue q wr added) I1).
      destruct (run_calls conv w1 (enqueue q wr added) h cs) as [[w2 q2] tr2]. apply IH; [|exact QC2].
      simpl. intros f Hf. apply in_app_or in Hf.
      destruct Hf as [Hf|Hf]; [exact (St f Hf) | exact (adds_stored c t added QC1 Ad f Hf)].
    Qed.

    Lemma run_tx_inv w t : Inv ts P w -> txn_Q t -> Inv ts P (run_tx conv w t).
    Proof.
      intros Iv QT. unfold run_tx.
      pose proof (run_calls_inv (t_handle t) (t_calls t) w tx_empty Iv (fun f (H : In f []) => match H with end) QT) as Si.
      destruct (run_calls conv w tx_empty (t_handle t) (t_calls t)) as [[w1 q] tr]. destruct Si as [I1 St].
      destruct (t_end t) as [[|]| |]; simpl.
      - (* commit succeeds: an empty queue publishes nothing *)
        destruct (q_files q) as [|f0 fs0] eqn:QF; [exact I1|]. apply inv_publish; assumption.
      - (* commit fails: the files the transaction wrote are deleted *)
        destruct (q_files q); [exact I1 | apply inv_with_store; exact I1].
      - (* rollback *) apply inv_with_store. exact I1.
      - (* abandoned *) exact I1.
    Qed.

    Lemma run_txs_inv txs : forall w, Inv ts P w -> Forall txn_Q txs -> Inv ts P (run_txs conv w txs).
    Proof.
      induction txs as [|t txs IH]; simpl; intros w Iv QT; [exact Iv|].
      inversion QT; subst. apply IH; [apply run_tx_inv; assumption | assumption].
    Qed.
  End Generic.

  (* nothing more shown of the published files, nothing assumed of the pre-built ones *)
  Definition any_pfile (p : pfile) : Prop := True.

  Lemma any_calls cs : Forall (call_Q any_pfile) cs.
  Proof.
    apply Forall_forall. intros c _. destruct c; simpl; auto; apply Forall_forall; intros; exact I.
  Qed.

  Lemma run_tx_layout w t : Inv ts any_dfile w -> Inv ts any_dfile (run_tx conv w t).
  Proof. intro Iv. apply (run_tx_inv any_dfile any_pfile); [apply any_records | exact (fun _ _ _ => I) | exact Iv | apply any_calls]. Qed.

  Lemma run_txs_layout txs : forall w, Inv ts any_dfile w -> Inv ts any_dfile (run_txs conv w txs).
  Proof. induction txs as [|t txs IH]; simpl; intros w Iv; [exact Iv | apply IH, run_tx_layout, Iv]. Qed.

  (* Assumed of a pre-built file (a fact about parquet, like conv_kinds about pyarrow): every cell of a column
     has the kind of the column's footer type. *)
  Definition pf_typed (p : pfile) : Prop :=
    forall row, In row (pf_rows p) -> forall c, has_kind (colkind (footer_of p) c) (cell (vrow row) c) = true.

  Lemma prunable_files p : pf_typed p -> footer_of p = A -> prunable ts (to_dfile (Some ts) p).
  Proof.
    intros Ty F. split.
    - unfold to_dfile, verified_bounds. simpl.
      destruct (pf_lo p), (pf_hi p); simpl; try (left; rewrite F; split; reflexivity). right; auto.
    - intro c. exists (colkind (footer_of p) c). intros v Hv. simpl in Hv. unfold column in Hv. rewrite map_map in Hv.
      apply in_map_iff in Hv. destruct Hv as [row [E Hrow]]. subst v. exact (Ty row Hrow c).
  Qed.

  Lemma run_txs_prunable txs : conv_kinds conv -> Forall (txn_Q pf_typed) txs ->
    Inv ts (prunable ts) (run_txs conv (init (Some ts)) txs).
  Proof.
    intros CK QT. apply (run_txs_inv (prunable ts) pf_typed); [|exact prunable_files|apply inv_init|exact QT].
    intros rs f. apply writes_prunable. exact CK.
  Qed.

  Section TxExact.
    Variable rnd32 : Q -> num.
    Hypothesis CS : conv_sound rnd32 conv.

    (* what a call contributes: the canonical rows of its records / the rows of its files when it was accepted
       (tag 0), nothing when it raised *)
    Definition call_expected (c : call) (t : Z) : list srow :=
      if t =? 0 then
        match c with
        | CRecords _ recs | CRecordsF _ _ recs => map (canon_row rnd32 T) recs
        | CFiles fs | CFilesF _ fs => flat_map pf_rows fs
        end
      else [].

    Fixpoint calls_expected (w : world) (q : txstate) (h : Z) (cs : list call) : list srow :=
      match cs with
      | [] => []
      | c :: cs' =>
        match call_step conv w (marked q) h c with
        | (w', wr, t, added) => call_expected c t ++ calls_expected w' (enqueue q wr added) h cs'
        end
      end.

    Definition tx_expected (w : world) (t : txn) : list srow :=
      match t_end t with EndCommit true => calls_expected w tx_empty (t_handle t) (t_calls t) | _ => [] end.

    Fixpoint txs_expected (w : world) (txs : list txn) : list srow :=
      match txs with [] => [] | t :: r => tx_expected w t ++ txs_expected (run_tx conv w t) r end.

    Lemma adds_rows c t added : adds c t added -> flat_map df_rows added = call_expected c t.
    Proof.
      assert (R : forall recs, adds_records recs added -> flat_map df_rows added = map (canon_row rnd32 T) recs).
      { intros recs [V [f [-> [_ [CV _]]]]]. simpl. rewrite app_nil_r. exact (convert_canon rnd32 conv CS ts recs _ V CV). }
      unfold adds, call_expected. destruct (t =? 0); [|intros ->; reflexivity].
      destruct c; auto; intros [-> _]; apply rows_to_dfile.
    Qed.

    Lemma run_calls_rows P h cs : forall w q, Inv ts P w ->
      let '(_, _, tr) := run_calls conv w q h cs in flat_map df_rows (flat_map snd tr) = calls_expected w q h cs.
    Proof.
      induction cs as [|c cs IH]; simpl; intros w q Iv; [reflexivity|].
      pose proof (call_step_inv P w (marked q) h c Iv) as Si.
      destruct (call_step conv w (marked q) h c) as [[[w1 wr] t] added]. destruct Si as [I1 Ad].
      specialize (IH w1 (enqueue q wr added) I1).
      destruct (run_calls conv w1 (enqueue q wr added) h cs) as [[w2 q2] tr2].
      simpl. rewrite flat_map_app, (adds_rows _ _ _ Ad), IH. reflexivity.
    Qed.

    Lemma run_tx_rows P w t : Inv ts P w ->
      flat_map df_rows (current (run_tx conv w t)) = flat_map df_rows (current w) ++ tx_expected w t.
    Proof.
      intro Iv. pose proof (run_calls_rows P (t_handle t) (t_calls t) w tx_empty Iv) as Rr.
      destruct (run_calls conv w tx_empty (t_handle t) (t_calls t)) as [[w1 q] tr] eqn:R.
      destruct (run_tx_spec w t _ _ _ R) as [_ [_ [_ [_ Hn]]]].
      unfold current at 1, tx_expected. rewrite Hn, <- Rr.
      destruct (t_end t) as [[|]| |]; simpl; try (rewrite app_nil_r; reflexivity).
      destruct (flat_map snd tr); simpl; [rewrite app_nil_r; reflexivity | rewrite flat_map_app; reflexivity].
    Qed.

    Lemma run_txs_exact txs : forall w, Inv ts any_dfile w ->
      full_scan (run_txs conv w txs) = Some (flat_map df_rows (current w) ++ txs_expected w txs).
    Proof.
      induction txs as [|t txs IH]; simpl; intros w Iv.
      - rewrite app_nil_r. unfold full_scan. rewrite (proj1 (inv_scans ts _ w Iv)). reflexivity.
      - rewrite (IH _ (run_tx_layout w t Iv)). rewrite (run_tx_rows _ w t Iv), app_assoc. reflexivity.
    Qed.
  End TxExact.
End TxProofs.

Lemma keys_of_fields_ok (l : list field) :
  forallb (fun k : option Z => match k with Some _ => true | None => false end) (map (fun f => Some (fid f)) l) = true.
Proof. induction l as [|f l IH]; simpl; auto. Qed.

Lemma checked_claims_sound ts c fs c' : check_files ts c fs = (c', true) ->
  forall p, In p fs -> claims_sound (stored_claims ts p) p = true.
Proof.
  unfold check_files. destruct (check_layouts ts c fs) as [c1 ok1]. intro H. injection H as E1 E2.
  apply andb_true_iff in E2. destruct E2 as [_ V]. intros p Hp.
  pose proof (proj1 (forallb_forall _ _) V p Hp) as Vp. unfold claims_verifiable in Vp.
  unfold claims_sound, stored_claims. simpl.
  apply andb_true_iff. split; [apply andb_true_iff; split|].
  - destruct (pc_stat_keys (pf_claims p)); [reflexivity|]. destruct ts as [s|]; [apply keys_of_fields_ok | reflexivity].
  - destruct (pc_sum (pf_claims p)) as [[|]|]; auto.
  - apply Z.eqb_refl.
Qed.

(* "storing the claims as given is sound", and the file (a statistics key that is no int) with which Props/C11.v refutes it *)
Definition claims_as_given_sound_full : Prop := forall p : pfile, claims_sound (stored_claims_as_given p) p = true.
Definition ex_bad_key : pfile :=
  {| pf_id := 70; pf_canonical := true; pf_exists := true; pf_parquet := true; pf_footer := Some []; pf_rows := [];
     pf_lo := None; pf_hi := None; pf_claims := {| pc_stat_keys := [None]; pc_sum := None; pc_count := 0 |} |}.
