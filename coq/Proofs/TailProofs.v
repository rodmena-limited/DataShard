(* Proofs/TailProofs.v -- post-flip infallibility (C04): once the pointer has flipped, no failure of any later step of the
   commit call can delete a file a committed version references -- PROVIDED every exception class that can leave the tail
   of the call is handled by Transaction.commit's keep-files arm (tail_safe); and that proviso is necessary.
   The tails (Gen/GenTail.v) and the handler table (Gen/GenCommit.v) are regenerated from the source on every run. *)
From Coq Require Import ZArith List Bool.
Require Import DS.Model.CommitBase DS.Gen.GenCommit DS.Model.Commit DS.Model.Fault DS.Model.Tail
               DS.Proofs.ListFacts DS.Proofs.CommitProofs.
Require DS.Proofs.FaultProofs.
Import ListNotations.

Lemma tail_safe_spec txon r :
  tail_safe txon r = true <-> (forall e last, tail_escapes r e = true -> txon e last = TxRollbackKeep).
Proof.
  assert (K : forall a, keeps a = true <-> a = TxRollbackKeep) by (intros []; simpl; split; congruence).
  unfold tail_safe. rewrite forallb_forall. split.
  - intros H e last E. assert (Ie : In e all_classes) by (destruct e; simpl; auto).
    specialize (H e Ie). rewrite E in H. apply andb_true_iff in H. apply K. destruct last; apply H.
  - intros H e _. destruct (tail_escapes r e) eqn:E; [|reflexivity]. rewrite !(H e _ E). reflexivity.
Qed.

(* for a handler table that keeps the files on an interrupt and whose `except Exception` arm does not keep them on some attempt
   (gen_tx_on is one): a tail is safe iff every call is guarded *)
Lemma safe_iff_all_guarded txon r :
  (forall last, txon XInterrupt last = TxRollbackKeep) -> (exists last, txon XOther last <> TxRollbackKeep) ->
  (tail_safe txon r = true <-> unguarded r = false).
Proof.
  intros KI [l NO]. rewrite tail_safe_spec. split.
  - intro H. destruct (unguarded r) eqn:U; [|reflexivity]. exfalso. apply NO. apply H. simpl. exact U.
  - intros U e last E. destruct e; simpl in E; try (rewrite U in E; discriminate). apply KI.
Qed.

(* Everything the theorems about the tail machine say beyond those about Fault.v is the hypothesis tail_safe, decided on the
   regenerated tails in Props/C04.v. *)
Lemma safe_escape_is_abort r txon c x a e last x' :
  tail_safe txon r = true -> tstep r txon c x (TEscape a e last) = Some x' ->
  x' = fstep_skip c x (FProto {| e_actor := a; e_kind := EAbort |}).
Proof.
  intros S H. unfold tstep in H.
  destruct (in_tail (a_pc (w_actors (fw x) a)) && tail_escapes r e) eqn:En; [|discriminate].
  apply andb_true_iff in En. destruct En as [_ Esc].
  rewrite (proj1 (tail_safe_spec txon r) S e last Esc) in H. unfold fstep_skip.
  destruct (fstep c x (FProto {| e_actor := a; e_kind := EAbort |})); injection H as <-; reflexivity.
Qed.

Lemma safe_trun_is_frun r txon c : tail_safe txon r = true -> forall evs x, exists l, trun r txon c x evs = frun c x l.
Proof.
  intros Safe evs x. apply (run_skip_projects _ _ _ _ (tstep r txon c) (fstep c) (fun y => y)).
  intros y ev y' H. right. destruct ev as [e|a e last].
  - exists e. unfold skip. simpl in H. rewrite H. reflexivity.
  - eexists. exact (safe_escape_is_abort r txon c y a e last y' Safe H).
Qed.

(* ... in particular the file plane's invariant: the post-flip theorems of Props/C04.v are its readings *)
Lemma safe_trun_finv r txon c m0 kind mr r0 next evs :
  sound c -> (forall f, In f r0 -> (f < next)%nat) -> tail_safe txon r = true ->
  FaultProofs.FInv c (trun r txon c (finit m0 kind mr r0 next) evs).
Proof.
  intros Snd A Safe. destruct (safe_trun_is_frun r txon c Safe evs (finit m0 kind mr r0 next)) as [l ->].
  apply FaultProofs.reach_finv; assumption.
Qed.

(* C04_ambiguous: the arm of the regenerated table for AMBIGUOUS is the keep-files one *)
Lemma kept_escape_deletes_nothing r txon c x a e last x' :
  txon e last = TxRollbackKeep -> tstep r txon c x (TEscape a e last) = Some x' ->
  f_present x' = f_present x /\ f_written x' = f_written x /\ f_dead x' = f_dead x.
Proof.
  intro K. unfold tstep. rewrite K. destruct (in_tail (a_pc (w_actors (fw x) a)) && tail_escapes r e); [|discriminate].
  destruct (fstep c x (FProto {| e_actor := a; e_kind := EAbort |})) as [x1|] eqn:St; intro H; injection H as <-.
  - unfold fstep in St. destruct (step c (fw x) {| e_actor := a; e_kind := EAbort |}); [|discriminate].
    injection St as <-. repeat split; reflexivity.
  - repeat split; reflexivity.
Qed.

Lemma trun_TF r txon c x l : trun r txon c x (map TF l) = frun c x l.
Proof. revert x. induction l as [|e l IH]; intro x; [reflexivity|]. simpl. rewrite <- IH. reflexivity. Qed.

Lemma trun_app r txon c x l1 l2 : trun r txon c x (l1 ++ l2) = trun r txon c (trun r txon c x l1) l2.
Proof. apply fold_left_app. Qed.

(* dm_*: the damage witness of unguarded_tail_damages (the same configuration and initial file plane as the examples of
   Props/C03.v and C04.v) *)
Definition dm_ev a k := {| e_actor := a; e_kind := k |}.
Definition dm_cfg := {| cas := false; lockkind := Excl |}.
Definition dm_init := finit {| m_ops := []; m_cur := 1; m_lu := 100 |} (fun _ => KFresh) (fun _ => 50%nat) [0; 1]%nat 2%nat.
(* one transaction writes a file and commits it, up to and including the pointer flip *)
Definition dm_prefix : list fevent :=
  [FWrite 0; FProto (dm_ev 0 (EBegin 0)); FProto (dm_ev 0 (ELockTry true)); FProto (dm_ev 0 (EValidate 0 true));
   FProto (dm_ev 0 (EMetaW 100)); FProto (dm_ev 0 (EFence true)); FProto (dm_ev 0 (EFlip true))]%nat.

Theorem unguarded_tail_damages r txon e last :
  tail_escapes r e = true -> (txon e last = TxRollbackDelete \/ txon e last = TxPropagate) ->
  let x := trun r txon dm_cfg dm_init (map TF dm_prefix ++ [TEscape 0%nat e last]) in
  In 1%nat (committed (fw x)) /\ In 2%nat (refs x 1%nat) /\ ~ In 2%nat (f_present x).
Proof.
  intros Esc Act x. subst x. rewrite trun_app, trun_TF.
  set (p := frun dm_cfg dm_init dm_prefix).
  assert (St : tstep r txon dm_cfg p (TEscape 0%nat e last)
               = Some (delete_written (match fstep dm_cfg p (FProto (dm_ev 0%nat EAbort)) with Some x' => x' | None => p end) 0%nat)).
  { unfold tstep. replace (in_tail (a_pc (w_actors (fw p) 0%nat))) with true by (vm_compute; reflexivity).
    rewrite Esc. simpl andb. cbv iota. fold (dm_ev 0%nat EAbort). destruct Act as [-> | ->]; reflexivity. }
  unfold trun. simpl fold_left. unfold tstep_skip. rewrite St. vm_compute. repeat split; auto.
  intros [H|[H|[]]]; discriminate.
Qed.

Corollary unguarded_call_damages r :
  unguarded r = true ->
  let x := trun r gen_tx_on dm_cfg dm_init (map TF dm_prefix ++ [TEscape 0%nat XOther false]) in
  In 1%nat (committed (fw x)) /\ In 2%nat (refs x 1%nat) /\ ~ In 2%nat (f_present x).
Proof. intro U. apply unguarded_tail_damages; [exact U | left; reflexivity]. Qed.
