(* Proofs/StrProofs.v -- lemmas about the string primitives of Model/Str.v. *)
From Coq Require Import List Bool Ascii.
Require Import DS.Model.Str DS.Proofs.ListFacts.
Import ListNotations.
Local Arguments Ascii.eqb : simpl never.

Lemma str_eqb_eq : forall a b, str_eqb a b = true <-> a = b.
Proof. exact (eqbl_eq Ascii.eqb Ascii.eqb_eq). Qed.

Lemma str_eqb_refl : forall a, str_eqb a a = true.
Proof. intro a. apply str_eqb_eq. reflexivity. Qed.

Lemma str_eqb_neq : forall a b, str_eqb a b = false <-> a <> b.
Proof.
  intros a b. split; intro H.
  - intro E. apply str_eqb_eq in E. congruence.
  - destruct (str_eqb a b) eqn:E; [apply str_eqb_eq in E; contradiction|reflexivity].
Qed.

Lemma str_eqb_sym : forall a b, str_eqb a b = str_eqb b a.
Proof.
  intros a b. destruct (str_eqb a b) eqn:E.
  - apply str_eqb_eq in E. subst. symmetry. apply str_eqb_refl.
  - symmetry. apply str_eqb_neq. apply str_eqb_neq in E. congruence.
Qed.

Lemma starts_with_app_cancel : forall r x p, starts_with (r ++ x) (r ++ p) = starts_with x p.
Proof. induction r as [|c r IH]; intros x p; simpl; [reflexivity|]. rewrite Ascii.eqb_refl. simpl. apply IH. Qed.

Lemma starts_with_prefixb : forall p x, starts_with x p = prefixb Ascii.eqb p x.
Proof. induction p as [|c p IH]; intros [|d x]; simpl; try reflexivity. rewrite IH. reflexivity. Qed.

Lemma starts_with_spec : forall x p, starts_with x p = true <-> exists t, x = p ++ t.
Proof. intros x p. rewrite starts_with_prefixb. apply prefixb_spec, Ascii.eqb_eq. Qed.

Lemma starts_with_app : forall p x, starts_with (p ++ x) p = true.
Proof. intros p x. apply starts_with_spec. exists x. reflexivity. Qed.

Lemma starts_with_weaken : forall x r y, starts_with x (r ++ y) = true -> starts_with x r = true.
Proof.
  intros x r y H. apply starts_with_spec in H. destruct H as [t ->]. rewrite <- app_assoc. apply starts_with_app.
Qed.

Lemma starts_with_nil_r : forall x, starts_with x [] = true.
Proof. destruct x; reflexivity. Qed.

Lemma lstrip_noslash : forall c x, Ascii.eqb c slash = false -> lstrip_slash (c :: x) = c :: x.
Proof. intros c x H. cbn [lstrip_slash]. rewrite H. reflexivity. Qed.

Lemma lstrip_head : forall x, match lstrip_slash x with [] => True | c :: _ => Ascii.eqb c slash = false end.
Proof.
  induction x as [|c x IH]; simpl; [exact I|]. destruct (Ascii.eqb c slash) eqn:E; [exact IH|exact E].
Qed.

Lemma lstrip_idem : forall x, lstrip_slash (lstrip_slash x) = lstrip_slash x.
Proof.
  intro x. pose proof (lstrip_head x) as H. destruct (lstrip_slash x) as [|c y]; [reflexivity|]. apply lstrip_noslash. exact H.
Qed.

Lemma rstrip_last : forall x, ends_with (rstrip_slash x) [slash] = false.
Proof.
  intro x. unfold ends_with, rstrip_slash. rewrite rev_involutive. change (rev [slash]) with [slash].
  pose proof (lstrip_head (rev x)) as H. destruct (lstrip_slash (rev x)) as [|c y]; [reflexivity|].
  cbn [starts_with]. rewrite Ascii.eqb_sym, H. reflexivity.
Qed.

Lemma ends_with_snoc : forall x c, ends_with (x ++ [c]) [slash] = Ascii.eqb slash c.
Proof.
  intros x c. unfold ends_with. rewrite rev_app_distr. change (rev [slash]) with [slash].
  cbn [rev app starts_with]. apply andb_true_r.
Qed.

Definition noslash (a : str) : Prop := ~ In slash a.

(* the head in the form the primitives test it (the other orientation is Ascii.eqb_sym away) *)
Lemma noslash_cons : forall c a, noslash (c :: a) -> Ascii.eqb c slash = false /\ noslash a.
Proof.
  intros c a H. split; [apply Ascii.eqb_neq; intro E; apply H; left; congruence|intro E; apply H; right; exact E].
Qed.

(* the core of directory confinement: comparing "b/R" against the prefix "a/T" *)
Lemma starts_with_seg : forall a b R T, noslash a -> noslash b ->
  starts_with (b ++ slash :: R) (a ++ slash :: T) = str_eqb a b && starts_with R T.
Proof.
  induction a as [|c a IH]; intros b R T Ha Hb.
  - destruct b as [|d b]; simpl.
    + reflexivity.
    + apply noslash_cons in Hb. destruct Hb as [Hd _]. rewrite Ascii.eqb_sym, Hd. reflexivity.
  - apply noslash_cons in Ha. destruct Ha as [Hc Ha]. destruct b as [|d b]; simpl.
    + rewrite Hc. reflexivity.
    + apply noslash_cons in Hb. destruct Hb as [_ Hb]. rewrite (IH b R T Ha Hb). rewrite andb_assoc. reflexivity.
Qed.

Lemma starts_with_seg_short : forall a b T, noslash b -> starts_with b (a ++ slash :: T) = false.
Proof.
  induction a as [|c a IH]; intros b T Hb; destruct b as [|d b]; simpl; try reflexivity.
  - apply noslash_cons in Hb. destruct Hb as [Hd _]. rewrite Ascii.eqb_sym, Hd. reflexivity.
  - apply noslash_cons in Hb. destruct Hb as [_ Hb]. rewrite (IH b T Hb). apply andb_false_r.
Qed.

Lemma join_cons2 : forall a b k, join (a :: b :: k) = a ++ slash :: join (b :: k).
Proof. reflexivity. Qed.

Lemma split_acc_seg : forall a cur x, noslash a ->
  split_acc cur (a ++ slash :: x) =
  match rev cur ++ a with [] => split_acc [] x | s => s :: split_acc [] x end.
Proof.
  induction a as [|c a IH]; intros cur x Ha.
  - cbn [app split_acc]. rewrite Ascii.eqb_refl. rewrite app_nil_r. destruct cur as [|d cur]; [reflexivity|].
    simpl. destruct (rev cur ++ [d]) eqn:E; [destruct (rev cur); discriminate|reflexivity].
  - apply noslash_cons in Ha. destruct Ha as [Hc Ha]. cbn [app split_acc]. rewrite Hc.
    rewrite (IH (c :: cur) x Ha). simpl. rewrite <- app_assoc. reflexivity.
Qed.

Lemma split_acc_last : forall a cur, noslash a ->
  split_acc cur a = match rev cur ++ a with [] => [] | s => [s] end.
Proof.
  induction a as [|c a IH]; intros cur Ha.
  - cbn [split_acc]. rewrite app_nil_r. destruct cur as [|d cur]; [reflexivity|].
    simpl. destruct (rev cur ++ [d]) eqn:E; [destruct (rev cur); discriminate|reflexivity].
  - apply noslash_cons in Ha. destruct Ha as [Hc Ha]. cbn [app split_acc]. rewrite Hc.
    rewrite (IH (c :: cur) Ha). simpl. rewrite <- app_assoc. reflexivity.
Qed.

Lemma member_In : forall c l, member c l = true <-> In c l.
Proof.
  induction l as [|a l IH]; cbn [member In]; [split; [discriminate|intros []]|].
  rewrite orb_true_iff, str_eqb_eq, IH. split; intros [H|H]; auto.
Qed.
