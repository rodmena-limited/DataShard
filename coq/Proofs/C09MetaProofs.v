(* Proofs/C09MetaProofs.v -- the metadata plane of property C09 over Model/Meta.v.

   Part 1: a retained snapshot is frozen: across ANY continuation of ANY history (transactions that append, delete files --
           which builds a NEW snapshot with rewritten manifests --, expire; snapshot deletions; retention pruning; commits
           that abort or commit nothing) a snapshot that is retained before and after has the timestamp, the sequence
           number and the manifest list (every manifest, every entry) it had.  Only the parent link may be repointed.
   Part 2: lookup by id is complete and exact; deleting the current snapshot repoints to the most recently committed survivor.
   Part 3: lookup by timestamp, unconditionally: the invariant `cordered` (within one timestamp, the snapshots list is
           in commit order -- the stable sort of _apply_retention never swaps equal timestamps) and the characterisation
           of get_snapshot_by_timestamp: greatest timestamp <= t, and among the retained snapshots carrying that
           timestamp the most recently committed; with non-decreasing commit timestamps, the most recently committed.
   Part 4: regress_ops, a fresh history whose clock steps back; with it Props/C09.v refutes the latter statement taken
           without the hypothesis on the clock. *)
From Coq Require Import ZArith List Bool Lia Permutation Sorted.
Require Import DS.Model.MetaBase DS.Model.Meta DS.Model.MetaSpec.
Require Import DS.Proofs.ListFacts DS.Proofs.RepointProofs DS.Proofs.MetaLists DS.Proofs.MetaProofs.
Import ListNotations.
Open Scope Z_scope.

Lemma hist_of_app : forall t0 f0 ops1 ops2, exists X, hist_of t0 f0 (ops1 ++ ops2) = hist_of t0 f0 ops1 ++ X.
Proof.
  intros t0 f0 ops1 ops2. induction ops2 as [|o ops2 [X IH]] using rev_ind.
  - exists []. rewrite !app_nil_r. reflexivity.
  - eexists. rewrite app_assoc, hist_of_snoc, IH, <- app_assoc. reflexivity.
Qed.

Lemma fresh_ops_prefix : forall f0 ops1 ops2, fresh_ops f0 (ops1 ++ ops2) -> fresh_ops f0 ops1.
Proof.
  intros f0 ops1 ops2. induction ops2 as [|o ops2 IH] using rev_ind; intros H; [rewrite app_nil_r in H; exact H|].
  apply IH. rewrite app_assoc in H. apply fresh_ops_snoc in H. tauto.
Qed.

Theorem retained_frozen : forall t0 f0 ops1 ops2 s s',
  fresh_ops f0 (ops1 ++ ops2) ->
  In s (snaps (md (replay t0 f0 ops1))) -> In s' (snaps (md (replay t0 f0 (ops1 ++ ops2)))) -> sid s' = sid s ->
  ts s' = ts s /\ seq s' = seq s /\ mlist s' = mlist s.
Proof.
  intros t0 f0 ops1 ops2 s s' Hf Hs Hs' Hid.
  pose proof (replay_Inv t0 f0 ops1 (fresh_ops_prefix _ _ _ Hf)) as I1. pose proof (replay_Inv t0 f0 (ops1 ++ ops2) Hf) as I2.
  destruct (proj2 (c_ret _ _ (i_core _ _ I1)) s Hs) as [h [Hh [E1 [E2 [E3 E4]]]]].
  destruct (proj2 (c_ret _ _ (i_core _ _ I2)) s' Hs') as [h' [Hh' [F1 [F2 [F3 F4]]]]].
  (* both are the one committed snapshot with that id *)
  destruct (hist_of_app t0 f0 ops1 ops2) as [X HX].
  assert (Hh2 : In h (hist_of t0 f0 (ops1 ++ ops2))) by (rewrite HX; apply in_or_app; left; exact Hh).
  assert (Heq : h' = h) by (eapply NoDup_map_inj_in; [apply (i_nd _ _ I2)|exact Hh'|exact Hh2|congruence]).
  subst h'. repeat split; congruence.
Qed.

Theorem retained_frozen_step : forall t0 f0 ops o s s',
  fresh_ops f0 (ops ++ [o]) ->
  In s (snaps (md (replay t0 f0 ops))) -> In s' (snaps (md (replay t0 f0 (ops ++ [o])))) -> sid s' = sid s ->
  ts s' = ts s /\ seq s' = seq s /\ mlist s' = mlist s.
Proof. intros t0 f0 ops o. apply retained_frozen. Qed.

Lemma find_sid_NoDup : forall l s, NoDup (map sid l) -> In s l -> find (fun x => sid x =? sid s) l = Some s.
Proof.
  intros l s. induction l as [|a l IH]; intros Hnd Hin; [destruct Hin|].
  simpl in *. inversion Hnd as [|? ? Hna Hnd']; subst. destruct Hin as [->|Hin]; [rewrite Z.eqb_refl; reflexivity|].
  destruct (Z.eqb_spec (sid a) (sid s)) as [E|_]; [|apply IH; assumption].
  exfalso. apply Hna. rewrite E. apply in_map. exact Hin.
Qed.

Theorem by_id_none : forall t0 f0 ops id,
  by_id (md (replay t0 f0 ops)) id = None -> ~ In id (sids (md (replay t0 f0 ops))).
Proof.
  intros t0 f0 ops id H Hin. unfold by_id in H. apply sids_In_snap in Hin. destruct Hin as [s [Hs Hsid]].
  apply (find_none _ _ H) in Hs. simpl in Hs. apply Z.eqb_neq in Hs. contradiction.
Qed.

Theorem by_id_retained : forall t0 f0 ops id s, fresh_ops f0 ops ->
  by_id (md (replay t0 f0 ops)) id = Some s ->
  In s (snaps (md (replay t0 f0 ops))) /\ sid s = id /\ exists h, In h (hist_of t0 f0 ops) /\ same_but_parent h s.
Proof.
  intros t0 f0 ops id s Hf Hb. unfold by_id in Hb. apply find_some in Hb. destruct Hb as [Hin He]. apply Z.eqb_eq in He.
  split; [exact Hin|]. split; [exact He|].
  pose proof (wf_invariant t0 f0 ops Hf) as [_ [_ [[_ Hr] _]]]. apply Hr. exact Hin.
Qed.

(* what _most_recent_snapshot_id, walking the snapshot log backwards, finds *)
Lemma most_recent_core : forall H m, Core H m ->
  most_recent m = option_map sid (last_opt (retained_in_commit_order H m)).
Proof.
  intros H m C. unfold most_recent. pose proof (c_slog _ _ C) as Hsl. unfold slog_ok in Hsl.
  destruct (snaps m) as [|s0 rs] eqn:Es.
  - unfold retained_in_commit_order, sids. rewrite Es. rewrite (proj1 (filter_all_false _ _ _)); [reflexivity|]. intros; reflexivity.
  - destruct (snap_has_original H m s0 (c_ret _ _ C)) as [h0 [Hh0 _]]; [rewrite Es; left; reflexivity|].
    destruct (exists_last (l := retained_in_commit_order H m)) as [R [hl HR]]; [intro Hn; rewrite Hn in Hh0; destruct Hh0|].
    assert (Hm : memZ (sid hl) (sids m) = true).
    { assert (Hin : In hl (retained_in_commit_order H m)) by (rewrite HR; apply in_elt).
      apply filter_In in Hin. tauto. }
    rewrite Hsl, HR, map_app, rev_app_distr, last_opt_snoc. simpl. rewrite Hm. reflexivity.
Qed.

Lemma delete_current_core : forall H m id, Core H m -> cur m = Some id -> In id (sids m) ->
  exists m', delete_snapshot m id = Some m' /\
    cur m' = option_map sid (last_opt (filter (fun h => memZ (sid h) (sids m) && negb (sid h =? id)) H)).
Proof.
  intros H m id C Hc Hin. destruct (remove_first_some id (snaps m) Hin) as [rest E].
  destruct (delete_snapshot m id) as [m'|] eqn:Hd; [|unfold delete_snapshot in Hd; rewrite E in Hd; discriminate].
  exists m'. split; [reflexivity|].
  rewrite (delete_snapshot_cases m id m' (proj1 (c_ret _ _ C)) Hd), (proj2 (opt_eqb_eq (cur m) (Some id)) Hc). simpl.
  rewrite (most_recent_core H (delete_pruned m id)) by (apply core_prune; [exact C|apply Permutation_refl]).
  do 2 f_equal. unfold retained_in_commit_order, delete_pruned. rewrite prune_sids.
  apply filter_ext. intros h. apply (memZ_filter_sid (fun i => negb (i =? id))).
Qed.

Theorem delete_current_most_recent : forall t0 f0 ops id, fresh_ops f0 ops ->
  cur (md (replay t0 f0 ops)) = Some id -> In id (sids (md (replay t0 f0 ops))) ->
  exists m', delete_snapshot (md (replay t0 f0 ops)) id = Some m' /\
    cur m' = option_map sid (last_opt (filter (fun h => memZ (sid h) (sids (md (replay t0 f0 ops))) && negb (sid h =? id))
                                              (hist_of t0 f0 ops))).
Proof. intros t0 f0 ops id Hf. apply delete_current_core. apply (i_core _ _ (replay_Inv t0 f0 ops Hf)). Qed.

Definition cls (t : Z) (p : Z * Z) : bool := fst p =? t.

(* within ONE timestamp the snapshots list is in snapshot-log (= commit) order *)
Definition cordered (m : meta) : Prop := forall t, filter (cls t) (map pair_of (snaps m)) = filter (cls t) (slog m).

Lemma ordered_cordered : forall m, ordered m -> cordered m.
Proof. intros m H t. rewrite H. reflexivity. Qed.

Lemma class_pairs : forall t l, filter (cls t) (map pair_of l) = map pair_of (filter (fun s => ts s =? t) l).
Proof. intros t l. apply (filter_map_comm _ _ pair_of (cls t)). Qed.

Lemma prune_cordered : forall m c l P, cordered m -> stable_perm l (snaps m) -> cordered (prune_with m c l P).
Proof.
  intros m c l P Ho [_ Hl] t. unfold prune_with, with_snaps. simpl.
  rewrite (repoint_all_map _ pair_of) by reflexivity.
  rewrite <- (filter_map_comm _ _ pair_of (fun p => P (snd p))), filter_comm, class_pairs, Hl, <- class_pairs, Ho. apply filter_comm.
Qed.

Lemma cordered_pruned : forall m m', cordered m -> pruned m m' -> cordered m'.
Proof. intros m m' Ho [|l Q Hl _|l Q Hl]; [exact Ho| |]; exact (prune_cordered m (cur m) l Q Ho Hl). Qed.

Lemma cordered_ext : forall m m', same_tables m m' -> cordered m -> cordered m'.
Proof. intros m m' [_ [Hs [Hl _]]] H t. rewrite <- Hs, <- Hl. apply H. Qed.

Lemma add_snapshot_cordered : forall m s, cordered m -> cordered (add_snapshot m s).
Proof.
  intros m s Ho t. unfold add_snapshot. simpl. rewrite map_app, !filter_app, Ho. reflexivity.
Qed.

Theorem replay_cordered : forall t0 f0 ops, fresh_ops f0 ops -> cordered (md (replay t0 f0 ops)).
Proof.
  intros t0 f0 ops Hf. apply (replay_inv cordered); try exact Hf.
  - intros t1 f1 t. reflexivity.
  - exact cordered_ext.
  - intros H m m' _. apply cordered_pruned.
  - intros H m id t ml _ Ho _. apply add_snapshot_cordered. exact Ho.
Qed.

Lemma scan_upto_sorted : forall t l, ts_sorted l -> forall acc,
  scan_upto t l acc = match last_opt (filter (fun s => ts s <=? t) l) with Some s => Some s | None => acc end.
Proof.
  intros t l H. induction H as [|x l Hs IH Hall]; intros acc; [reflexivity|].
  simpl. destruct (Z.leb_spec (ts x) t) as [Hle|Hgt].
  - rewrite IH, last_opt_cons. destruct (last_opt (filter (fun s => ts s <=? t) l)); reflexivity.
  - rewrite (proj1 (filter_all_false _ _ _)); [reflexivity|]. rewrite Forall_forall in Hall.
    intros y Hy. apply Z.leb_gt. specialize (Hall y Hy). lia.
Qed.

Lemma sorted_upto_spec : forall t l, ts_sorted l -> forall s, last_opt (filter (fun x => ts x <=? t) l) = Some s ->
  In s l /\ ts s <= t /\ (forall x, In x l -> ts x <= t -> ts x <= ts s) /\
  last_opt (filter (fun x => ts x =? ts s) l) = Some s.
Proof.
  (* from the right: the last element answers if it is not newer than t, and is out of play otherwise *)
  intros t l. induction l as [|a l IH] using rev_ind; intros Hs s Hl; [discriminate|].
  apply StronglySorted_snoc_inv in Hs. destruct Hs as [Hs Hall]. rewrite Forall_forall in Hall.
  rewrite filter_app in Hl. simpl in Hl. destruct (Z.leb_spec (ts a) t) as [Hle|Hgt].
  - rewrite last_opt_snoc in Hl. inversion Hl; subst s.
    split; [apply in_elt|]. split; [exact Hle|]. split.
    + intros x Hx _. apply in_app_or in Hx. destruct Hx as [Hx|[<-|[]]]; [apply Hall; exact Hx|lia].
    + rewrite filter_app. simpl. rewrite Z.eqb_refl. apply last_opt_snoc.
  - rewrite app_nil_r in Hl. destruct (IH Hs s Hl) as [Hin [Hts [Hmax Hlast]]].
    split; [apply in_or_app; left; exact Hin|]. split; [exact Hts|]. split.
    + intros x Hx Hxt. apply in_app_or in Hx. destruct Hx as [Hx|[<-|[]]]; [apply Hmax; assumption|lia].
    + rewrite filter_app. simpl. destruct (Z.eqb_spec (ts a) (ts s)); [lia|]. rewrite app_nil_r. exact Hlast.
Qed.

Lemma by_timestamp_spec_core : forall H m t, Core H m -> cordered m ->
  match by_timestamp m t with
  | Some s => In s (snaps m) /\ ts s <= t /\ (forall x, In x (snaps m) -> ts x <= t -> ts x <= ts s) /\
              option_map sid (last_opt (filter (fun h => memZ (sid h) (sids m) && (ts h =? ts s)) H)) = Some (sid s)
  | None => forall x, In x (snaps m) -> t < ts x
  end.
Proof.
  intros H m t C Ho. unfold by_timestamp.
  pose proof (sort_ts_sorted (snaps m)) as Hsorted.
  rewrite (scan_upto_sorted t _ Hsorted None).
  destruct (last_opt (filter (fun s => ts s <=? t) (sort_ts (snaps m)))) as [s|] eqn:E.
  - destruct (sorted_upto_spec t _ Hsorted s E) as [Hin [Hts [Hmax Hlast]]].
    split; [apply sort_ts_In; exact Hin|]. split; [exact Hts|]. split.
    + intros x Hx. apply Hmax. apply sort_ts_In. exact Hx.
    + assert (Hp : last_opt (filter (cls (ts s)) (map pair_of (sort_ts (snaps m)))) = Some (pair_of s)).
      { rewrite filter_map_comm, last_opt_map. unfold cls, pair_of at 1. simpl fst. rewrite Hlast. reflexivity. }
      rewrite class_pairs, sort_ts_class, <- class_pairs, Ho, (c_slog _ _ C) in Hp. unfold retained_in_commit_order in Hp.
      rewrite filter_map_comm, last_opt_map, filter_filter_andb in Hp. unfold cls in Hp. simpl fst in Hp.
      destruct (last_opt (filter (fun x => memZ (sid x) (sids m) && (ts x =? ts s)) H)) as [h|]; [|discriminate].
      simpl in Hp. inversion Hp. simpl. reflexivity.
  - apply last_opt_none_nil in E. intros x Hx. apply sort_ts_In in Hx.
    pose proof (proj2 (filter_all_false _ _ _) E x Hx) as Hf. simpl in Hf. apply Z.leb_gt in Hf. exact Hf.
Qed.

Lemma nondecreasing_snoc : forall ops o, nondecreasing_ts (ops ++ [o]) ->
  nondecreasing_ts ops /\ (forall t, In t (op_ts o) -> forall x, In x (flat_map op_ts ops) -> x <= t).
Proof.
  intros ops o H. unfold nondecreasing_ts in *. rewrite flat_map_app in H. simpl in H. rewrite app_nil_r in H.
  (* only a Txn carries a timestamp: for the other three operations nothing is appended *)
  destruct o as [tops id t tu f|id tu f|v tu f|v tu f]; simpl in *; try (rewrite app_nil_r in H; split; [exact H|intros t []]).
  apply StronglySorted_snoc_inv in H. destruct H as [Hs Hle]. split; [exact Hs|]. intros t' [<-|[]] x Hx.
  rewrite Forall_forall in Hle. apply Hle. exact Hx.
Qed.

Lemma hist_ts_sorted : forall t0 f0 ops, nondecreasing_ts ops -> StronglySorted Z.le (map ts (hist_of t0 f0 ops)).
Proof.
  intros t0 f0 ops. induction ops as [|o ops IH] using rev_ind; intros Hn; [constructor|].
  apply nondecreasing_snoc in Hn. destruct Hn as [Hn Hle]. rewrite hist_of_snoc.
  destruct (snd (step_full (replay t0 f0 ops) o)) as [s|] eqn:E; [|rewrite app_nil_r; apply IH; exact Hn].
  rewrite map_app. apply StronglySorted_snoc; [apply IH; exact Hn|].
  destruct (step_full_stamp _ _ _ E) as [_ Hst].
  apply Forall_forall. intros x Hx. apply in_map_iff in Hx. destruct Hx as [h [<- Hh]].
  apply (Hle (ts s)); [rewrite Hst; left; reflexivity|]. exact (proj2 (hist_of_ops _ _ _ _ Hh)).
Qed.

Lemma original_has_snap : forall H m h, Inv H m -> In h (retained_in_commit_order H m) ->
  exists s, In s (snaps m) /\ same_but_parent h s.
Proof.
  intros H m h HI Hh. apply filter_In in Hh. destruct Hh as [Hh Hm]. apply memZ_In, sids_In_snap in Hm.
  destruct Hm as [s [Hs Hsid]]. exists s. split; [exact Hs|].
  destruct (proj2 (c_ret _ _ (i_core _ _ HI)) s Hs) as [h' [Hh' Hsame]].
  assert (h' = h) by (eapply NoDup_map_inj_in; [apply (i_nd _ _ HI)|exact Hh'|exact Hh|destruct Hsame; congruence]).
  subst h'. exact Hsame.
Qed.

(* When the history is sorted by timestamp, "greatest timestamp not newer than t, last committed within it" is the last
   committed retained snapshot not newer than t. *)
Lemma by_timestamp_sorted_core : forall H m t, Inv H m -> cordered m -> StronglySorted Z.le (map ts H) ->
  option_map sid (by_timestamp m t) =
  option_map sid (last_opt (filter (fun h => memZ (sid h) (sids m) && (ts h <=? t)) H)).
Proof.
  intros H m t HI Ho Hs.
  pose proof (by_timestamp_spec_core H m t (i_core _ _ HI) Ho) as Hspec.
  rewrite <- filter_filter_andb. fold (retained_in_commit_order H m).
  assert (HR : ts_sorted (retained_in_commit_order H m)).
  { apply StronglySorted_filter. apply (proj1 (StronglySorted_map _ _ ts Z.le H)). exact Hs. }
  destruct (last_opt (filter (fun h => ts h <=? t) (retained_in_commit_order H m))) as [h|] eqn:E.
  - destruct (sorted_upto_spec t _ HR h E) as [Hin [Hts [Hmax Hlast]]].
    destruct (original_has_snap H m h HI Hin) as [sh [Hsh [_ [Hts' _]]]].
    destruct (by_timestamp m t) as [s|]; [|specialize (Hspec sh Hsh); lia].
    destruct Hspec as [Hs1 [Hs2 [Hs3 Hs4]]].
    destruct (snap_has_original H m s (c_ret _ _ (i_core _ _ HI)) Hs1) as [hs [Hhs [_ [Hts2 _]]]].
    assert (Heq : ts h = ts s).
    { apply Z.le_antisymm; [rewrite Hts'; apply Hs3; [exact Hsh|lia]|rewrite <- Hts2; apply Hmax; [exact Hhs|lia]]. }
    rewrite <- filter_filter_andb in Hs4. fold (retained_in_commit_order H m) in Hs4.
    rewrite <- Heq, Hlast in Hs4. symmetry. exact Hs4.
  - apply last_opt_none_nil in E. destruct (by_timestamp m t) as [s|]; [exfalso|reflexivity].
    destruct Hspec as [Hs1 [Hs2 _]].
    destruct (snap_has_original H m s (c_ret _ _ (i_core _ _ HI)) Hs1) as [hs [Hhs [_ [Hts2 _]]]].
    pose proof (proj2 (filter_all_false _ _ _) E hs Hhs) as Hf. simpl in Hf. apply Z.leb_gt in Hf. lia.
Qed.

Theorem by_timestamp_most_recent : forall t0 f0 ops t, fresh_ops f0 ops -> nondecreasing_ts ops ->
  option_map sid (by_timestamp (md (replay t0 f0 ops)) t) =
  option_map sid (last_opt (filter (fun h => memZ (sid h) (sids (md (replay t0 f0 ops))) && (ts h <=? t)) (hist_of t0 f0 ops))).
Proof.
  intros t0 f0 ops t Hf Hn.
  apply by_timestamp_sorted_core; [apply replay_Inv; exact Hf|apply replay_cordered; exact Hf|apply hist_ts_sorted; exact Hn].
Qed.

(* snapshot 1 committed at time 10, then snapshot 2 committed with timestamp 5 (the wall clock stepped back, or a second
   writer's clock lags): both are "not newer than 10", snapshot 2 is the most recently committed, the lookup returns 1 *)
Definition regress_ops : list op := [Txn [TAppend [(0, 1)]] 1 10 1 1; Txn [TAppend [(0, 2)]] 2 5 2 2].

Lemma regress_fresh : fresh_ops 0 regress_ops.
Proof.
  unfold fresh_ops, regress_ops. simpl. repeat split.
  - repeat constructor; simpl; intuition lia.
  - repeat constructor; lia.
  - repeat constructor; simpl; intuition lia.
Qed.

Lemma regress_not_nondecreasing : ~ nondecreasing_ts regress_ops.
Proof.
  unfold nondecreasing_ts, regress_ops. simpl. intro H. inversion H as [|? ? _ Hall]; subst.
  inversion Hall as [|? ? Hle _]; subst. lia.
Qed.
