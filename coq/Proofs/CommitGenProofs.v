(* Proofs/CommitGenProofs.v -- what the commit machine's proofs need from the regenerated kernels
   (Gen/GenCommit.v), and the agreement of the hand-written machine with the regenerated skeleton.

   gen_stamp_eqb_spec / stamp_eqb_true and gen_new_lu_gt are the INTERFACE: Proofs/CommitProofs.v uses gen_stamp_eqb /
   gen_new_lu only through them.  They are re-proved on every run against the definitions the translator has just read off
   MetadataManager.commit; if the source stops validating one of the two stamp fields, or stops making the stamp
   strictly increase along the version chain, the lemma (and with it every theorem of C01 / C02 / C03 / C04 /
   C08) no longer checks. *)
From Coq Require Import ZArith List Bool Lia.
Require Import DS.Model.CommitBase DS.Gen.GenCommit DS.Model.Commit.
Import ListNotations.
Open Scope Z_scope.

Lemma gen_stamp_eqb_spec cc cl bc bl : gen_stamp_eqb cc cl bc bl = true <-> (cc = bc /\ cl = bl).
Proof.
  unfold gen_stamp_eqb. rewrite andb_true_iff, !Z.eqb_eq. tauto.
Qed.

Lemma gen_new_lu_gt now cl : cl < gen_new_lu now cl.
Proof. unfold gen_new_lu. lia. Qed.

Lemma gen_new_lu_ge_now now cl : now <= gen_new_lu now cl.
Proof. unfold gen_new_lu. lia. Qed.

Lemma stamp_eqb_true a b : stamp_eqb a b = true <-> (m_cur a = m_cur b /\ m_lu a = m_lu b).
Proof. unfold stamp_eqb. apply gen_stamp_eqb_spec. Qed.

Lemma model_path_cas_regenerated : model_path true = gen_commit_path_cas.
Proof. reflexivity. Qed.

Lemma model_path_plain_regenerated : model_path false = gen_commit_path_plain.
Proof. reflexivity. Qed.

(* classes that can escape commit() although the pointer may have been (or has been) flipped: the ambiguous
   failure of the commit-point write, and an asynchronous interrupt (it can surface anywhere) *)
Definition may_follow_flip (e : exn_class) : bool :=
  match e with XAmbiguous | XInterrupt => true | XConflict | XOther => false end.

(* a commit-point write that may have taken effect (conditional-write storage, or failed writes not guaranteed invisible)
   is never classified as a clean failure *)
Lemma flip_error_possibly_applied_is_ambiguous casb atomic :
  (casb = true \/ atomic = false) -> gen_flip_exn casb atomic FEError = XAmbiguous.
Proof. intros [H|H]; subst; [destruct atomic | destruct casb]; reflexivity. Qed.

Lemma flip_refused_is_conflict atomic : gen_flip_exn true atomic FEPrecondition = XConflict.
Proof. destruct atomic; reflexivity. Qed.

Lemma handlers_keep_after_possible_flip e last :
  may_follow_flip e = true -> gen_tx_on e last <> TxRollbackDelete /\ gen_discard_on e = false.
Proof. destruct e, last; simpl; intro H; try discriminate; split; (discriminate || reflexivity). Qed.

Lemma conflict_retries : gen_tx_on XConflict false = TxRetry /\ gen_tx_on XConflict true = TxRollbackDelete
  /\ (0 < gen_max_retries)%nat.
Proof. repeat split. unfold gen_max_retries. lia. Qed.

(* nothing propagates with the transaction unfinished, so a context manager's __exit__ cannot run a deleting rollback afterwards *)
Lemma every_class_finishes e last : gen_tx_on e last <> TxPropagate.
Proof. destruct e, last; discriminate. Qed.

(* the unpublished metadata file must go: recovery by "highest version on disk" would surface it (C10) *)
Lemma clean_failure_discards : gen_discard_on XConflict = true /\ gen_discard_on XOther = true.
Proof. split; reflexivity. Qed.
