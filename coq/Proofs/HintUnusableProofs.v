(* Proofs/HintUnusableProofs.v -- the two branches of _current_version_info.  A pointer that parses and names a listed
   file is trusted as it is; every other pointer (Model/HintStore.v `unusable`: missing, unparseable, or naming a file
   that is not stored) is resolved by the scan.  storage.exists does not depend on the order in which the directory is
   listed, so neither does the branch taken. *)
From Coq Require Import List Bool Permutation.
Require Import DS.Model.HintPrim DS.Model.Hint DS.Model.HintStore DS.Proofs.HintProofs.
Require DS.Proofs.ListFacts.
Import ListNotations.
Open Scope N_scope.

Lemma read_hint_total : forall p, exists r, read_hint p = PRet r.
Proof. intros [d|]; [apply parse_total|eexists; reflexivity]. Qed.

Lemma resolve_trusted : forall p es v name,
  read_hint p = PRet (Some (v, name)) -> exists_meta name es = true -> resolve p es = RRet (Some (v, name)).
Proof. intros p es v name Hp He. unfold resolve. rewrite Hp, He. reflexivity. Qed.

Lemma resolve_scan : forall p fs, unusable p fs -> resolve p (map entry_of fs) = recover (map entry_of fs).
Proof. intros p fs [Hp|[v [name [Hp He]]]]; unfold resolve; rewrite Hp; [|rewrite He]; reflexivity. Qed.

(* not used below: resolve_trusted with "names a stored file" said as "not unusable" *)
Lemma usable_trusted : forall p fs v name,
  read_hint p = PRet (Some (v, name)) -> ~ unusable p fs -> resolve p (map entry_of fs) = RRet (Some (v, name)).
Proof.
  intros p fs v name Hp Hn. apply resolve_trusted; [exact Hp|].
  destruct (exists_meta name (map entry_of fs)) eqn:E; [reflexivity|].
  exfalso. apply Hn. right. exists v, name. split; [exact Hp|exact E].
Qed.

Lemma unusable_none : forall fs, unusable None fs.
Proof. intros fs. left. reflexivity. Qed.

Lemma unusable_of_unparsed : forall p fs, read_hint p = PRet None -> unusable p fs.
Proof. intros p fs H. left. exact H. Qed.

Lemma unusable_perm : forall p l fs, Permutation l fs -> unusable p fs -> unusable p l.
Proof.
  intros p l fs HP [H|[v [name [H Hex]]]]; [left; exact H|right].
  exists v, name. split; [exact H|]. rewrite <- Hex. apply ListFacts.existsb_perm, Permutation_map, HP.
Qed.
