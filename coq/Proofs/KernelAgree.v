(* Proofs/KernelAgree.v -- os.path.realpath (as modelled) agrees with the kernel's own path walk whenever
   the kernel resolves the string (C17): the lexical fallbacks of the non-strict realpath (missing
   components, give-up on a loop) are never taken on a path the kernel can walk. *)
From Coq Require Import ZArith List Lia.
Require Import DS.Model.Path DS.Proofs.PathProofs.
Import ListNotations.
Open Scope Z_scope.

(* Successful resolution as a finite derivation, NESTED like _joinrealpath (a link's target is resolved
   completely, then the rest), indexed by its size. *)
Inductive RN (t : tree) : nat -> loc -> pstr -> loc -> Prop :=
| RN_nil : forall cur, RN t 0 cur [] cur
| RN_step : forall n cur c rest l, expands t cur c = None -> RN t n (norm_step cur c) rest l -> RN t (S n) cur (c :: rest) l
| RN_link : forall n1 n2 cur c rest tg m l, expands t cur c = Some tg ->
    RN t n1 (link_start cur tg) (link_rest tg) m -> RN t n2 m rest l -> RN t (S (n1 + n2)) cur (c :: rest) l.

(* the rule that derives a step is determined by whether the component expands *)
Lemma RN_inv : forall t n cur s l, RN t n cur s l ->
  match s with
  | [] => n = 0%nat /\ l = cur
  | c :: rest =>
    match expands t cur c with
    | Some tg => exists n1 n2 m, n = S (n1 + n2) /\ RN t n1 (link_start cur tg) (link_rest tg) m /\ RN t n2 m rest l
    | None => exists n', n = S n' /\ RN t n' (norm_step cur c) rest l
    end
  end.
Proof.
  intros t n cur s l H. destruct H as [cur|n cur c rest l Hx R|n1 n2 cur c rest tg m l Hx R1 R2].
  - split; reflexivity.
  - rewrite Hx. eauto.
  - rewrite Hx. eauto 6.
Qed.

Lemma RN_det : forall t n1 cur rest l1, RN t n1 cur rest l1 -> forall n2 l2, RN t n2 cur rest l2 -> n1 = n2 /\ l1 = l2.
Proof.
  intros t n1 cur rest l1 H. induction H as [cur|n cur c rest l Hx H IH|na nb cur c rest tg m l Hx H1 IH1 H2 IH2]; intros n2 l2 H'.
  - apply RN_inv in H'. destruct H' as [-> ->]. split; reflexivity.
  - apply RN_inv in H'. simpl in H'. rewrite Hx in H'. destruct H' as [n' [-> R]].
    destruct (IH _ _ R) as [-> ->]. split; reflexivity.
  - apply RN_inv in H'. simpl in H'. rewrite Hx in H'. destruct H' as [n1 [n2' [m' [-> [R1 R2]]]]].
    destruct (IH1 _ _ R1) as [-> ->]. destruct (IH2 _ _ R2) as [-> ->]. split; reflexivity.
Qed.

Lemma kwalk_RN_app : forall t n cur a b l, kwalk n t cur (a ++ b) = Ok l ->
  exists m na nb, RN t na cur a m /\ kwalk nb t m b = Ok l /\ (nb <= n)%nat.
Proof.
  intros t n. induction n as [n IHn] using lt_wf_ind. intros cur a b l H.
  destruct n as [|f]; [simpl in H; discriminate|].
  destruct a as [|c a].
  - exists cur, 0%nat, (S f). split; [constructor|]. split; [exact H|lia].
  - apply kwalk_step in H. destruct (expands t cur c) as [tg|] eqn:Ex.
    + (* a link: split the flat walk of target ++ rest after the target, then again after a *)
      destruct (IHn f (Nat.lt_succ_diag_r f) _ (link_rest tg) (a ++ b) l H) as [m1 [n1 [nb1 [R1 [K1 L1]]]]].
      assert (Hlt : (nb1 < S f)%nat) by lia.
      destruct (IHn nb1 Hlt m1 a b l K1) as [m2 [n2 [nb2 [R2 [K2 L2]]]]].
      exists m2, (S (n1 + n2)), nb2. split; [eapply RN_link; eassumption|]. split; [exact K2|lia].
    + (* the walk goes on from the new position with one unit less, and so does the derivation *)
      destruct (IHn f (Nat.lt_succ_diag_r f) _ a b l H) as [m [na [nb [R [K' L]]]]].
      exists m, (S na), nb. split; [apply RN_step; assumption|]. split; [exact K'|lia].
Qed.

Lemma kwalk_RN : forall t n cur s l, kwalk n t cur s = Ok l -> exists k, RN t k cur s l.
Proof.
  intros t n cur s l H. rewrite <- (app_nil_r s) in H.
  destruct (kwalk_RN_app t n cur s [] l H) as [m [na [nb [R [K _]]]]].
  destruct nb; simpl in K; [discriminate|]. inversion K; subst. exists na. exact R.
Qed.

(* realpath follows a nested derivation; an in-progress link cannot recur inside its own (finite) expansion *)
Definition in_progress (t : tree) (n : nat) (seen : list loc) : Prop :=
  forall M, In M seen -> exists tgM nM lM, lstat t M = Some (Link tgM)
    /\ RN t nM (link_start (removelast M) tgM) (link_rest tgM) lM /\ (n <= nM)%nat.

(* top bounds the size of the derivation that is followed; the expansions in progress are at least that large *)
Lemma RN_jrp : forall t n cur rest l, RN t n cur rest l ->
  forall top d seen, (n <= top)%nat -> in_progress t top seen -> jrp d t cur rest seen = RPOk l \/ jrp d t cur rest seen = RPFuel.
Proof.
  intros t n cur rest l H. induction H as [cur|n cur c rest l Hx H IH|na nb cur c rest tg m l Hx H1 IH1 H2 IH2];
    intros top d seen Htop Hp.
  - left. apply jrp_nil.
  - rewrite jrp_cons, Hx. apply (IH top); [lia|exact Hp].
  - rewrite jrp_cons, Hx. apply expands_some in Hx. destruct Hx as [_ Hl].
    destruct (mem (cur ++ [c]) seen) eqn:Em.
    + (* met again while being expanded: its expansion would be a strict part of itself, but expansions have one size *)
      exfalso. apply mem_iff in Em. destruct (Hp _ Em) as [tgM [nM [lM [A [B C0]]]]].
      rewrite Hl in A. inversion A; subst tgM. rewrite removelast_last in B.
      destruct (RN_det _ _ _ _ _ H1 _ _ B) as [E _]. lia.
    + destruct d as [|d']; [right; reflexivity|].
      assert (Hp1 : in_progress t na ((cur ++ [c]) :: seen)).
      { intros M [<-|HM].
        - exists tg, na, m. rewrite removelast_last. repeat split; try assumption. lia.
        - destruct (Hp M HM) as [tgM [nM [lM [A [B C0]]]]]. exists tgM, nM, lM. repeat split; try assumption. lia. }
      destruct (IH1 na d' _ (le_n na) Hp1) as [E|E]; rewrite E; [|right; reflexivity].
      apply (IH2 top); [lia|exact Hp].
Qed.

Theorem realpath_agrees_with_kernel : forall d t cwd s kf l,
  (count_links t <= d)%nat ->
  kwalk kf t [] (tl (absolutize cwd s)) = Ok l -> realpath d t cwd s = Ok l.
Proof.
  intros d t cwd s kf l Hd Hk. destruct (kwalk_RN _ _ _ _ _ Hk) as [k R].
  pose proof (realpath_fuel d t cwd s Hd) as Hf. unfold realpath in *.
  destruct (RN_jrp _ _ _ _ _ R k d [] (le_n k) (fun M HM => match HM with end)) as [E|E]; rewrite E in *; [reflexivity|congruence].
Qed.

Theorem kernel_outside_rejected : forall d t cwd base p kf l rb,
  (count_links t <= d)%nat ->
  kwalk kf t [] (tl (absolutize cwd (join_for_resolve base p))) = Ok l ->
  realpath d t cwd base = Ok rb -> is_prefix rb l = false ->
  resolve d t cwd base p = Err Security.
Proof.
  intros d t cwd base p kf l rb Hd Hk Hb Hn.
  eapply resolve_reject; [eapply realpath_agrees_with_kernel; eassumption|exact Hb|exact Hn].
Qed.

(* for a relative string every guard resolves the same join, so the refusal is every entry point's (run_entry_rejects) *)
Lemma kernel_outside_entry_rejected : forall d t cwd dirs base ep p kf l rb,
  is_abs p = false -> (count_links t <= d)%nat ->
  kwalk kf t [] (tl (absolutize cwd (join_for_resolve base p))) = Ok l ->
  realpath d t cwd base = Ok rb -> is_prefix rb l = false ->
  run_entry d t cwd dirs base ep p = Err Security.
Proof.
  intros d t cwd dirs base ep p kf l rb Hrel Hd Hk Hb Hn.
  eapply run_entry_rejects; [exact Hrel|exact Hb|]. eapply kernel_outside_rejected; eassumption.
Qed.
