(* Proofs/ReadBlocksProofs.v -- block-wise decoding never yields a partial container (C14); a decode cache that stores
   only complete decodes is invisible, with the statement and witness for the eager variant that Props/C14.v refutes. *)
From Coq Require Import ZArith List String.
Require Import DS.Model.Read DS.Model.ReadBlocks.
Import ListNotations.
Open Scope list_scope.

Lemma stream_none : forall A (bs : list (blk A)),
  snd (stream bs) = None -> forallb good bs = true /\ fst (stream bs) = all_records bs.
Proof.
  intros A bs. induction bs as [|[r|p0 m] tl IH]; simpl; intro H.
  - split; reflexivity.
  - destruct (IH H) as [Hg Hr]. split; [exact Hg|]. unfold all_records in *. simpl. rewrite Hr. reflexivity.
  - discriminate.
Qed.

Lemma stream_some : forall A (bs : list (blk A)) m,
  snd (stream bs) = Some m ->
  exists pre p tl, bs = pre ++ BBad p m :: tl /\ forallb good pre = true /\ fst (stream bs) = all_records pre ++ p.
Proof.
  intros A bs m. induction bs as [|[r|p0 m'] tl IH]; simpl; intro H.
  - discriminate.
  - destruct (IH H) as [pre [p [tl' [Hb [Hg Hr]]]]]. exists (BGood r :: pre), p, tl'. subst tl. simpl.
    split; [reflexivity|]. split; [exact Hg|]. unfold all_records in *. simpl. rewrite Hr. rewrite app_assoc. reflexivity.
  - inversion H; subst m'. exists [], p0, tl. simpl. auto.
Qed.

Lemma stream_bad : forall A (pre : list (blk A)) p m tl,
  forallb good pre = true -> snd (stream (pre ++ BBad p m :: tl)) = Some m.
Proof.
  intros A pre p m tl. induction pre as [|[r|p0 m'] pre IH]; simpl; intro Hg; [reflexivity|apply IH; exact Hg|discriminate].
Qed.

Theorem collect_all_or_nothing : forall A (bs : list (blk A)) xs,
  collect bs = AvOk xs -> forallb good bs = true /\ xs = all_records bs.
Proof.
  intros A bs xs H. unfold collect in H. destruct (snd (stream bs)) as [m|] eqn:Hs; [discriminate|].
  inversion H; subst xs. apply stream_none. exact Hs.
Qed.

Lemma collect_bad : forall A (bs : list (blk A)), forallb good bs = false -> exists m, collect bs = AvRaise m.
Proof.
  intros A bs H. destruct (collect bs) as [xs|m] eqn:Hc; [|eauto].
  apply collect_all_or_nothing in Hc as [Hg _]. congruence.
Qed.

Lemma bad_block_no_content : forall A (xb : bytes -> list (blk A)) (js : bytes -> option (list A)) classes b,
  forallb good (xb b) = false -> js b = None -> content (fun b => collect (xb b)) js classes b = None.
Proof.
  intros A xb js classes b Hbad Hj. unfold content. destruct (collect_bad _ (xb b) Hbad) as [m ->].
  destruct (caught classes m); [exact Hj|reflexivity].
Qed.

Definition cache_sound (dec : bytes -> avro (list dfile)) (c : dcache) : Prop :=
  forall b xs, cache_find c b = Some xs -> dec b = AvOk xs.

Lemma cached_decode_spec : forall dec c b, cache_sound dec c ->
  fst (cached_decode dec c b) = dec b /\ cache_sound dec (snd (cached_decode dec c b)).
Proof.
  intros dec c b Hs. unfold cached_decode. destruct (cache_find c b) as [xs|] eqn:Hf.
  - simpl. split; [symmetry; apply Hs; exact Hf|exact Hs].
  - destruct (dec b) as [xs|m] eqn:Hd; simpl; (split; [reflexivity|]); [|exact Hs].
    intros b' xs' H'. unfold cache_find in H'. simpl in H'. destruct (N.eqb b b') eqn:Hbb.
    + apply N.eqb_eq in Hbb. subst b'. simpl in H'. inversion H'; subst xs'. exact Hd.
    + apply Hs. exact H'.
Qed.

Theorem cache_transparent_from : forall dec reads c, cache_sound dec c ->
  fst (run_decodes dec c reads) = map dec reads.
Proof.
  intros dec reads. induction reads as [|b tl IH]; intros c Hs; simpl; [reflexivity|].
  destruct (cached_decode_spec dec c b Hs) as [H1 H2]. rewrite H1, (IH _ H2). reflexivity.
Qed.

(* the statement C14_eager_decode_cache_refuted refutes *)
Definition eager_transparent : Prop := forall (mb : bytes -> list (blk dfile)) (reads : list bytes),
  fst (run_eager mb [] reads) = map (fun b => collect (mb b)) reads.

(* its witness: w_blocks ignores its argument (every byte string decodes to the same three blocks, the second one bad);
   w_blocks_sample is w_blocks at the byte string the example reads *)
Definition w_df (k : N) : dfile := {| dpath := k; dcount := 1%Z; dsum := None |}.
Definition w_blocks (b : bytes) : list (blk dfile) := [BGood [w_df 8%N]; BBad [w_df 7%N] ["EOFError"; "Exception"]%string; BGood [w_df 9%N]].

Definition w_blocks_sample : list (blk dfile) := w_blocks 5%N.
