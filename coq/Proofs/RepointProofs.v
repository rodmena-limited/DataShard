(* Proofs/RepointProofs.v -- the regenerated repointing walk (Gen/GenRepoint.v):
     - it terminates within the fuel `gen_repoint_one` gives it, on EVERY parent map (cyclic, dangling,
       duplicated keys), and yields nothing (None / -1) or a kept id reachable by parent links;
     - on every ACYCLIC parent map it computes exactly the nearest surviving ancestor (relation `nsa`). *)
From Coq Require Import ZArith List Lia.
Require Import DS.Model.MetaBase DS.Gen.GenRepoint DS.Proofs.ListFacts.
Import ListNotations.
Open Scope Z_scope.

(* b is the parent the dict records for a *)
Definition pstep (po : list (Z * option Z)) (a b : Z) : Prop := py_dict_get po (Some a) = Some b.

(* one or more parent links *)
Inductive reach (po : list (Z * option Z)) : Z -> Z -> Prop :=
| reach_one : forall a b, pstep po a b -> reach po a b
| reach_step : forall a b c, pstep po a b -> reach po b c -> reach po a c.

Definition acyclic (po : list (Z * option Z)) : Prop := forall x, ~ reach po x x.

(* starting from the link value `start`, k is start itself or reachable from it *)
Definition reaches (po : list (Z * option Z)) (start : option Z) (k : Z) : Prop :=
  start = Some k \/ exists p, start = Some p /\ reach po p k.

(* the same predicate as MetaSpec.nil_link (this file does not depend on the metadata model); Proofs/MetaProofs.v uses one
   for the other by conversion *)
Definition nil_id (o : option Z) : Prop := o = None \/ o = Some (-1).

Definition walk_post (po : list (Z * option Z)) (kept : list Z) (start r : option Z) : Prop :=
  nil_id r \/ exists k, r = Some k /\ In k kept /\ reaches po start k.

(* nearest surviving ancestor, as a relation: follow parent links from `start` until nothing, -1, or a kept id *)
Inductive nsa (po : list (Z * option Z)) (kept : list Z) : option Z -> option Z -> Prop :=
| nsa_none : nsa po kept None None
| nsa_root : nsa po kept (Some (-1)) (Some (-1))
| nsa_kept : forall p, p <> -1 -> In p kept -> nsa po kept (Some p) (Some p)
| nsa_next : forall p r, p <> -1 -> ~ In p kept -> nsa po kept (py_dict_get po (Some p)) r -> nsa po kept (Some p) r.

Lemma memZ_In : forall x l, memZ x l = true <-> In x l.
Proof. intros x l. apply (existsb_eqb_In Z Z.eqb Z.eqb_eq). Qed.

Lemma memZ_false : forall x l, memZ x l = false <-> ~ In x l.
Proof. intros x l. apply (existsb_eqb_not_In Z Z.eqb Z.eqb_eq). Qed.

Lemma opt_eqb_eq : forall a b, opt_eqb a b = true <-> a = b.
Proof.
  intros [a|] [b|]; simpl; split; intros H; try congruence; try reflexivity.
  - apply Z.eqb_eq in H. congruence.
  - inversion H. apply Z.eqb_refl.
Qed.

Lemma py_in_seen_In : forall x seen, py_in_seen x seen = true <-> In x seen.
Proof. intros x seen. apply (existsb_eqb_In _ opt_eqb opt_eqb_eq). Qed.

Lemma dict_get_In : forall (V : Type) (d : list (Z * V)) k v, dict_get d k = Some v -> In (k, v) d.
Proof.
  intros V d k v. induction d as [|[k' v'] d IH]; simpl; [discriminate|].
  destruct (dict_get d k) as [w|] eqn:E.
  - intros H. inversion H. subst. right. apply IH. reflexivity.
  - destruct (Z.eqb_spec k' k); [|discriminate]. intros H. inversion H. subst. left. reflexivity.
Qed.

Lemma dict_get_key : forall (V : Type) (d : list (Z * V)) k v, dict_get d k = Some v -> In k (map fst d).
Proof. intros V d k v H. apply dict_get_In in H. apply in_map_iff. exists (k, v). split; [reflexivity|exact H]. Qed.

Lemma pstep_In : forall po a b, pstep po a b -> In (a, Some b) po.
Proof.
  unfold pstep, py_dict_get. intros po a b H. destruct (dict_get po a) as [v|] eqn:E; [|discriminate].
  subst. apply dict_get_In. exact E.
Qed.

Lemma decreasing_acyclic : forall po, (forall a b, In (a, Some b) po -> b < a) -> acyclic po.
Proof.
  intros po Hstep.
  assert (Hdec : forall a b, reach po a b -> b < a).
  { intros a b Hr. induction Hr as [a b Hs|a b c Hs Hr IH]; apply pstep_In, Hstep in Hs; lia. }
  intros x Hx. apply Hdec in Hx. lia.
Qed.

Lemma reach_trans : forall po a b c, reach po a b -> reach po b c -> reach po a c.
Proof. intros po a b c H. induction H; intros Hc; eapply reach_step; eauto. Qed.

(* One unfolding of the generated Fixpoint, as the Python loop reads.  Everything below uses only this
   equation: if the regenerated text changes meaning, this lemma is where the development breaks. *)
Lemma gen_walk_unfold : forall fuel po kept seen parent,
  gen_walk (S fuel) po kept seen parent =
  match parent with
  | None => Some None
  | Some p =>
      if p =? -1 then Some (Some p)
      else if memZ p kept then Some (Some p)
      else if py_in_seen (Some p) seen then Some None
      else gen_walk fuel po kept (Some p :: seen) (py_dict_get po (Some p))
  end.
Proof.
  intros fuel po kept seen [p|]; [|reflexivity].
  cbn [gen_walk py_is_not_none py_ne_int py_in_ints py_seen_add andb].
  destruct (p =? -1); cbn [negb andb]; [reflexivity|].
  destruct (memZ p kept); cbn [negb andb]; reflexivity.
Qed.

Definition key_opts (po : list (Z * option Z)) : list (option Z) := map Some (map fst po).
Definition keys_in (po : list (Z * option Z)) (seen : list (option Z)) : Prop := incl seen (key_opts po).

Lemma keys_in_length : forall po seen, NoDup seen -> keys_in po seen -> (length seen <= length po)%nat.
Proof.
  intros po seen Hnd Hin. unfold keys_in, key_opts in Hin.
  pose proof (NoDup_incl_length Hnd Hin) as H. rewrite !map_length in H. exact H.
Qed.

Lemma next_is_key : forall po p, py_dict_get po (Some p) <> None -> In (Some p) (key_opts po).
Proof.
  intros po p H. unfold py_dict_get in H. destruct (dict_get po p) as [v|] eqn:E; [|congruence].
  apply in_map. exact (dict_get_key _ po p v E).
Qed.

Lemma reaches_next : forall po p k, reaches po (py_dict_get po (Some p)) k -> reaches po (Some p) k.
Proof.
  intros po p k [H|[q [H Hr]]]; right; exists p; split; try reflexivity.
  - apply reach_one. exact H.
  - eapply reach_step; [exact H|exact Hr].
Qed.

(* `seen` holds distinct keys of the map (but for its head, the link just followed): it cannot outgrow the map, so the
   fuel suffices.  On an acyclic map every seen key leads to the current link: the walk never meets a seen key again. *)
Lemma gen_walk_spec : forall po kept fuel seen parent,
  (length po + 2 <= fuel + length seen)%nat ->
  NoDup seen -> keys_in po (tl seen) -> (parent <> None -> keys_in po seen) ->
  exists r, gen_walk fuel po kept seen parent = Some r /\ walk_post po kept parent r /\
    (acyclic po -> (forall x q, In (Some x) seen -> parent = Some q -> reach po x q) -> nsa po kept parent r).
Proof.
  intros po kept fuel. induction fuel as [|fuel IH]; intros seen parent Hf Hnd Htl Hk.
  - exfalso. destruct seen as [|x seen]; simpl in *; [lia|].
    apply NoDup_cons_iff in Hnd. pose proof (keys_in_length po seen (proj2 Hnd) Htl). lia.
  - rewrite gen_walk_unfold. destruct parent as [p|].
    + assert (Hks : keys_in po seen) by (apply Hk; discriminate).
      destruct (Z.eqb_spec p (-1)) as [->|Hp1].
      { eexists. split; [reflexivity|]. split; [left; right; reflexivity|intros _ _; constructor]. }
      destruct (memZ p kept) eqn:Hm.
      { apply memZ_In in Hm. eexists. split; [reflexivity|]. split; [|intros _ _; apply nsa_kept; assumption].
        right. exists p. split; [reflexivity|]. split; [exact Hm|left; reflexivity]. }
      destruct (py_in_seen (Some p) seen) eqn:Hs.
      { eexists. split; [reflexivity|]. split; [left; left; reflexivity|].
        intros Hac Hre. exfalso. apply py_in_seen_In in Hs. apply (Hac p). apply (Hre p p Hs). reflexivity. }
      assert (Hns : ~ In (Some p) seen).
      { intro Hin. apply py_in_seen_In in Hin. congruence. }
      destruct (IH (Some p :: seen) (py_dict_get po (Some p))) as [r [Hr [Hpost Hnsa]]].
      * pose proof (keys_in_length po seen Hnd Hks). simpl. lia.
      * constructor; assumption.
      * exact Hks.
      * intros Hnn x [<-|Hx]; [apply next_is_key; exact Hnn|apply Hks; exact Hx].
      * exists r. split; [exact Hr|]. split.
        -- destruct Hpost as [Hn|[k [-> [Hk1 Hk2]]]]; [left; exact Hn|].
           right. exists k. split; [reflexivity|]. split; [exact Hk1|]. apply reaches_next. exact Hk2.
        -- intros Hac Hre. apply nsa_next; [exact Hp1|apply memZ_false; exact Hm|]. apply Hnsa; [exact Hac|].
           intros x q [Hx|Hx] Hq.
           ++ inversion Hx; subst. apply reach_one. exact Hq.
           ++ eapply reach_trans; [apply (Hre x p Hx); reflexivity|]. apply reach_one. exact Hq.
    + eexists. split; [reflexivity|]. split; [left; left; reflexivity|intros _ _; constructor].
Qed.

Lemma gen_repoint_one_spec : forall po kept start,
  exists r, gen_repoint_one po kept start = Some r /\ walk_post po kept start r /\ (acyclic po -> nsa po kept start r).
Proof.
  intros po kept start. unfold gen_repoint_one.
  destruct (gen_walk_spec po kept (S (S (length po))) [] start) as [r [Hr [Hp Hn]]].
  - simpl. lia.
  - constructor.
  - intros x Hx. destruct Hx.
  - intros _ x Hx. destruct Hx.
  - exists r. split; [exact Hr|]. split; [exact Hp|]. intros Hac. apply Hn; [exact Hac|]. intros x q Hx. destruct Hx.
Qed.

(* No hypothesis on the parent map: cycles, dangling links and duplicated ids included (C15_repoint_cycle). *)
Theorem gen_repoint_one_total : forall po kept start,
  exists r, gen_repoint_one po kept start = Some r /\ walk_post po kept start r.
Proof. intros po kept start. destruct (gen_repoint_one_spec po kept start) as [r [Hr [Hp _]]]. exists r. split; assumption. Qed.

Lemma nsa_fun : forall po kept start r1 r2, nsa po kept start r1 -> nsa po kept start r2 -> r1 = r2.
Proof.
  (* the four rules overlap nowhere: `p <> -1` separates root from kept / next, `In p kept` separates kept from next; what is
     left after the inversion is the same rule twice (equal at once, or by the induction hypothesis for next) *)
  intros po kept start r1 r2 H1. revert r2. induction H1; intros r2 H2; inversion H2; subst; try reflexivity; try congruence; try contradiction.
  apply IHnsa. assumption.
Qed.

(* Acyclic maps may still have dangling links and duplicated ids (C15_repoint_nearest). *)
Theorem gen_repoint_one_nearest : forall po kept start r, acyclic po ->
  (gen_repoint_one po kept start = Some r <-> nsa po kept start r).
Proof.
  intros po kept start r Hac. destruct (gen_repoint_one_spec po kept start) as [r0 [Hr0 [_ Hn0]]]. split.
  - intros H. rewrite Hr0 in H. inversion H. subst. exact (Hn0 Hac).
  - intros H. rewrite Hr0. f_equal. eapply nsa_fun; [exact (Hn0 Hac)|exact H].
Qed.

(* the nearest surviving ancestor really is one: nothing, or a kept id reachable by links whose intermediate
   nodes were all removed *)
Inductive chain_removed (po : list (Z * option Z)) (kept : list Z) : Z -> Z -> Prop :=
| cr_one : forall a b, pstep po a b -> chain_removed po kept a b
| cr_step : forall a b c, pstep po a b -> ~ In b kept -> b <> -1 -> chain_removed po kept b c -> chain_removed po kept a c.

Lemma nsa_sound : forall po kept start r, nsa po kept start r ->
  nil_id r \/ exists k, r = Some k /\ In k kept /\
     (start = Some k \/ exists p, start = Some p /\ ~ In p kept /\ p <> -1 /\ chain_removed po kept p k).
Proof.
  intros po kept start r H. induction H.
  - left. left. reflexivity.
  - left. right. reflexivity.
  - right. exists p. split; [reflexivity|]. split; [assumption|]. left. reflexivity.
  - destruct IHnsa as [Hn|[k [-> [Hk Hc]]]]; [left; exact Hn|].
    right. exists k. split; [reflexivity|]. split; [exact Hk|]. right. exists p. split; [reflexivity|].
    split; [assumption|]. split; [assumption|].
    destruct Hc as [Hc|[q [Hq [Hqk [Hq1 Hc]]]]].
    + apply cr_one. exact Hc.
    + eapply cr_step; [exact Hq|exact Hqk|exact Hq1|exact Hc].
Qed.
