(* Proofs/LockEnvProofs.v -- the S3 lock model does not depend on its environment: for every event list,
   erasing the environment events (process zone changes, re-renderings of LastModified at any utcoffset)
   changes nothing that the store, the clients or an observer of the requests can see.  (C19, S3 lock.)
   Only a NAIVE rendering is visible (acquire() raises); it is excluded by `aware_ev`.

   The zone is read by the age test only, where it cancels (takeover_age_render); the rendering is read by
   HEAD only, which stores it in the program counter QAge, where the age test asks only whether it is aware.
   So two related states step to related states: the acting client's two records are the same up to the
   offset inside a QAge (cl_norm_eq), and the step function is applied to equal arguments otherwise. *)
From Coq Require Import ZArith List Bool.
Require Import DS.Gen.GenLockAge DS.Model.Lock DS.Proofs.LockAgeProofs.
Import ListNotations.
Open Scope Z_scope.

Lemma env_sim_init : env_sim sinit sinit.
Proof. constructor; simpl; auto; discriminate. Qed.

Lemma env_sim_sym s1 s2 : env_sim s1 s2 -> env_sim s2 s1.
Proof. intros [Vo Vn Vt Vl Vc Vr R1 R2 P1 P2]. constructor; auto. Qed.

Lemma env_sim_trans s1 s2 s3 : env_sim s1 s2 -> env_sim s2 s3 -> env_sim s1 s3.
Proof.
  intros [Vo Vn Vt Vl Vc Vr R1 R2 P1 P2] [Wo Wn Wt Wl Wc Wr Q1 Q2 T1 T2].
  constructor; auto; congruence.
Qed.

Lemma cl_norm_eq x1 x2 : cl_norm x1 = cl_norm x2 ->
  x2 = q_pc x1 (s_pc x2) /\ pc_norm (s_pc x1) = pc_norm (s_pc x2).
Proof. destruct x1, x2. unfold cl_norm, q_pc. simpl. intro H. injection H as -> Hp -> -> -> -> -> -> -> -> -> -> ->. auto. Qed.

Lemma pc_norm_cases p : pc_norm p = p \/ exists l e k, p = QAge l e (Some k).
Proof. destruct p as [| | | |l e [k|]|l e| |u|b|u| |]; eauto. Qed.

Lemma pc_norm_eq p1 p2 : pc_norm p1 = pc_norm p2 ->
  p1 = p2 \/ exists l e k1 k2, p1 = QAge l e (Some k1) /\ p2 = QAge l e (Some k2).
Proof.
  destruct (pc_norm_cases p1) as [E1|(l1 & e1 & k1 & ->)], (pc_norm_cases p2) as [E2|(l2 & e2 & k2 & ->)]; simpl.
  - rewrite E1, E2. auto.
  - rewrite E1. intros ->. right. eauto 6.
  - rewrite E2. intros <-. right. eauto 6.
  - intro H. injection H as -> ->. right. eauto 6.
Qed.

Lemma q_pc_id x : q_pc x (s_pc x) = x.
Proof. destruct x. reflexivity. Qed.

Lemma sim_log s1 s2 ob : env_sim s1 s2 -> not_env_obs (ob, SNone) = true -> env_sim (s_log s1 ob) (s_log s2 ob).
Proof.
  intros [Vo Vn Vt Vl Vc Vr R1 R2 P1 P2] Hob. constructor; simpl; auto.
  unfold tr_norm. simpl. rewrite Hob. f_equal. exact Vr.
Qed.

(* the program counter does not hold a head reply with a naive LastModified (V_p1, V_p2), as a test: on a leaf of sstep,
   where the new program counter is a constructor, it holds by computation *)
Definition aware_pc (p : spc) : bool := match p with QAge _ _ None => false | _ => true end.

Lemma aware_pc_spec p : aware_pc p = true <-> forall l e, p <> QAge l e None.
Proof.
  split.
  - intros H l e ->. discriminate H.
  - intro H. destruct p as [| | | |l e [k|]|l e| |u|b|u| |]; try reflexivity. destruct (H l e eq_refl).
Qed.

Lemma sim_set s1 s2 o ne t c x1 x2 ld ob r :
  env_sim s1 s2 -> cl_norm x1 = cl_norm x2 ->
  aware_pc (s_pc x1) = true -> aware_pc (s_pc x2) = true ->
  not_env_obs (ob, r) = true ->
  env_sim (s_set s1 o ne t c x1 ld ob r) (s_set s2 o ne t c x2 ld ob r).
Proof.
  intros [Vo Vn Vt Vl Vc Vr R1 R2 P1 P2] Hx Q1 Q2 Hob.
  pose proof (proj1 (aware_pc_spec _) Q1) as A1. pose proof (proj1 (aware_pc_spec _) Q2) as A2. constructor; simpl; auto.
  - intro c0. unfold updN. destruct (N.eqb c0 c); [exact Hx|apply Vc].
  - unfold tr_norm. simpl. rewrite Hob. f_equal. exact Vr.
  - intro c0. unfold updN. destruct (N.eqb c0 c); [exact A1|apply P1].
  - intro c0. unfold updN. destruct (N.eqb c0 c); [exact A2|apply P2].
Qed.

(* the acting client's records: equal, or both in front of the age test with aware replies *)
Lemma sim_actor s1 s2 c : env_sim s1 s2 ->
  scl s2 c = scl s1 c
  \/ exists l e k1 k2, s_pc (scl s1 c) = QAge l e (Some k1) /\ scl s2 c = q_pc (scl s1 c) (QAge l e (Some k2)).
Proof.
  intro V. destruct (cl_norm_eq _ _ (V_cl _ _ V c)) as [X Hp]. rewrite X.
  destruct (pc_norm_eq _ _ Hp) as [<-|(l & e & k1 & k2 & E1 & ->)]; [left; apply q_pc_id|right; eauto 6].
Qed.

Section Sim.
Variable cd : bool.
Variable lease : Z.
Variable rsleep : Z.

Lemma sim_env s1 s2 z k : env_sim s1 s2 -> env_sim (sstep cd lease rsleep s1 (SEnv z (Some k))) s2.
Proof. intros [Vo Vn Vt Vl Vc Vr R1 R2 P1 P2]. constructor; simpl; auto. discriminate. Qed.

(* a leaf where both sides log the same entry (sim_log), or give client c the same new record, computed from equal
   arguments (sim_set: the two records are equal up to cl_norm by computation, neither stands at QAge with a naive reply) *)
Ltac same_leaf V :=
  first [apply sim_log; [exact V|reflexivity] | apply sim_set; [exact V|reflexivity ..]].

Lemma sim_step s1 s2 ev : env_sim s1 s2 -> is_env ev = false ->
  env_sim (sstep cd lease rsleep s1 ev) (sstep cd lease rsleep s2 ev).
Proof.
  intros V E. pose proof V as [Vo Vn Vt Vl Vc Vr R1 R2 P1 P2].
  destruct (lmrep s1) as [q1|] eqn:L1; [|contradiction]. destruct (lmrep s2) as [q2|] eqn:L2; [|contradiction].
  destruct ev as [c k|c f j|c f|d|c|z r]; try discriminate E; clear E;
    unfold sstep, s_cl, etag_matches, fresh_obj; cbv zeta; rewrite <- ?Vo, <- ?Vn, <- ?Vt, <- ?Vl.
  - (* SCall *)
    destruct (sim_actor s1 s2 c V) as [X|(l & e & k1 & k2 & P & X)]; rewrite X; simpl.
    + repeat break_match; same_leaf V.
    + rewrite P. destruct (s_alive (scl s1 c)); apply sim_log; auto.
  - (* SStep *)
    destruct (sim_actor s1 s2 c V) as [X|(l & e & k1 & k2 & P & X)]; rewrite X; cbn [q_pc s_alive s_pc].
    + rewrite L1, L2.
      destruct (s_alive (scl s1 c)); [|apply sim_log; auto].
      destruct (s_pc (scl s1 c)) as [| | | |l e [k|]|l e| |u|second|u| |] eqn:P;
        try rewrite !takeover_age_render;
        (* QAge with a naive reply: excluded by V_p1 *) try (exfalso; exact (P1 c _ _ P));
        repeat break_match; same_leaf V.
    + rewrite P, !takeover_age_render. destruct (s_alive (scl s1 c)); [|apply sim_log; auto].
      destruct (takeover_keeps (snow s1 - l) lease); apply sim_set; simpl; auto.
  - (* SRenew: the program counter is not read *)
    destruct (cl_norm_eq _ _ (Vc c)) as [X Hp]. rewrite X. cbn [q_pc s_alive hb is_locked my_etag].
    repeat break_match; first [apply sim_log; [exact V|reflexivity]
                     | apply sim_set; [exact V|unfold cl_norm; simpl; rewrite Hp; reflexivity
                                      |apply aware_pc_spec, (P1 c)|apply aware_pc_spec, (P2 c)|reflexivity]].
  - (* STick *) constructor; simpl; auto; congruence.
  - (* SDie *)
    destruct (cl_norm_eq _ _ (Vc c)) as [X Hp]. rewrite X.
    apply sim_set; [exact V|unfold cl_norm; simpl; rewrite Hp; reflexivity
                   |apply aware_pc_spec, (P1 c)|apply aware_pc_spec, (P2 c)|reflexivity].
Qed.

Lemma sim_run evs : forall s1 s2, env_sim s1 s2 -> forallb aware_ev evs = true ->
  env_sim (srun cd lease rsleep s1 evs) (srun cd lease rsleep s2 (strip_env evs)).
Proof.
  induction evs as [|ev evs IH]; intros s1 s2 V A; simpl; [exact V|].
  simpl in A. apply andb_true_iff in A. destruct A as [A1 A2].
  destruct (is_env ev) eqn:E; simpl.
  - destruct ev as [| | | | |z r]; try discriminate E. destruct r as [k|]; [|discriminate A1].
    apply IH; [apply sim_env; exact V|exact A2].
  - apply IH; [apply sim_step; assumption|exact A2].
Qed.

End Sim.
