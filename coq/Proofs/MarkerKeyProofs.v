(* Proofs/MarkerKeyProofs.v -- marker identity (C06 / C07).

   Model/GCRace.v and Model/TxMarkers.v give every file its OWN marker (`g_marker : tid -> bool`, `hold f`).  That is a fact
   about the code only if the key _register_inflight writes is an injective function of the file's table-relative path:
   `register_marker_path_injective` (Proofs/GCHistProofs.v) proves it of the REGENERATED function (Gen/GenNorm.v).  Here: the
   naming the library used before the repair (marker keyed by the BASENAME), written down by hand, for which both facts fail:
   two files share a marker (below), and the paths guessed from a marker's name miss the file (Props/C07.v
   C07_basename_marker_fallback_refuted), on the files data/p1/x.parquet and data/p2/x.parquet. *)
From Coq Require Import String List.
Require Import DS.Model.PyStr DS.Gen.GenNorm DS.Model.GC.
Import ListNotations.
Open Scope string_scope.

(* transaction.py before the repair: marker_name = file_path.rsplit("/", 1)[-1] *)
Definition basename_marker_path (file_path : string) : string :=
  INFLIGHT_PATH ++ ("/" ++ (basename file_path ++ ".inflight")).
(* garbage_collector.py before the repair: the guess made from the marker's name *)
Definition basename_marker_fallback (basename_ : string) : list string :=
  let name := py_drop_end (String.length ".inflight") basename_ in ["data/" ++ name; "metadata/manifests/" ++ name].

(* two different files, one marker: the second registration finds "its" marker held and writes nothing; the file is
   adopted UNMARKED (Model/GCRace.v gstep_unrepaired's TAdoptBare, for which C06 fails: C06_unmarked_adoption_refuted) *)
Lemma basename_marker_collides :
  exists f g, resolve f <> resolve g /\ append_accepts_path (fun s => s) f = true /\ append_accepts_path (fun s => s) g = true
              /\ basename_marker_path f = basename_marker_path g.
Proof. exists "data/p1/x.parquet", "data/p2/x.parquet". repeat split; try reflexivity. discriminate. Qed.

