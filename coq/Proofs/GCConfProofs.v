(* Proofs/GCConfProofs.v -- lemmas about the model of Python's logging tree (Model/LogConf.v: NOT property theorems, they say nothing about
   DataShard) and the counted source facts about the collector and the process-wide configuration (Model/GCConf.v); and
   pair_eqb, the equality test on pairs with which Props/C05.v looks entries up in the regenerated tables. *)
From Coq Require Import ZArith List Bool Lia.
Require Import DS.Gen.GenGCLog DS.Model.LogConf DS.Model.GCConf.
Import ListNotations.
Open Scope Z_scope.

Lemma enabled_spec : forall c lvl, enabled c lvl = true <-> lc_disable c < lvl /\ effective c <= lvl.
Proof.
  intros c lvl. unfold enabled.
  destruct (lc_disable c >=? lvl) eqn:Hd.
  - split; [discriminate|]. intros [H _]. apply Z.geb_le in Hd. lia.
  - rewrite Z.geb_leb in *. rewrite Z.leb_le. apply Z.leb_gt in Hd. split; [intro; split; lia| intros [_ H]; exact H].
Qed.

Lemma disable_masks_now : forall c lvl, lvl <= lc_disable c -> enabled c lvl = false.
Proof.
  intros c lvl H. destruct (enabled c lvl) eqn:E; [|reflexivity].
  apply enabled_spec in E. lia.
Qed.

Lemma conf_run_keeps : forall (X : Type) (pr : logconf -> X) (ok : conf_ev -> bool),
  (forall c e, ok e = true -> pr (conf_step c e) = pr c) ->
  forall evs c, forallb ok evs = true -> pr (conf_run evs c) = pr c.
Proof.
  intros X pr ok Hstep. induction evs as [|e evs IH]; intros c H; [reflexivity|].
  simpl in H. apply andb_true_iff in H. destruct H as [He Hr].
  unfold conf_run in *. simpl. rewrite (IH _ Hr). exact (Hstep c e He).
Qed.

Lemma disable_preserved : forall evs c, forallb (fun e => negb (is_disable e)) evs = true ->
  lc_disable (conf_run evs c) = lc_disable c.
Proof.
  apply conf_run_keeps. intros c [] H; try reflexivity.
  (* EDisable is the one event the filter refuses *)
  discriminate H.
Qed.

(* once logging.disable(d) is in force, NO later sequence of level changes (set_level, setLevel anywhere in the tree,
   environment) enables a record of level <= d: a check that runs the library under logging.disable(CRITICAL) reaches no
   level-guarded statement, whatever levels it sets. *)
Lemma disable_masks : forall evs c d lvl,
  forallb (fun e => negb (is_disable e)) evs = true -> lvl <= d ->
  enabled (conf_run evs (conf_step c (EDisable d))) lvl = false.
Proof.
  intros evs c d lvl Hn Hl. apply disable_masks_now. rewrite (disable_preserved _ _ Hn). simpl. exact Hl.
Qed.

(* DataShardLogger.set_level(l), l <> NOTSET, with the module logger inheriting (as the library creates it): the records enabled
   afterwards are exactly those of level >= l that logging.disable does not mask -- from EVERY earlier configuration. *)
Lemma set_level_enables : forall c l lvl, l <> NOTSET -> lc_mod c = NOTSET ->
  (enabled (conf_step c (ESetLevel l)) lvl = true <-> lc_disable c < lvl /\ l <= lvl).
Proof.
  intros c l lvl Hl Hm. rewrite enabled_spec. unfold effective. simpl. rewrite Hm. simpl.
  destruct (l =? NOTSET) eqn:E; [apply Z.eqb_eq in E; contradiction|]. simpl. reflexivity.
Qed.

Lemma mod_level_wins : forall evs c l lvl, l <> NOTSET ->
  forallb (fun e => match e with EModLevel _ | EDisable _ => false | _ => true end) evs = true ->
  (enabled (conf_run evs (conf_step c (EModLevel l))) lvl = true <-> lc_disable c < lvl /\ l <= lvl).
Proof.
  intros evs c l lvl Hl Hn.
  (* the events after the setLevel pass a filter that refuses setLevel on the module and logging.disable, the only events that
     change the module's own level and the disable threshold *)
  set (c' := conf_step c (EModLevel l)).
  assert (K : (lc_mod (conf_run evs c'), lc_disable (conf_run evs c')) = (lc_mod c', lc_disable c')).
  { apply (conf_run_keeps _ (fun c0 => (lc_mod c0, lc_disable c0)) _) with (2 := Hn). intros c0 [] H; try reflexivity; discriminate H. }
  injection K as A B.
  rewrite enabled_spec. unfold effective. rewrite A, B. simpl.
  destruct (l =? NOTSET) eqn:E; [apply Z.eqb_eq in E; contradiction|]. simpl. reflexivity.
Qed.

(* equality test on pairs: Props/C05.v decides membership in the regenerated tables (reach, environment reads, log sites) with it, through
   Proofs/ListFacts.v existsb_eqb_In *)
Definition pair_eqb {A B : Type} (ea : A -> A -> bool) (eb : B -> B -> bool) (p q : A * B) : bool :=
  ea (fst p) (fst q) && eb (snd p) (snd q).

Lemma pair_eqb_eq : forall (A B : Type) (ea : A -> A -> bool) (eb : B -> B -> bool),
  (forall x y, ea x y = true <-> x = y) -> (forall x y, eb x y = true <-> x = y) ->
  forall p q, pair_eqb ea eb p q = true <-> p = q.
Proof.
  intros A B ea eb Ha Hb [a b] [a' b']. unfold pair_eqb. simpl. rewrite andb_true_iff, Ha, Hb.
  split; [intros [-> ->]; reflexivity | intro E; inversion E; split; reflexivity].
Qed.

Lemma may_emit_spec : forall c s, In s (may_emit c) <-> In s GC_LOG_SITES /\ lc_disable c < snd s /\ effective c <= snd s.
Proof. intros c s. unfold may_emit. rewrite filter_In, enabled_spec. reflexivity. Qed.

Lemma may_emit_sites : forall c s, In s (may_emit c) -> In s GC_LOG_SITES /\ enabled c (snd s) = true.
Proof. intros c s H. apply may_emit_spec in H. destruct H as [H1 H2]. split; [exact H1|apply enabled_spec; exact H2]. Qed.

(* COUNTED SOURCE FACTS (Gen/GenGCLog.v, regenerated on every run): in garbage_collector.py (lexical check, fail closed) and in every
   function of the scope modules reachable by name from it (counting scan) there is no use of a logger other than logging statements
   with purely observing arguments, no use of the logging module, and no read of the environment.  This is a statement about the
   generated tables, NOT about gc_run: Model/GC.v has no configuration input on the strength of it. *)
Lemma conf_not_consulted : GC_CONF_READS = [] /\ GC_ENV_READS = [] /\ GC_ENV_VARS = [].
Proof. repeat split; reflexivity. Qed.

Lemma gc_env_view_empty : forall c, gc_env_view c = [].
Proof. intro c. unfold gc_env_view. rewrite (proj2 (proj2 conf_not_consulted)). reflexivity. Qed.
