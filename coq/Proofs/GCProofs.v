(* Proofs/GCProofs.v -- safety of the collector model (Model/GC.v) for EVERY fault oracle.  Two ideas carry the file.
   Every phase leaves the store it found in the form `removes C st R st'` (the keys R went one after the other, each meeting C
   when it went): that the store only shrank, what it lost and what was deleted are read off that one relation, and the deleted
   list of a sweep IS its R.  And whichever preparatory phase runs first, a run is `stopped_early` or `at_sweeps`
   (gc_run_from_phases), the second meaning, of the INITIAL store, what `sweeps_start` says: everything about a whole run is said
   once, through that case split.  Below these stand what a storage call and a read say of the store (read_one_some) and that
   reach computes exactly the referenced sets on a store in writer form; last in the file, the boolean twins (ref_*b,
   wf_storeb_sound) used on concrete stores. *)
From Coq Require Import ZArith String Ascii List Bool.
Require Import DS.Model.PyStr DS.Gen.GenNorm DS.Model.GC DS.Proofs.PyStrProofs DS.Proofs.GCNormProofs.
Require DS.Proofs.ListFacts.
Import ListNotations.
Open Scope string_scope.
Open Scope Z_scope.

Definition store_le (a b : store) : Prop := forall k ob, lookup k a = Some ob -> lookup k b = Some ob.

Lemma store_le_refl : forall a, store_le a a.
Proof. intros a k ob H. exact H. Qed.

Lemma store_le_trans : forall a b c, store_le a b -> store_le b c -> store_le a c.
Proof. intros a b c H1 H2 k ob H. apply H2, H1, H. Qed.

Definition holds (w : want) (st : store) (k : key) (xs : list string) : Prop :=
  match w with WList => list_at st k xs | WManifest => manifest_at st k xs end.

Lemma holds_le : forall w a b k xs, store_le a b -> holds w a k xs -> holds w b k xs.
Proof. intros w a b k xs L H. destruct w; destruct H as [ob [H1 H2]]; exists ob; (split; [apply L; exact H1|exact H2]). Qed.

Lemma ref_manifest_intro : forall snaps st l ms m, In l snaps -> nonempty l = true -> list_at st (resolve l) ms ->
  In m ms -> nonempty m = true -> ref_manifest snaps st (resolve m).
Proof. intros snaps st l ms m H1 H2 H3 H4 H5. exists l, ms, m. auto 10. Qed.

Lemma ref_data_intro : forall snaps st l ms m es e, In l snaps -> nonempty l = true -> list_at st (resolve l) ms ->
  In m ms -> nonempty m = true -> manifest_at st (resolve m) es -> In e es -> ref_data snaps st (resolve e).
Proof. intros snaps st l ms m es e H1 H2 H3 H4 H5 H6 H7. exists l, ms, m, es, e. auto 10. Qed.

Lemma referenced_mono : forall snaps a b,
  (forall l ms, In l snaps -> nonempty l = true -> list_at a (resolve l) ms -> list_at b (resolve l) ms) ->
  (forall l ms m es, In l snaps -> nonempty l = true -> list_at a (resolve l) ms -> In m ms -> nonempty m = true ->
     manifest_at a (resolve m) es -> manifest_at b (resolve m) es) ->
  (forall k, ref_manifest snaps a k -> ref_manifest snaps b k) /\ (forall k, ref_data snaps a k -> ref_data snaps b k).
Proof.
  intros snaps a b LA MA. split.
  - intros k [l [ms [m [H1 [H2 [H3 H4]]]]]]. exists l, ms, m. auto.
  - intros k [l [ms [m [es [e [H1 [H2 [H3 [H4 [H5 [H6 H7]]]]]]]]]]]. exists l, ms, m, es, e.
    split; [exact H1|]. split; [exact H2|]. split; [exact (LA l ms H1 H2 H3)|]. split; [exact H4|]. split; [exact H5|].
    split; [exact (MA l ms m es H1 H2 H3 H4 H5 H6)|exact H7].
Qed.

Lemma referenced_le : forall snaps a b, store_le a b ->
  (forall k, ref_manifest snaps a k -> ref_manifest snaps b k) /\ (forall k, ref_data snaps a k -> ref_data snaps b k).
Proof.
  intros snaps a b LE. apply referenced_mono.
  - intros l ms _ _. exact (holds_le WList _ _ _ _ LE).
  - intros l ms m es _ _ _ _ _. exact (holds_le WManifest _ _ _ _ LE).
Qed.

(* remove_key is the case of one key *)
Lemma lookup_filter_keys : forall (keep : key -> bool) k st,
  lookup k (filter (fun p => keep (fst p)) st) = if keep k then lookup k st else None.
Proof.
  intros keep k st. induction st as [|[k' o] r IH]; simpl; [destruct (keep k); reflexivity|].
  (* k <> k' is the induction hypothesis, whether k' is kept or not; the two bullets are k = k' *)
  destruct (keep k') eqn:K; simpl; (destruct (String.eqb k k') eqn:E; [|exact IH]); apply String.eqb_eq in E; subst k'.
  - (* k' kept *) rewrite K. reflexivity.
  - (* k' dropped *) rewrite IH, K. reflexivity.
Qed.

Lemma lookup_remove_same : forall k st, lookup k (remove_key k st) = None.
Proof. intros k st. unfold remove_key. rewrite (lookup_filter_keys (fun x => negb (String.eqb k x))), String.eqb_refl. reflexivity. Qed.

Lemma lookup_remove_other : forall k k' st, k <> k' -> lookup k (remove_key k' st) = lookup k st.
Proof.
  intros k k' st N. unfold remove_key. rewrite (lookup_filter_keys (fun x => negb (String.eqb k' x))).
  destruct (String.eqb k' k) eqn:E; [apply String.eqb_eq in E; congruence|reflexivity].
Qed.

Lemma store_le_remove : forall k st, store_le (remove_key k st) st.
Proof.
  intros k st k' ob H. destruct (string_dec k' k) as [->|NE].
  - rewrite lookup_remove_same in H. discriminate.
  - rewrite lookup_remove_other in H by exact NE. exact H.
Qed.

(* What a phase of a collection does to the store: it removes a list of keys, one after the other, each holding an object that
   meets the condition C when it goes.  Everything the later lemmas say of a store a phase left (it only shrank; what it lost met
   C; what was deleted was there) is read off this one relation. *)
Inductive removes (C : key -> obj -> Prop) : store -> list key -> store -> Prop :=
| rm_nil : forall st, removes C st [] st
| rm_cons : forall st k ob R st', lookup k st = Some ob -> C k ob -> removes C (remove_key k st) R st' -> removes C st (k :: R) st'.

Lemma removes_app : forall C a R1 b R2 c, removes C a R1 b -> removes C b R2 c -> removes C a (R1 ++ R2) c.
Proof. intros C a R1 b R2 c H1 H2. induction H1; simpl; [exact H2|]. econstructor; eauto. Qed.

Lemma removes_impl : forall (C D : key -> obj -> Prop) a R b, (forall k ob, C k ob -> D k ob) -> removes C a R b -> removes D a R b.
Proof. intros C D a R b Imp H. induction H; econstructor; eauto. Qed.

Lemma removes_le : forall C a R b, removes C a R b -> store_le b a.
Proof. intros C a R b H. induction H; [apply store_le_refl|]. exact (store_le_trans _ _ _ IHremoves (store_le_remove k st)). Qed.

Lemma removes_lost : forall C a R b, removes C a R b ->
  forall k ob, lookup k a = Some ob -> lookup k b = None -> In k R /\ C k ob.
Proof.
  intros C a R b H. induction H as [|st k0 ob0 R st' L0 C0 H IH]; intros k ob L N; [congruence|].
  destruct (string_dec k k0) as [->|NE].
  - split; [left; reflexivity|]. congruence.
  - rewrite <- (lookup_remove_other k k0 st NE) in L. destruct (IH k ob L N). auto with datatypes.
Qed.

Lemma removes_in : forall C a R b, removes C a R b -> forall k, In k R -> exists ob, lookup k a = Some ob /\ C k ob.
Proof.
  intros C a R b H. induction H as [|st k0 ob0 R st' L0 C0 H IH]; intros k Hk; [destruct Hk|].
  destruct Hk as [<-|Hk]; [eauto|]. destruct (IH k Hk) as [ob [L Ck]]. exists ob. split; [exact (store_le_remove _ _ _ _ L)|exact Ck].
Qed.

Lemma lookup_In : forall k st ob, lookup k st = Some ob -> In (k, ob) st.
Proof.
  intros k st ob. induction st as [|[k' o] r IH]; simpl; [discriminate|].
  destruct (String.eqb k k') eqn:E; intro H.
  - apply String.eqb_eq in E. inversion H; subst. left. reflexivity.
  - right. auto.
Qed.

Lemma lookup_In_keys : forall k st ob, lookup k st = Some ob -> In k (map fst st).
Proof. intros k st ob H. exact (in_map fst st (k, ob) (lookup_In k st ob H)). Qed.

Lemma In_keys_lookup : forall k st, In k (map fst st) -> exists ob, lookup k st = Some ob.
Proof.
  intros k st. induction st as [|[k' o] r IH]; simpl; [contradiction|].
  intros [H|H].
  - subst. rewrite String.eqb_refl. eauto.
  - destruct (String.eqb k k'); eauto.
Qed.

Lemma in_list_dir : forall p st k, In k (list_dir p st) <-> In k (map fst st) /\ startswith (p ++ "/") k = true.
Proof. intros. unfold list_dir. rewrite filter_In. tauto. Qed.

(* every storage call goes through tick, which leaves the store alone and records the call with the oracle's answer; only
   do_delete builds another store afterwards *)
Lemma tick_spec : forall o g c f g', tick o g c = (f, g') -> g_store g' = g_store g /\ g_trace g' = (c, f) :: g_trace g.
Proof. intros o g c f g' H. unfold tick in H. inversion H; subst. split; reflexivity. Qed.

Lemma do_exists_store : forall o g k r g', do_exists o g k = (r, g') -> g_store g' = g_store g.
Proof.
  intros o g k r g' H. apply (f_equal snd) in H. cbn [snd] in H. subst g'.
  unfold do_exists, tick. destruct (o (g_calls g)) as [[| |]|]; reflexivity.
Qed.

Lemma do_exists_true : forall o g k g', do_exists o g k = (Some true, g') -> exists ob, lookup k (g_store g) = Some ob.
Proof.
  intros o g k g' H. unfold do_exists, tick in H. destruct (o (g_calls g)) as [[| |]|]; try discriminate.
  destruct (lookup k (g_store g)); [eauto|discriminate].
Qed.

Lemma do_open_store : forall o g k r g', do_open o g k = (r, g') -> g_store g' = g_store g.
Proof.
  intros o g k r g' H. apply (f_equal snd) in H. cbn [snd] in H. subst g'.
  unfold do_open, tick. destruct (o (g_calls g)) as [[| |]|]; reflexivity.
Qed.

Lemma do_read_store : forall o g k r g', do_read o g k = (r, g') -> g_store g' = g_store g.
Proof.
  intros o g k r g' H. apply (f_equal snd) in H. cbn [snd] in H. subst g'.
  unfold do_read, tick. destruct (o (g_calls g)) as [[| |]|]; reflexivity.
Qed.

Lemma do_stat_store : forall o g k r g', do_stat o g k = (r, g') -> g_store g' = g_store g.
Proof.
  intros o g k r g' H. apply (f_equal snd) in H. cbn [snd] in H. subst g'.
  unfold do_stat, tick. destruct (o (g_calls g)) as [[| |]|]; reflexivity.
Qed.

Lemma do_listdir_store : forall o g p r g', do_listdir o g p = (r, g') -> g_store g' = g_store g.
Proof.
  intros o g p r g' H. apply (f_equal snd) in H. cbn [snd] in H. subst g'.
  unfold do_listdir, tick. destruct (o (g_calls g)) as [[| |]|]; reflexivity.
Qed.

Lemma do_read_some : forall o g k c g', do_read o g k = (Some c, g') ->
  c = CGarbage \/ exists ob, lookup k (g_store g) = Some ob /\ body ob = c.
Proof.
  intros o g k c g' H. unfold do_read, tick in H. destruct (o (g_calls g)) as [[| |]|]; try discriminate.
  - injection H as <- _. left. reflexivity.
  - destruct (lookup k (g_store g)) as [ob|]; [|discriminate]. injection H as <- _. right. exists ob. auto.
Qed.

Lemma do_stat_some : forall o g k t g', do_stat o g k = (Some t, g') ->
  exists ob, lookup k (g_store g) = Some ob /\ mtime ob = t.
Proof.
  intros o g k t g' H. unfold do_stat, tick in H. destruct (o (g_calls g)); [discriminate|].
  destruct (lookup k (g_store g)) as [ob|]; [|discriminate]. injection H as <- _. exists ob. auto.
Qed.

Lemma do_delete_store : forall o g k r g', do_delete o g k = (r, g') ->
  g_store g' = match r with Some _ => remove_key k (g_store g) | None => g_store g end.
Proof. intros o g k r g' H. unfold do_delete, tick in H. destruct (o (g_calls g)); injection H as <- <-; reflexivity. Qed.

Lemma do_listdir_some : forall o g p ks g', do_listdir o g p = (Some ks, g') ->
  forall k, In k ks -> startswith (p ++ "/") k = true \/ k = "../x".
Proof.
  intros o g p ks g' H k Hk. unfold do_listdir, tick in H. destruct (o (g_calls g)) as [[| |]|]; try discriminate; injection H as <- _.
  - apply in_app_or in Hk. destruct Hk as [Hk|[Hk|[]]]; [left; apply in_list_dir in Hk; apply Hk|auto].
  - left. apply in_list_dir in Hk. apply Hk.
Qed.

Lemma do_listdir_complete : forall o g p ks g', do_listdir o g p = (Some ks, g') ->
  forall k, In k (list_dir p (g_store g)) -> In k ks.
Proof.
  intros o g p ks g' H k Hk. unfold do_listdir, tick in H. destruct (o (g_calls g)) as [[| |]|]; try discriminate; injection H as <- _; auto.
  apply in_or_app. auto.
Qed.

Definition as_w (w : want) : content -> option (list string) := match w with WList => as_list | WManifest => as_manifest end.

Lemma avro_parse_ok : forall w c xs, avro_parse w c = AvOk xs -> as_w w c = Some xs.
Proof. intros w c xs H. destruct w, c as [|[|] ?|[|] ?|?| | | |? [|]]; simpl in H; inversion H; reflexivity. Qed.

Lemma json_parse_ok : forall w c xs, json_parse w c = Some xs -> as_w w c = Some xs.
Proof.
  intros w c xs H. destruct w, c as [|[|] ?|[|] ?|?| | | |? [|]]; simpl in H;
    try rewrite list_json_section_required in H; try rewrite manifest_json_section_required in H; inversion H; reflexivity.
Qed.

Lemma parse_complete : forall w c xs, as_w w c = Some xs ->
  avro_parse w c = AvOk xs \/ (avro_parse w c = AvNot /\ json_parse w c = Some xs).
Proof. intros w c xs H. destruct w, c as [|[|] ?|[|] ?|?| | | |? ?]; simpl in H; try discriminate; inversion H; subst; auto. Qed.

Lemma holds_intro : forall w st k ob xs, lookup k st = Some ob -> as_w w (body ob) = Some xs -> holds w st k xs.
Proof. intros w st k ob xs H1 H2. destruct w; exists ob; auto. Qed.

Lemma read_fallback_store : forall w o g k r g', read_fallback w o g k = (r, g') -> g_store g' = g_store g.
Proof.
  intros w o g k r g' H. unfold read_fallback in H.
  destruct (do_read o g k) as [[c|] g1] eqn:E; apply do_read_store in E; inversion H; subst; exact E.
Qed.

Lemma read_one_store : forall w o g k r g', read_one w o g k = (r, g') -> g_store g' = g_store g.
Proof.
  intros w o g k r g' H. unfold read_one in H.
  destruct (do_exists o g k) as [b1 g1] eqn:E1. apply do_exists_store in E1.
  destruct b1 as [[|]|]; try (inversion H; subst; exact E1).
  destruct (do_exists o g1 k) as [b2 g2] eqn:E2. apply do_exists_store in E2.
  destruct b2 as [[|]|]; try (inversion H; subst; congruence).
  destruct (do_open o g2 k) as [[| |c] g3] eqn:E3; apply do_open_store in E3.
  - apply read_fallback_store in H. congruence.
  - inversion H; subst. congruence.
  - destruct (avro_parse w c); [inversion H; subst; congruence|apply read_fallback_store in H; congruence|inversion H; subst; congruence].
Qed.

(* What a successful read_one was, call by call: the file is there and both `exists` were unfaulted; then either the open was
   unfaulted and the Avro parse gave xs, or the JSON fallback gave xs, its read unfaulted, after an open (answer f3) that was
   unfaulted on a file that is no Avro container, or faulted in a way the readers catch (not FRaiseX).  The store is untouched. *)
Definition read_ok (w : want) (k : key) (xs : list string) (g g' : gst) : Prop :=
  exists ob f3, lookup k (g_store g) = Some ob /\ g_store g' = g_store g
    /\ ((f3 = None /\ avro_parse w (body ob) = AvOk xs
         /\ g_trace g' = [(KOpen k, None); (KExists k, None); (KExists k, None)] ++ g_trace g)
        \/ (f3 <> Some FRaiseX /\ json_parse w (body ob) = Some xs
            /\ g_trace g' = [(KRead k, None); (KOpen k, f3); (KExists k, None); (KExists k, None)] ++ g_trace g))%list.

Lemma read_one_some : forall w o g k xs g', read_one w o g k = (Some xs, g') -> read_ok w k xs g g'.
Proof.
  intros w o g k xs g' H. unfold read_one, do_exists in H.
  destruct (tick o g (KExists k)) as [f1 g1] eqn:T1. destruct (tick_spec _ _ _ _ _ T1) as [S1 R1]. clear T1.
  destruct f1 as [[| |]|]; try discriminate. destruct (lookup k (g_store g)) as [ob|] eqn:L; [|discriminate]. cbn [is_some] in H.
  destruct (tick o g1 (KExists k)) as [f2 g2] eqn:T2. destruct (tick_spec _ _ _ _ _ T2) as [S2 R2]. clear T2.
  destruct f2 as [[| |]|]; try discriminate. rewrite S1, L in H. cbn [is_some] in H.
  unfold do_open in H. destruct (tick o g2 (KOpen k)) as [f3 g3] eqn:T3. destruct (tick_spec _ _ _ _ _ T3) as [S3 R3]. clear T3.
  rewrite S2, S1 in S3. rewrite R2, R1 in R3. rewrite S2, S1, L in H. clear g1 g2 S1 S2 R1 R2.
  (* the JSON fallback from g3, after an open answered f3 *)
  assert (FB: read_fallback w o g3 k = (Some xs, g') -> f3 <> Some FRaiseX -> read_ok w k xs g g').
  { clear H. intros HF NX. unfold read_fallback, do_read in HF.
    destruct (tick o g3 (KRead k)) as [f4 g4] eqn:T4. destruct (tick_spec _ _ _ _ _ T4) as [S4 R4]. clear T4.
    destruct f4 as [[| |]|]; try discriminate.
    - (* garbage is no JSON document *) simpl in HF. destruct w; discriminate.
    - rewrite S3, L in HF. simpl in HF. injection HF as J <-. exists ob, f3. split; [exact L|]. split; [rewrite S4; exact S3|].
      right. split; [exact NX|]. split; [exact J|]. rewrite R4, R3. reflexivity. }
  destruct f3 as [[| |]|].
  - (* FRaise: an OSError, caught *) apply (FB H). discriminate.
  - (* FRaiseX: propagates *) discriminate.
  - (* FBad: garbage is no Avro container *) destruct w; apply (FB H); discriminate.
  - destruct (avro_parse w (body ob)) eqn:A; [|apply (FB H); discriminate|discriminate].
    injection H as <- <-. exists ob, None. split; [exact L|]. split; [exact S3|].
    left. split; [reflexivity|]. split; [exact A|]. rewrite R3. reflexivity.
Qed.

Lemma read_one_sound : forall w o g k xs g', read_one w o g k = (Some xs, g') ->
  holds w (g_store g) k xs /\ g_store g' = g_store g.
Proof.
  intros w o g k xs g' H. destruct (read_one_some _ _ _ _ _ _ H) as [ob [f3 [L [SE [[_ [A _]]|[_ [J _]]]]]]]; (split; [|exact SE]).
  - exact (holds_intro w _ k ob xs L (avro_parse_ok _ _ _ A)).
  - exact (holds_intro w _ k ob xs L (json_parse_ok _ _ _ J)).
Qed.

Lemma read_all_store : forall w o ks g r g', read_all w o g ks = (r, g') -> g_store g' = g_store g.
Proof.
  intros w o ks. induction ks as [|k ks IH]; intros g r g' H; simpl in H.
  - inversion H; reflexivity.
  - destruct (read_one w o g k) as [[xs|] g1] eqn:E1.
    + apply read_one_store in E1. destruct (read_all w o g1 ks) as [[ys|] g2] eqn:E2; apply IH in E2; inversion H; subst; congruence.
    + apply read_one_store in E1. inversion H; subst; congruence.
Qed.

Lemma read_all_sound : forall w o ks g ys g', read_all w o g ks = (Some ys, g') ->
  (forall k, In k ks -> exists xs, holds w (g_store g) k xs /\ incl xs ys) /\
  (forall y, In y ys -> exists k xs, In k ks /\ holds w (g_store g) k xs /\ In y xs).
Proof.
  intros w o ks. induction ks as [|k ks IH]; intros g ys g' H; simpl in H.
  - inversion H; subst. split; [intros k []|intros y []].
  - destruct (read_one w o g k) as [[xs|] g1] eqn:E1; [|discriminate].
    destruct (read_all w o g1 ks) as [[zs|] g2] eqn:E2; [|discriminate].
    inversion H; subst. apply read_one_sound in E1. destruct E1 as [H1 S1]. apply IH in E2. rewrite S1 in E2.
    destruct E2 as [A B]. split.
    + intros k2 [<-|Hk].
      * exists xs. split; [exact H1|apply incl_appl, incl_refl].
      * destruct (A k2 Hk) as [xs2 [P Q]]. exists xs2. split; [exact P|apply incl_appr, Q].
    + intros y Hy. apply in_app_or in Hy. destruct Hy as [Hy|Hy].
      * exists k, xs. auto with datatypes.
      * destruct (B y Hy) as [k2 [xs2 [P [Q R]]]]. exists k2, xs2. auto with datatypes.
Qed.

Lemma holds_fun : forall w st k xs ys, holds w st k xs -> holds w st k ys -> xs = ys.
Proof.
  intros w st k xs ys H1 H2. destruct w; destruct H1 as [o1 [L1 B1]], H2 as [o2 [L2 B2]]; congruence.
Qed.

Lemma in_norm_set : forall tp ps r, In r ps -> nonempty r = true -> In (normalize_path tp r) (norm_set tp ps).
Proof.
  intros tp ps r H1 H2. unfold norm_set. apply nodup_In. apply in_map. apply filter_In. auto.
Qed.

Lemma norm_set_inv : forall tp ps k, In k (norm_set tp ps) -> exists r, In r ps /\ nonempty r = true /\ k = normalize_path tp r.
Proof.
  intros tp ps k H. unfold norm_set in H. apply nodup_In in H. apply in_map_iff in H. destruct H as [r [E H]].
  apply filter_In in H. exists r. intuition.
Qed.

Lemma norm_meta_ref : forall tp r, wf_meta_ref r -> normalize_path tp r = resolve r.
Proof.
  intros tp r H. apply norm_wf_ref. right. unfold wf_meta_ref in H.
  change "metadata/manifests/" with ("metadata/" ++ "manifests/") in H. eapply startswith_trans_app; exact H.
Qed.
Lemma norm_data_ref : forall tp r, wf_data_ref r -> normalize_path tp r = resolve r.
Proof. intros tp r H. apply norm_wf_ref. left. exact H. Qed.

(* what a successful reach computed: the three sets are exactly what the retained snapshots reference (nothing referenced is
   missing: what safety needs; nothing else is kept: what liveness, GCLiveProofs.gc_live_from, needs), and every list and manifest
   it went through was there and parsed (rr_*: what damage, GCFaultProofs.damaged_aborts_from, contradicts) *)
Record reach_ok_spec (snaps : list string) (st : store) (rl rm rd : list key) : Prop := {
  r_lists : forall k, In k rl <-> ref_list snaps k;
  r_manifests : forall k, In k rm <-> ref_manifest snaps st k;
  r_data : forall k, In k rd <-> ref_data snaps st k;
  rr_lists : forall k, In k rl -> exists ms, list_at st k ms;
  rr_manifests : forall k, In k rm -> exists es, manifest_at st k es
}.

Section Reach.
Variables (tp : string) (snaps : list string) (st : store).
Hypothesis WF : wf_store snaps st.

Lemma lists_exact : forall k, In k (norm_set tp snaps) <-> ref_list snaps k.
Proof.
  intro k. split.
  - intro H. apply norm_set_inv in H. destruct H as [l [H1 [H2 ->]]]. exists l. repeat split; auto.
    exact (norm_meta_ref tp l (wf_snaps _ _ WF l H1 H2)).
  - intros [l [H1 [H2 ->]]]. rewrite <- (norm_meta_ref tp l (wf_snaps _ _ WF l H1 H2)). apply in_norm_set; assumption.
Qed.

Variables (o : oracle) (g g1 : gst) (mpaths : list string).
Hypothesis Hg : g_store g = st.
Hypothesis RL : read_all WList o g (norm_set tp snaps) = (Some mpaths, g1).

Lemma manifests_exact : forall k, In k (norm_set tp mpaths) <-> ref_manifest snaps st k.
Proof.
  destruct (read_all_sound _ _ _ _ _ _ RL) as [A B]. rewrite Hg in A, B. intro k. split.
  - intro H. apply norm_set_inv in H. destruct H as [m [H1 [H2 ->]]].
    destruct (B m H1) as [kl [xs [P [Q R]]]]. apply lists_exact in P. destruct P as [l [P1 [P2 ->]]].
    exists l, xs, m. repeat split; auto.
    destruct Q as [ob [L Bd]]. exact (norm_meta_ref tp m (wf_lists _ _ WF _ _ _ _ L Bd R H2)).
  - intros [l [ms [m [H1 [H2 [H3 [H4 [H5 ->]]]]]]]].
    destruct (A (resolve l)) as [xs [P Q]].
    { apply lists_exact. exists l. auto. }
    assert (xs = ms) by (eapply (holds_fun WList); eauto). subst xs. destruct H3 as [ob [L Bd]].
    rewrite <- (norm_meta_ref tp m (wf_lists _ _ WF _ _ _ _ L Bd H4 H5)). apply in_norm_set; auto.
Qed.

Variables (g2 : gst) (entries : list string).
Hypothesis RM : read_all WManifest o g1 (norm_set tp mpaths) = (Some entries, g2).

Lemma reach_lists_store : g_store g1 = st.
Proof. rewrite (read_all_store _ _ _ _ _ _ RL). exact Hg. Qed.

Lemma g2_store : g_store g2 = st.
Proof. rewrite (read_all_store _ _ _ _ _ _ RM). exact reach_lists_store. Qed.

Lemma data_exact : forall k, In k (map (normalize_path tp) entries) <-> ref_data snaps st k.
Proof.
  destruct (read_all_sound _ _ _ _ _ _ RM) as [A B]. rewrite reach_lists_store in A, B. intro k. split.
  - intro H. apply in_map_iff in H. destruct H as [e [<- H1]].
    destruct (B e H1) as [km [xs [P [Q R]]]]. apply manifests_exact in P.
    destruct P as [l [ms [m [P1 [P2 [P3 [P4 [P5 ->]]]]]]]].
    exists l, ms, m, xs, e. repeat split; auto.
    destruct Q as [ob [L Bd]]. exact (norm_data_ref tp e (wf_manifests _ _ WF _ _ _ _ L Bd R)).
  - intros [l [ms [m [es [e [H1 [H2 [H3 [H4 [H5 [H6 [H7 ->]]]]]]]]]]]].
    destruct (A (resolve m)) as [xs [P Q]].
    { apply manifests_exact. exists l, ms, m. auto 10. }
    assert (xs = es) by (eapply (holds_fun WManifest); eauto). subst xs. destruct H6 as [ob [L Bd]].
    rewrite <- (norm_data_ref tp e (wf_manifests _ _ WF _ _ _ _ L Bd H7)). apply in_map. auto.
Qed.

Lemma reach_exact : reach_ok_spec snaps st (norm_set tp snaps) (norm_set tp mpaths) (map (normalize_path tp) entries).
Proof.
  constructor; [exact lists_exact|exact manifests_exact|exact data_exact| |].
  - intros k Hk. destruct (proj1 (read_all_sound _ _ _ _ _ _ RL) k Hk) as [xs [Hx _]]. rewrite Hg in Hx. exists xs. exact Hx.
  - intros k Hk. destruct (proj1 (read_all_sound _ _ _ _ _ _ RM) k Hk) as [xs [Hx _]]. rewrite reach_lists_store in Hx. exists xs. exact Hx.
Qed.

Lemma ref_list_manifests : forall k, ref_list snaps k -> startswith "metadata/manifests/" k = true.
Proof. intros k [l [H1 [H2 ->]]]. exact (wf_snaps _ _ WF l H1 H2). Qed.
Lemma ref_manifest_manifests : forall k, ref_manifest snaps st k -> startswith "metadata/manifests/" k = true.
Proof. intros k [l [ms [m [_ [_ [[ob [L B]] [H4 [H5 ->]]]]]]]]. exact (wf_lists _ _ WF _ _ _ _ L B H4 H5). Qed.
Lemma ref_data_data : forall k, ref_data snaps st k -> startswith "data/" k = true.
Proof. intros k [l [ms [m [es [e [_ [_ [_ [_ [_ [[ob [L B]] [H7 ->]]]]]]]]]]]]. exact (wf_manifests _ _ WF _ _ _ _ L B H7). Qed.

(* every file a retained snapshot needs lies in one of the two directories the collector sweeps *)
Lemma referenced_swept : forall k, referenced snaps st k ->
  startswith "data/" k = true \/ startswith "metadata/manifests/" k = true.
Proof.
  intros k [R|[R|R]]; [right; apply ref_list_manifests|right; apply ref_manifest_manifests|left; apply ref_data_data]; exact R.
Qed.
End Reach.

Lemma data_manifests_disjoint : forall k, startswith "data/" k = true -> startswith "metadata/manifests/" k = true -> False.
Proof.
  intros k H1 H2. apply startswith_spec in H1. destruct H1 as [r ->]. discriminate.
Qed.

(* what wf_store asks of each stored object (Model/GC.v wf_objb is its boolean twin) *)
Definition obj_wf (k : key) (ob : obj) : Prop :=
  (forall ms m, as_list (body ob) = Some ms -> In m ms -> nonempty m = true -> wf_meta_ref m)
  /\ (forall es e, as_manifest (body ob) = Some es -> In e es -> wf_data_ref e)
  /\ (forall t, is_marker_key k -> body ob = CMarker (Some t) -> nonempty t = true -> In (resolve t) (name_candidates k)).

Lemma wf_store_iff : forall snaps st, wf_store snaps st <->
  NoDup (map fst st) /\ (forall l, In l snaps -> nonempty l = true -> wf_meta_ref l)
  /\ (forall k ob, lookup k st = Some ob -> obj_wf k ob).
Proof.
  intros snaps st. split.
  - intros [W1 W2 W3 W4 W5]. split; [exact W1|]. split; [exact W2|]. intros k ob L. split; [|split]; eauto.
  - intros [W1 [W2 W3]]. constructor; [exact W1|exact W2| | |].
    + intros k ob ms m L. exact (proj1 (W3 k ob L) ms m).
    + intros k ob es e L. exact (proj1 (proj2 (W3 k ob L)) es e).
    + intros k ob t L M. exact (proj2 (proj2 (W3 k ob L)) t M).
Qed.

Lemma removes_wf : forall snaps C a R b, wf_store snaps a -> removes C a R b -> wf_store snaps b.
Proof.
  intros snaps C a R b W H. induction H as [|st k ob R st' _ _ _ IH]; [exact W|]. apply IH.
  apply wf_store_iff in W. destruct W as [W1 [W2 W3]]. apply wf_store_iff.
  split; [apply DS.Proofs.ListFacts.NoDup_map_filter; exact W1|]. split; [exact W2|].
  intros k' ob' L. apply W3. exact (store_le_remove _ _ _ _ L).
Qed.

Definition markers_wf (st : store) : Prop :=
  forall mk ob t, lookup mk st = Some ob -> is_marker_key mk -> body ob = CMarker (Some t) -> nonempty t = true ->
                  In (resolve t) (name_candidates mk).

Lemma markers_wf_le : forall a b, store_le a b -> markers_wf b -> markers_wf a.
Proof. intros a b L H mk ob t H1. apply L in H1. eapply H; eauto. Qed.

(* what markers_wf asks of one marker: a usable payload is one of the candidates of the marker's key *)
Definition payload_ok (mk : key) (ob : obj) : Prop :=
  forall t, body ob = CMarker (Some t) -> nonempty t = true -> In (resolve t) (name_candidates mk).

Lemma marker_denotes_candidate : forall mk ob k, payload_ok mk ob -> marker_denotes mk ob k -> In k (name_candidates mk).
Proof.
  intros mk ob k P D. unfold marker_denotes in D.
  destruct (body ob) as [| | |[t|]| | | |? ?] eqn:B; auto. destruct (nonempty t) eqn:N; auto. subst k. exact (P t B N).
Qed.

Lemma marker_denotes_relative : forall mk ob k, payload_ok mk ob -> marker_denotes mk ob k -> table_relative k.
Proof. intros mk ob k P D. exact (name_candidates_relative mk k (marker_denotes_candidate mk ob k P D)). Qed.

Lemma marker_targets_store : forall tp o g nm bn T g', marker_targets tp o g nm bn = (T, g') -> g_store g' = g_store g.
Proof.
  intros tp o g nm bn T g' H. unfold marker_targets in H.
  destruct (do_read o g nm) as [[c|] g1] eqn:E; apply do_read_store in E.
  - destruct c as [| | |[t|]| | | |? ?]; try (inversion H; subst; exact E). destruct (nonempty t); inversion H; subst; exact E.
  - inversion H; subst; exact E.
Qed.

Lemma marker_targets_cover : forall tp o g mk ob T g',
  lookup mk (g_store g) = Some ob -> payload_ok mk ob ->
  marker_targets tp o g mk (basename mk) = (T, g') ->
  forall k, marker_denotes mk ob k -> In k T.
Proof.
  intros tp o g mk ob T g' L P H.
  (* the fallback names cover the denotation; a usable payload is the denotation *)
  assert (FB: forall k, marker_denotes mk ob k -> In k (marker_fallback mk (basename mk))).
  { intros k D. rewrite marker_fallback_covers. exact (marker_denotes_candidate mk ob k P D). }
  unfold marker_targets in H. destruct (do_read o g mk) as [[c|] g1] eqn:E; [|inversion H; subst; exact FB].
  apply do_read_some in E. destruct E as [->|[ob' [L' <-]]]; [inversion H; subst; exact FB|].
  rewrite L in L'. inversion L'; subst ob'.
  destruct (body ob) as [| | |[t|]| | | |? ?] eqn:B; try (inversion H; subst; exact FB).
  destruct (nonempty t) eqn:N; inversion H; subst; [|exact FB].
  intros k D. unfold marker_denotes in D. rewrite B, N in D. subst k. left.
  exact (norm_candidate tp mk t (P t B N)).
Qed.

(* One round of _load_inflight_protection.  Either the store is unchanged and the protected set grows by T: nothing when the
   entry is not a marker name, else the marker's targets (it is fresh, not stat-able, or its deletion failed).  Or the entry is an
   abandoned marker and is removed. *)
Lemma markers_loop_cons : forall tp cutoff o g (mp : key) (r : list key) prot,
  (exists T g3, g_store g3 = g_store g /\ markers_loop tp cutoff o g (mp :: r) prot = markers_loop tp cutoff o g3 r (T ++ prot)
     /\ (endswith INFLIGHT_SUFFIX (basename (normalize_path tp mp)) = true ->
         exists g1 g2, g_store g1 = g_store g
           /\ marker_targets tp o g1 (normalize_path tp mp) (basename (normalize_path tp mp)) = (T, g2)))
  \/ (exists g3 ob, endswith INFLIGHT_SUFFIX (basename (normalize_path tp mp)) = true
        /\ lookup (normalize_path tp mp) (g_store g) = Some ob /\ mtime ob < cutoff
        /\ g_store g3 = remove_key (normalize_path tp mp) (g_store g)
        /\ markers_loop tp cutoff o g (mp :: r) prot = markers_loop tp cutoff o g3 r prot).
Proof.
  intros tp cutoff o g mp r prot. simpl.
  destruct (do_stat o g (normalize_path tp mp)) as [st_ g1] eqn:ES. pose proof (do_stat_store _ _ _ _ _ ES) as S1.
  destruct (endswith INFLIGHT_SUFFIX (basename (normalize_path tp mp))); cbn [negb];
    [|left; exists [], g1; split; [exact S1|]; split; [reflexivity|discriminate]].
  destruct (marker_targets tp o g1 (normalize_path tp mp) (basename (normalize_path tp mp))) as [T g2] eqn:ET.
  pose proof (marker_targets_store _ _ _ _ _ _ _ ET) as S2. rewrite S1 in S2.
  destruct st_ as [t|]; [|left; exists T, g2; eauto 6].
  destruct (cutoff <=? t) eqn:EA; [left; exists T, g2; eauto 6|].
  destruct (do_delete o g2 (normalize_path tp mp)) as [[u|] g3] eqn:ED.
  - right. apply do_stat_some in ES. destruct ES as [ob [L <-]]. exists g3, ob.
    rewrite (do_delete_store _ _ _ _ _ ED), S2. apply Z.leb_gt in EA. auto.
  - left. exists T, g3. rewrite (do_delete_store _ _ _ _ _ ED). eauto 6.
Qed.

Lemma is_marker_key_relative : forall mk, is_marker_key mk -> table_relative mk.
Proof. intros mk M. apply listed_inflight_relative. apply M. Qed.

(* what the marker loop removes: an abandoned marker, under the normalised name of a listed entry *)
Definition abandoned_listed (tp : string) (cutoff : Z) (ms : list key) (k : key) (ob : obj) : Prop :=
  mtime ob < cutoff /\ endswith INFLIGHT_SUFFIX (basename k) = true /\ In k (map (normalize_path tp) ms).

Lemma markers_loop_removes : forall tp cutoff o ms g prot prot' g',
  markers_loop tp cutoff o g ms prot = (prot', g') ->
  incl prot prot'
  /\ (exists R, removes (abandoned_listed tp cutoff ms) (g_store g) R (g_store g'))
  (* a listed marker that is still there afterwards protects everything it denotes *)
  /\ (forall mk ob, lookup mk (g_store g') = Some ob -> In mk ms -> is_marker_key mk -> payload_ok mk ob ->
        forall k, marker_denotes mk ob k -> In k prot').
Proof.
  intros tp cutoff o ms. induction ms as [|mp r IH]; intros g prot prot' g' H.
  - simpl in H. inversion H; subst. split; [apply incl_refl|]. split; [exists []; constructor|intros mk ob _ []].
  - (* a removal from the rest of the listing is a removal from the whole listing *)
    assert (TL: forall R a c, removes (abandoned_listed tp cutoff r) a R c -> removes (abandoned_listed tp cutoff (mp :: r)) a R c).
    { intros R a c. apply removes_impl. intros k ob [A [B C]]. split; [exact A|]. split; [exact B|right; exact C]. }
    destruct (markers_loop_cons tp cutoff o g mp r prot)
      as [[T [g3 [S3 [E ET]]]]|[g3 [ob0 [EE [L0 [Old [S3 E]]]]]]]; rewrite E in H;
      destruct (IH _ _ _ _ H) as [I1 [[R I2] I3]].
    + (* the store is unchanged; if the entry is a marker, its targets are protected *)
      rewrite S3 in I2. split; [|split; [exists R; exact (TL _ _ _ I2)|]].
      * eapply incl_tran; [|exact I1]. apply incl_appr, incl_refl.
      * intros mk ob L [<-|Hin] M P; [|eauto]. intros k D. apply I1. apply in_or_app. left.
        apply (removes_le _ _ _ _ I2) in L.
        rewrite norm_table_relative in ET by (apply is_marker_key_relative; exact M).
        destruct (ET (proj2 M)) as [g1 [g2 [S1 ET']]]. rewrite <- S1 in L.
        exact (marker_targets_cover _ _ _ _ _ _ _ L P ET' k D).
    + (* abandoned: removed, and the rest of the loop does not bring it back *)
      split; [exact I1|]. split.
      * exists (normalize_path tp mp :: R). rewrite S3 in I2. apply (rm_cons _ _ _ ob0 _ _ L0); [|exact (TL _ _ _ I2)].
        split; [exact Old|]. split; [exact EE|left; reflexivity].
      * intros mk ob L [<-|Hin] M; [|eauto]. exfalso. apply (removes_le _ _ _ _ I2) in L.
        rewrite S3, norm_table_relative, lookup_remove_same in L by (apply is_marker_key_relative; exact M). discriminate.
Qed.

(* the extra "../x" entry of a corrupted marker listing is never taken for a marker, whatever the table location *)
Lemma dotdot_suffixes : forall n, endswith INFLIGHT_SUFFIX (basename (lstrip_c "/"%char (py_drop n "../x"))) = false.
Proof. intro n. do 5 (destruct n as [|n]; [reflexivity|]). reflexivity. Qed.

Lemma norm_dotdot_not_marker : forall tp, endswith INFLIGHT_SUFFIX (basename (normalize_path tp "../x")) = false.
Proof.
  intro tp. unfold normalize_path. cbv zeta.
  change (lstrip_c "/"%char "../x") with "../x".
  change (startswith "data/" "../x" || startswith "metadata/" "../x") with false. cbv iota.
  match goal with |- context [if ?c then _ else _] => destruct c end.
  - apply dotdot_suffixes.
  - reflexivity.
Qed.

(* One round of _gc_prefix: the key escapes the table and the sweep aborts; or it is skipped (kept, not stat-able, young,
   or its deletion failed) and the store is unchanged; or it is old and unkept, and is deleted. *)
Lemma sweep_loop_cons : forall tp cutoff keep o g (k : key) (r : list key) dels,
  (escapes (normalize_path tp k) = true /\ sweep_loop tp cutoff keep o g (k :: r) dels = (true, dels, g))
  \/ (exists g1, g_store g1 = g_store g /\ sweep_loop tp cutoff keep o g (k :: r) dels = sweep_loop tp cutoff keep o g1 r dels)
  \/ (exists g2 ob, str_mem (normalize_path tp k) keep = false
        /\ lookup k (g_store g) = Some ob /\ mtime ob < cutoff /\ g_store g2 = remove_key k (g_store g)
        /\ sweep_loop tp cutoff keep o g (k :: r) dels = sweep_loop tp cutoff keep o g2 r (k :: dels)).
Proof.
  intros tp cutoff keep o g k r dels. simpl. destruct (escapes (normalize_path tp k)); [left; auto|right].
  destruct (str_mem (normalize_path tp k) keep); [left; exists g; auto|].
  destruct (do_stat o g k) as [[t|] g1] eqn:ES; pose proof (do_stat_store _ _ _ _ _ ES) as S1; [|left; exists g1; auto].
  destruct (t <? cutoff) eqn:EO; [|left; exists g1; auto].
  destruct (do_delete o g1 k) as [[u|] g2] eqn:ED.
  - right. apply do_stat_some in ES. destruct ES as [ob [L <-]]. exists g2, ob.
    rewrite (do_delete_store _ _ _ _ _ ED), S1. apply Z.ltb_lt in EO. auto 10.
  - left. exists g2. rewrite (do_delete_store _ _ _ _ _ ED). auto.
Qed.

(* what a sweep removes: a listed key (Q) that is not kept and is older than the cutoff *)
Definition sweep_took (tp : string) (cutoff : Z) (keep : list key) (Q : key -> Prop) (k : key) (ob : obj) : Prop :=
  Q k /\ str_mem (normalize_path tp k) keep = false /\ mtime ob < cutoff.

(* Q is whatever is known of the listed keys *)
Lemma sweep_loop_removes : forall tp cutoff keep o (Q : key -> Prop) ks g dels b dels' g',
  (forall k, In k ks -> Q k) ->
  sweep_loop tp cutoff keep o g ks dels = (b, dels', g') ->
  exists R, dels' = (rev R ++ dels)%list /\ removes (sweep_took tp cutoff keep Q) (g_store g) R (g_store g').
Proof.
  intros tp cutoff keep o Q ks. induction ks as [|k r IH]; intros g dels b dels' g' HQ H.
  - simpl in H. inversion H; subst. exists []. split; [reflexivity|constructor].
  - assert (HQ': forall k0, In k0 r -> Q k0) by (intros k0 Hk; apply HQ; right; exact Hk).
    destruct (sweep_loop_cons tp cutoff keep o g k r dels)
      as [[_ E]|[[g1 [S1 E]]|[g2 [ob0 [EK [L0 [Old [S2 E]]]]]]]]; rewrite E in H.
    + (* the key escapes: the sweep stops here *) inversion H; subst. exists []. split; [reflexivity|constructor].
    + (* skipped: the store is unchanged *) destruct (IH _ _ _ _ _ HQ' H) as [R [E1 E2]]. rewrite S1 in E2. exists R. auto.
    + (* old and unkept: deleted *) destruct (IH _ _ _ _ _ HQ' H) as [R [E1 E2]]. rewrite S2 in E2. exists (k :: R). split.
      * rewrite E1. simpl. rewrite <- app_assoc. reflexivity.
      * econstructor; eauto. split; [apply HQ; left; reflexivity|auto].
Qed.

Lemma sweep_removes : forall tp grace now keep o g prefix dels b dels' g',
  sweep tp grace now keep o g prefix dels = (b, dels', g') ->
  exists R, dels' = (rev R ++ dels)%list /\
    removes (sweep_took tp (now - grace) keep (fun k => startswith (prefix ++ "/") k = true \/ k = "../x")) (g_store g) R (g_store g').
Proof.
  intros tp grace now keep o g prefix dels b dels' g' H. unfold sweep in H.
  destruct (do_listdir o g prefix) as [[ks|] g1] eqn:EL; rewrite <- (do_listdir_store _ _ _ _ _ EL).
  - exact (sweep_loop_removes _ _ _ _ _ _ _ _ _ _ _ (do_listdir_some _ _ _ _ _ EL) H).
  - (* the listing failed: nothing happened *) inversion H; subst. exists []. split; [reflexivity|constructor].
Qed.

Lemma marker_not_dotdot : forall k, startswith (INFLIGHT_PATH ++ "/") k = true -> k <> "../x".
Proof. intros k H ->. discriminate. Qed.

(* what the marker phase removes: markers older than the abandonment timeout *)
Definition abandoned (now timeout : Z) (k : key) (ob : obj) : Prop := mtime ob < now - timeout /\ is_marker_key k.

Lemma load_protection_removes : forall tp timeout now o g prot g',
  load_protection tp timeout now o g = (Some prot, g') ->
  (exists M, removes (abandoned now timeout) (g_store g) M (g_store g'))
  /\ (forall mk ob, lookup mk (g_store g') = Some ob -> is_marker_key mk -> payload_ok mk ob ->
        forall k, marker_denotes mk ob k -> In k prot).
Proof.
  intros tp timeout now o g prot g' H. unfold load_protection in H.
  destruct (do_listdir o g INFLIGHT_PATH) as [[ms|] g1] eqn:EL; [|discriminate].
  pose proof (do_listdir_store _ _ _ _ _ EL) as S1.
  destruct (markers_loop tp (now - timeout) o g1 ms []) as [p g2] eqn:EM. inversion H; subst p g2. clear H.
  apply markers_loop_removes in EM. rewrite S1 in EM. destruct EM as [_ [[M I2] I3]]. split.
  - (* a removed key is the normalised name of a listed entry: under metadata/inflight/, the corrupted listing's "../x" being no marker name *)
    exists M. revert I2. apply removes_impl. intros k ob [A [B Hm]]. split; [exact A|]. split; [|exact B].
    apply in_map_iff in Hm. destruct Hm as [mp [<- Hmp]]. destruct (do_listdir_some _ _ _ _ _ EL mp Hmp) as [Hp| ->].
    + rewrite norm_table_relative by (apply listed_inflight_relative; exact Hp). exact Hp.
    + rewrite norm_dotdot_not_marker in B. discriminate.
  - (* a marker that is still there was there before, hence listed *)
    intros mk ob L M'. apply (I3 mk ob L); [|exact M'].
    eapply do_listdir_complete; eauto. apply in_list_dir. split; [|apply M'].
    exact (lookup_In_keys _ _ _ (removes_le _ _ _ _ I2 _ _ L)).
Qed.

Definition aborted_before_sweep (r : result) : Prop :=
  r_out r = Aborted PhLists \/ r_out r = Aborted PhManifests \/ r_out r = Aborted PhMarkers.

Record gc_safe_spec (now grace timeout : Z) (snaps : list string) (st : store) (r : result) : Prop := {
  (* an abort while reachability / protection is being established happens before the first delete *)
  gs_abort_clean : aborted_before_sweep r -> r_deleted r = [];
  (* every deleted file is unreferenced, not registered by a live transaction, and older than the grace period *)
  gs_deleted : forall k, In k (r_deleted r) ->
      ~ referenced snaps st k /\ ~ live_target now timeout st k /\ exists ob, lookup k st = Some ob /\ mtime ob < now - grace;
  (* nothing else disappears, except markers older than the abandonment timeout *)
  gs_store : forall k ob, lookup k st = Some ob -> lookup k (g_store (r_final r)) = None ->
      In k (r_deleted r) \/ (mtime ob < now - timeout /\ is_marker_key k);
  gs_store_le : store_le (g_store (r_final r)) st;
  (* a marker that is still there after the run (fresh, or its stat / delete failed) protected everything it denotes *)
  gs_marker_keep : forall mk ob, lookup mk (g_store (r_final r)) = Some ob -> is_marker_key mk ->
      forall k, marker_denotes mk ob k -> ~ In k (r_deleted r)
}.

Lemma reach_store : forall tp o snaps g res g', reach tp o snaps g = (res, g') -> g_store g' = g_store g.
Proof.
  intros tp o snaps g res g' H. unfold reach in H.
  destruct (read_all WList o g (norm_set tp snaps)) as [[mp|] g1] eqn:RL; pose proof (read_all_store _ _ _ _ _ _ RL) as S1.
  - destruct (read_all WManifest o g1 (norm_set tp mp)) as [[es|] g2] eqn:RM; pose proof (read_all_store _ _ _ _ _ _ RM) as S2;
      inversion H; subst; congruence.
  - inversion H; subst; congruence.
Qed.

Lemma reach_ok : forall tp o snaps g rl rm rd g',
  wf_store snaps (g_store g) -> reach tp o snaps g = (ROk rl rm rd, g') -> reach_ok_spec snaps (g_store g) rl rm rd.
Proof.
  intros tp o snaps g rl rm rd g' WF H. unfold reach in H.
  destruct (read_all WList o g (norm_set tp snaps)) as [[mp|] g1] eqn:RL; [|discriminate].
  destruct (read_all WManifest o g1 (norm_set tp mp)) as [[es|] g2] eqn:RM; [|discriminate].
  inversion H; subst. exact (reach_exact tp snaps (g_store g) WF o g g1 mp eq_refl RL g' es RM).
Qed.

(* what the marker phase may have removed does not matter to reachability *)
Definition only_markers_removed (now timeout : Z) (st st1 : store) : Prop :=
  store_le st1 st /\ forall k ob, lookup k st = Some ob -> lookup k st1 = None -> mtime ob < now - timeout /\ is_marker_key k.

Lemma removes_only_markers : forall now timeout st M cur, removes (abandoned now timeout) st M cur -> only_markers_removed now timeout st cur.
Proof.
  intros now timeout st M cur H. split; [exact (removes_le _ _ _ _ H)|].
  intros k ob L N. exact (proj2 (removes_lost _ _ _ _ H k ob L N)).
Qed.

Lemma marker_key_not_swept : forall k, startswith (INFLIGHT_PATH ++ "/") k = true ->
  startswith "data/" k = true \/ startswith "metadata/manifests/" k = true -> False.
Proof. intros k M H. apply startswith_spec in M. destruct M as [r ->]. destruct H; discriminate. Qed.

Lemma only_markers_keeps_swept : forall now timeout st st1 k ob, only_markers_removed now timeout st st1 ->
  lookup k st = Some ob -> startswith "data/" k = true \/ startswith "metadata/manifests/" k = true -> lookup k st1 = Some ob.
Proof.
  intros now timeout st st1 k ob [LE RM] L H. destruct (lookup k st1) as [ob1|] eqn:E.
  - apply LE in E. congruence.
  - exfalso. destruct (RM k ob L E) as [_ [M _]]. exact (marker_key_not_swept k M H).
Qed.

Lemma referenced_transfer : forall now timeout snaps st st1, wf_store snaps st -> only_markers_removed now timeout st st1 ->
  (forall k, ref_manifest snaps st k -> ref_manifest snaps st1 k) /\ (forall k, ref_data snaps st k -> ref_data snaps st1 k).
Proof.
  intros now timeout snaps st st1 WF OM. apply referenced_mono.
  - intros l ms H1 H2 [ob [L B]]. exists ob. split; [|exact B].
    exact (only_markers_keeps_swept _ _ _ _ _ _ OM L (or_intror (wf_snaps _ _ WF l H1 H2))).
  - intros l ms m es _ _ [ob [L B]] H4 H5 [ob2 [L2 B2]]. exists ob2. split; [|exact B2].
    exact (only_markers_keeps_swept _ _ _ _ _ _ OM L2 (or_intror (wf_lists _ _ WF _ _ _ _ L B H4 H5))).
Qed.

Lemma reach_ok_transfer : forall now timeout snaps st st1 rl rm rd, wf_store snaps st -> only_markers_removed now timeout st st1 ->
  reach_ok_spec snaps st1 rl rm rd -> reach_ok_spec snaps st rl rm rd.
Proof.
  intros now timeout snaps st st1 rl rm rd WF OM [IL IM ID R1 R2].
  destruct (referenced_transfer now timeout snaps st st1 WF OM) as [TM TD].
  destruct (referenced_le snaps st1 st (proj1 OM)) as [UM UD]. constructor.
  - exact IL.
  - intro k. split; intro H; [exact (UM k (proj1 (IM k) H))|exact (proj2 (IM k) (TM k H))].
  - intro k. split; intro H; [exact (UD k (proj1 (ID k) H))|exact (proj2 (ID k) (TD k H))].
  - intros k Hk. destruct (R1 k Hk) as [ms H]. exists ms. exact (holds_le WList _ _ _ _ (proj1 OM) H).
  - intros k Hk. destruct (R2 k Hk) as [es H]. exists es. exact (holds_le WManifest _ _ _ _ (proj1 OM) H).
Qed.

Lemma sweeps_took : forall tp grace now o rl rm rd prot g, exists R1 R2 mid,
  ~ aborted_before_sweep (sweeps tp grace now o rl rm rd prot g)
  /\ r_deleted (sweeps tp grace now o rl rm rd prot g) = rev (R1 ++ R2)
  /\ removes (sweep_took tp (now - grace) (rd ++ prot) (fun k => startswith (DATA_PREFIX ++ "/") k = true \/ k = "../x")) (g_store g) R1 mid
  /\ removes (sweep_took tp (now - grace) ((rm ++ rl) ++ prot) (fun k => startswith (MANIFESTS_PREFIX ++ "/") k = true \/ k = "../x"))
       mid R2 (g_store (r_final (sweeps tp grace now o rl rm rd prot g))).
Proof.
  intros. unfold sweeps.
  destruct (sweep tp grace now (rd ++ prot) o g DATA_PREFIX []) as [[b1 d1] g4] eqn:SW1.
  destruct (sweep_removes _ _ _ _ _ _ _ _ _ _ _ SW1) as [R1 [-> A]]. rewrite app_nil_r in *.
  destruct b1.
  { exists R1, [], (g_store g4). rewrite app_nil_r. split; [intros [H|[H|H]]; discriminate|]. split; [reflexivity|]. split; [exact A|constructor]. }
  destruct (sweep tp grace now ((rm ++ rl) ++ prot) o g4 MANIFESTS_PREFIX (rev R1)) as [[b2 d2] g5] eqn:SW2.
  destruct (sweep_removes _ _ _ _ _ _ _ _ _ _ _ SW2) as [R2 [-> B]].
  exists R1, R2, (g_store g4). rewrite rev_app_distr. destruct b2; (split; [intros [H|[H|H]]; discriminate|auto]).
Qed.

(* what a collection over st must not delete, once the marker phase has left cur: the files a retained snapshot needs, and
   whatever a marker that is still in cur denotes *)
Definition needed (snaps : list string) (st cur : store) (k : key) : Prop :=
  referenced snaps st k \/ exists mk ob, lookup mk cur = Some ob /\ is_marker_key mk /\ marker_denotes mk ob k.

(* what a live transaction registered is among them: its marker is not abandoned, so it is still in cur *)
Lemma live_marker_stays : forall now timeout st cur k, only_markers_removed now timeout st cur -> live_target now timeout st k ->
  exists mk ob, lookup mk cur = Some ob /\ is_marker_key mk /\ marker_denotes mk ob k.
Proof.
  intros now timeout st cur k [LE RM] [mk [ob [L [M [F D]]]]]. exists mk, ob. split; [|auto].
  destruct (lookup mk cur) as [ob'|] eqn:L'.
  - apply LE in L'. congruence.
  - destruct (RM mk ob L L') as [Old _]. exfalso. exact (Z.lt_irrefl _ (Z.lt_le_trans _ _ _ Old F)).
Qed.

Lemma took_unneeded : forall (need : key -> Prop) tp cutoff keep prefix,
  (forall k, need k -> table_relative k) ->
  (forall k, need k -> startswith (prefix ++ "/") k = true -> In k keep) ->
  forall k ob, sweep_took tp cutoff keep (fun k => startswith (prefix ++ "/") k = true \/ k = "../x") k ob -> ~ need k /\ mtime ob < cutoff.
Proof.
  intros need tp cutoff keep prefix TR KEEP k ob [Hpre [Hm Old]]. split; [|exact Old].
  (* a needed key is its own normal form, so the test against the keep set found it *)
  intro N. pose proof (TR k N) as T. rewrite norm_table_relative in Hm by exact T. apply str_mem_false in Hm. apply Hm.
  destruct Hpre as [Hp| ->]; [exact (KEEP k N Hp)|]. destruct T; discriminate.
Qed.

Lemma result_safe : forall now grace timeout snaps st cur r R,
  only_markers_removed now timeout st cur -> r_deleted r = rev R ->
  removes (fun k ob => ~ needed snaps st cur k /\ mtime ob < now - grace) cur R (g_store (r_final r)) ->
  (aborted_before_sweep r -> r_deleted r = []) ->
  gc_safe_spec now grace timeout snaps st r.
Proof.
  intros now grace timeout snaps st cur r R OM ED RS AB. pose proof OM as [LE RM]. pose proof (removes_le _ _ _ _ RS) as LG. constructor.
  - exact AB.
  - intros k Hk. rewrite ED in Hk. apply <- in_rev in Hk. destruct (removes_in _ _ _ _ RS k Hk) as [ob [L [N Old]]].
    split; [intro X; apply N; left; exact X|]. split; [intro X; apply N; right; exact (live_marker_stays _ _ _ _ _ OM X)|]. exists ob. split; [exact (LE _ _ L)|exact Old].
  - intros k ob L N. destruct (lookup k cur) as [ob'|] eqn:E.
    + left. rewrite ED. apply -> in_rev. exact (proj1 (removes_lost _ _ _ _ RS k ob' E N)).
    + right. exact (RM k ob L E).
  - exact (store_le_trans _ _ _ LG LE).
  - intros mk ob L M k Dn Hk. rewrite ED in Hk. apply <- in_rev in Hk. destruct (removes_in _ _ _ _ RS k Hk) as [_ [_ [N _]]].
    apply N. right. exists mk, ob. split; [exact (LG _ _ L)|auto].
Qed.

(* What getting to the sweeps means, said of the INITIAL store st, for every oracle and both orders: the three sets are exactly
   what the retained snapshots reference in st, and every list and manifest among them was read; the sweeps start on st less
   abandoned markers; whatever a marker still there denotes is protected (a live transaction's marker is: live_marker_stays). *)
Record sweeps_start (now timeout : Z) (snaps : list string) (st : store) (rl rm rd prot : list key) (g3 : gst) : Prop := {
  ss_reach : reach_ok_spec snaps st rl rm rd;
  ss_only_markers : only_markers_removed now timeout st (g_store g3);
  ss_markers : forall mk ob, lookup mk (g_store g3) = Some ob -> is_marker_key mk -> forall k, marker_denotes mk ob k -> In k prot
}.

Lemma sweeps_safe : forall tp grace now timeout o snaps st rl rm rd prot g,
  wf_store snaps st -> sweeps_start now timeout snaps st rl rm rd prot g ->
  gc_safe_spec now grace timeout snaps st (sweeps tp grace now o rl rm rd prot g).
Proof.
  intros tp grace now timeout o snaps st rl rm rd prot g3 WF [[IL IM ID _ _] OM P2]. pose proof OM as [P1 _].
  set (need := needed snaps st (g_store g3)).
  (* what a marker protects is table-relative and in prot; what a snapshot needs is in its class's set, in its class's directory *)
  assert (PROT: forall k, (exists mk ob, lookup mk (g_store g3) = Some ob /\ is_marker_key mk /\ marker_denotes mk ob k) ->
            table_relative k /\ In k prot).
  { intros k [mk [ob [L [M D]]]]. split; [|eapply P2; eauto]. apply P1 in L. exact (marker_denotes_relative mk ob k (fun t => wf_markers _ _ WF mk ob t L M) D). }
  assert (NTR: forall k, need k -> table_relative k).
  { intros k [R|N]; [|apply PROT; exact N].
    destruct (referenced_swept snaps st WF k R); [apply listed_data_relative|apply listed_manifests_relative]; assumption. }
  assert (ND: forall k, need k -> startswith (DATA_PREFIX ++ "/") k = true -> In k (rd ++ prot)).
  { intros k [[R|[R|R]]|N] Hp; apply in_or_app.
    - (* a list: not under data/ *) exfalso. exact (data_manifests_disjoint k Hp (ref_list_manifests snaps st WF k R)).
    - (* a manifest: not under data/ *) exfalso. exact (data_manifests_disjoint k Hp (ref_manifest_manifests snaps st WF k R)).
    - (* a data file *) left. apply ID. exact R.
    - (* protected *) right. apply PROT. exact N. }
  assert (NM: forall k, need k -> startswith (MANIFESTS_PREFIX ++ "/") k = true -> In k ((rm ++ rl) ++ prot)).
  { intros k [[R|[R|R]]|N] Hp; apply in_or_app.
    - (* a list *) left. apply in_or_app. right. apply IL. exact R.
    - (* a manifest *) left. apply in_or_app. left. apply IM. exact R.
    - (* a data file: not under metadata/manifests/ *) exfalso. exact (data_manifests_disjoint k (ref_data_data snaps st WF k R) Hp).
    - (* protected *) right. apply PROT. exact N. }
  destruct (sweeps_took tp grace now o rl rm rd prot g3) as (R1 & R2 & mid & NE & E & A & B).
  apply (result_safe _ _ _ _ _ _ _ _ OM E); [|intro AB; destruct (NE AB)].
  (* neither sweep took a needed key *)
  apply (removes_impl _ _ _ _ _ (took_unneeded need _ _ _ _ NTR ND)) in A. apply (removes_impl _ _ _ _ _ (took_unneeded need _ _ _ _ NTR NM)) in B.
  exact (removes_app _ _ _ _ _ _ A B).
Qed.

Lemma load_protection_none_store : forall tp timeout now o g g', load_protection tp timeout now o g = (None, g') -> g_store g' = g_store g.
Proof.
  intros tp timeout now o g g' LP. unfold load_protection in LP. destruct (do_listdir o g INFLIGHT_PATH) as [[ms|] gx] eqn:EL.
  - destruct (markers_loop tp (now - timeout) o gx ms []); discriminate.
  - inversion LP; subst. exact (do_listdir_store _ _ _ _ _ EL).
Qed.

Lemma gc_keeps_referenced : forall now grace timeout snaps st r, wf_store snaps st -> gc_safe_spec now grace timeout snaps st r ->
  forall k ob, lookup k st = Some ob -> referenced snaps st k -> lookup k (g_store (r_final r)) = Some ob.
Proof.
  intros now grace timeout snaps st r WF SP k ob L R. destruct (lookup k (g_store (r_final r))) as [ob'|] eqn:E.
  - apply (gs_store_le _ _ _ _ _ _ SP) in E. congruence.
  - exfalso. destruct (gs_store _ _ _ _ _ _ SP k ob L E) as [D|[_ [M _]]].
    + exact (proj1 (gs_deleted _ _ _ _ _ _ SP k D) R).
    + exact (marker_key_not_swept k M (referenced_swept snaps st WF k R)).
Qed.

Lemma reach_abort_early : forall tp o snaps g ph rl rm g' d rd pr, reach tp o snaps g = (RAbort ph rl rm, g') ->
  aborted_before_sweep (mkR (Aborted ph) d rl rm rd pr g').
Proof.
  intros tp o snaps g ph rl rm g' d rd pr H. unfold reach in H.
  destruct (read_all WList o g (norm_set tp snaps)) as [[mp|] g1]; [|inversion H; left; reflexivity].
  destruct (read_all WManifest o g1 (norm_set tp mp)) as [[es|] g2]; inversion H. right. left. reflexivity.
Qed.

(* Whichever of the two preparatory phases comes first, a run ends in one of two ways, each with the facts its users take by name. *)

Record stopped_early (now timeout : Z) (g0 : gst) (r : result) : Prop := {
  se_abort : aborted_before_sweep r;            (* in reach (lists or manifests) or in the marker phase *)
  se_deleted : r_deleted r = [];                (* before the first delete of a file *)
  se_removed : exists M, removes (abandoned now timeout) (g_store g0) M (g_store (r_final r))   (* at most abandoned markers are gone *)
}.

(* It got to the sweeps, which start from g3 with the sets rl rm rd prot. *)
Record at_sweeps (tp : string) (now timeout : Z) (o : oracle) (snaps : list string) (g0 : gst)
                 (rl rm rd prot : list key) (g3 : gst) : Prop := {
  (* reachability succeeded, on a store that is the initial one less abandoned markers (what reach_ok and GCFaultProofs.reach_phase_fault_free_from start from) *)
  as_reach : exists gr gr' M, reach tp o snaps gr = (ROk rl rm rd, gr') /\ removes (abandoned now timeout) (g_store g0) M (g_store gr);
  (* protection was loaded from the initial store, and the sweeps start on the store it left (what load_protection_removes starts from) *)
  as_prot : exists gp gp', load_protection tp timeout now o gp = (Some prot, gp')
              /\ g_store gp = g_store g0 /\ g_store g3 = g_store gp';
  as_removed : exists M, removes (abandoned now timeout) (g_store g0) M (g_store g3)
}.
Arguments se_abort {now timeout g0 r} _.
Arguments se_deleted {now timeout g0 r} _.
Arguments se_removed {now timeout g0 r} _.
Arguments as_reach {tp now timeout o snaps g0 rl rm rd prot g3} _.
Arguments as_prot {tp now timeout o snaps g0 rl rm rd prot g3} _.
Arguments as_removed {tp now timeout o snaps g0 rl rm rd prot g3} _.

Lemma gc_run_from_phases : forall mf tp grace now timeout o snaps g0,
  stopped_early now timeout g0 (gc_run_from mf tp grace now timeout o snaps g0)
  \/ exists rl rm rd prot g3, gc_run_from mf tp grace now timeout o snaps g0 = sweeps tp grace now o rl rm rd prot g3
                              /\ at_sweeps tp now timeout o snaps g0 rl rm rd prot g3.
Proof.
  intros mf tp grace now timeout o snaps g0. unfold gc_run_from.
  pose proof (rm_nil (abandoned now timeout) (g_store g0)) as R0.
  (* the fields are closed in their order: se_abort, se_deleted, se_removed; as_reach, as_prot, as_removed *)
  destruct mf.
  - (* in-flight protection first *)
    destruct (load_protection tp timeout now o g0) as [[prot|] g1] eqn:LP.
    + destruct (proj1 (load_protection_removes _ _ _ _ _ _ _ LP)) as [M R1].
      destruct (reach tp o snaps g1) as [[ph rl rm|rl rm rd] g2] eqn:RE; pose proof (reach_store _ _ _ _ _ _ RE) as S2.
      * (* reach aborted *) left. constructor; cbn [r_deleted r_final];
          [exact (reach_abort_early _ _ _ _ _ _ _ _ _ _ _ RE)|reflexivity|rewrite S2; exists M; exact R1].
      * right. exists rl, rm, rd, prot, g2. split; [reflexivity|].
        constructor; [exists g1, g2, M; split; [exact RE|exact R1]|exists g0, g1; auto|rewrite S2; exists M; exact R1].
    + (* the marker listing failed *)
      left. constructor; cbn [r_out r_deleted r_final]; [right; right; reflexivity|reflexivity|].
      rewrite (load_protection_none_store _ _ _ _ _ _ LP). exists []. exact R0.
  - (* reachability first *)
    destruct (reach tp o snaps g0) as [[ph rl rm|rl rm rd] g1] eqn:RE; pose proof (reach_store _ _ _ _ _ _ RE) as S1.
    + (* reach aborted *) left. constructor; cbn [r_deleted r_final];
        [exact (reach_abort_early _ _ _ _ _ _ _ _ _ _ _ RE)|reflexivity|rewrite S1; exists []; exact R0].
    + destruct (load_protection tp timeout now o g1) as [[prot|] g2] eqn:LP.
      * right. exists rl, rm, rd, prot, g2. split; [reflexivity|].
        pose proof (proj1 (load_protection_removes _ _ _ _ _ _ _ LP)) as R2. rewrite S1 in R2.
        constructor; [exists g0, g1, []; split; [exact RE|exact R0]|exists g1, g2; auto|exact R2].
      * (* the marker listing failed *)
        left. constructor; cbn [r_out r_deleted r_final]; [right; right; reflexivity|reflexivity|].
        rewrite (load_protection_none_store _ _ _ _ _ _ LP), S1. exists []. exact R0.
Qed.

Lemma sweeps_start_of_at_sweeps : forall tp now timeout o snaps g0 rl rm rd prot g3, wf_store snaps (g_store g0) ->
  at_sweeps tp now timeout o snaps g0 rl rm rd prot g3 -> sweeps_start now timeout snaps (g_store g0) rl rm rd prot g3.
Proof.
  intros tp now timeout o snaps g0 rl rm rd prot g3 WF AS.
  destruct (as_reach AS) as (gr & gr' & Mr & RE & Rr). destruct (as_prot AS) as (gp & gp' & LP & Sp & S3). destruct (as_removed AS) as [M R3].
  pose proof (reach_ok _ _ _ _ _ _ _ _ (removes_wf _ _ _ _ _ WF Rr) RE) as RC.
  constructor; [exact (reach_ok_transfer _ _ _ _ _ _ _ _ WF (removes_only_markers _ _ _ _ _ Rr) RC)|exact (removes_only_markers _ _ _ _ _ R3)|].
  (* a marker still there was in the initial store, which is in writer form *)
  intros mk ob L Mk. pose proof (removes_le _ _ _ _ R3 _ _ L) as L0. rewrite S3 in L.
  exact (proj2 (load_protection_removes _ _ _ _ _ _ _ LP) mk ob L Mk (fun t => wf_markers _ _ WF mk ob t L0 Mk)).
Qed.

Lemma gc_run_from_wf : forall mf tp grace now timeout o snaps g0, wf_store snaps (g_store g0) ->
  wf_store snaps (g_store (r_final (gc_run_from mf tp grace now timeout o snaps g0))).
Proof.
  intros mf tp grace now timeout o snaps g0 WF.
  destruct (gc_run_from_phases mf tp grace now timeout o snaps g0) as [E|(rl & rm & rd & prot & g3 & -> & AS)].
  - destruct (se_removed E) as [M R]. exact (removes_wf _ _ _ _ _ WF R).
  - destruct (as_removed AS) as [M R]. destruct (sweeps_took tp grace now o rl rm rd prot g3) as (R1 & R2 & mid & _ & _ & A & B).
    exact (removes_wf _ _ _ _ _ (removes_wf _ _ _ _ _ (removes_wf _ _ _ _ _ WF R) A) B).
Qed.

Lemma nothing_deleted_safe : forall now grace timeout snaps st r, r_deleted r = [] ->
  only_markers_removed now timeout st (g_store (r_final r)) -> gc_safe_spec now grace timeout snaps st r.
Proof.
  intros now grace timeout snaps st r D OM. exact (result_safe _ _ _ _ _ _ r [] OM D (rm_nil _ _) (fun _ => D)).
Qed.

Theorem gc_safe_from : forall mf tp grace now timeout o snaps g0,
  wf_store snaps (g_store g0) -> gc_safe_spec now grace timeout snaps (g_store g0) (gc_run_from mf tp grace now timeout o snaps g0).
Proof.
  intros mf tp grace now timeout o snaps g0 WF.
  destruct (gc_run_from_phases mf tp grace now timeout o snaps g0) as [E|(rl & rm & rd & prot & g3 & -> & AS)].
  { destruct (se_removed E) as [M R]. exact (nothing_deleted_safe _ _ _ _ _ _ (se_deleted E) (removes_only_markers _ _ _ _ _ R)). }
  (* reachability was complete for the initial store; protection covers the markers that are left and the live targets *)
  exact (sweeps_safe tp grace now timeout o snaps _ rl rm rd prot g3 WF (sweeps_start_of_at_sweeps _ _ _ _ _ _ _ _ _ _ _ WF AS)).
Qed.

Theorem gc_safe_all_faults : forall tp grace now timeout o snaps st,
  wf_store snaps st -> gc_safe_spec now grace timeout snaps st (gc_run tp grace now timeout o snaps st).
Proof. intros tp grace now timeout o snaps st WF. unfold gc_run. exact (gc_safe_from MARKERS_FIRST tp grace now timeout o snaps (mkG 0 st []) WF). Qed.

(* On a concrete store "k is referenced" is one evaluation: what a snapshot's lists and manifests name is computed, instead of a
   chain of witnesses written out in Prop. *)
Definition entries_at (w : want) (st : store) (k : key) : list string :=
  match lookup k st with Some o => match as_w w (body o) with Some xs => xs | None => [] end | None => [] end.

Definition ref_listb (snaps : list string) (k : key) : bool :=
  existsb (fun l => nonempty l && String.eqb k (resolve l)) snaps.
Definition ref_manifestb (snaps : list string) (st : store) (k : key) : bool :=
  existsb (fun l => nonempty l && ref_listb (entries_at WList st (resolve l)) k) snaps.
Definition ref_datab (snaps : list string) (st : store) (k : key) : bool :=
  existsb (fun l => nonempty l && existsb (fun m => nonempty m && str_mem k (map resolve (entries_at WManifest st (resolve m))))
                                          (entries_at WList st (resolve l))) snaps.

Lemma entries_at_in : forall w st k x, In x (entries_at w st k) -> exists xs, holds w st k xs /\ In x xs.
Proof.
  intros w st k x. unfold entries_at. destruct (lookup k st) as [o|] eqn:L; [|intros []].
  destruct (as_w w (body o)) as [xs|] eqn:E; [|intros []]. intro H. exists xs. split; [exact (holds_intro w st k o xs L E)|exact H].
Qed.

Lemma ref_listb_sound : forall snaps k, ref_listb snaps k = true -> ref_list snaps k.
Proof.
  intros snaps k H. apply existsb_exists in H. destruct H as [l [Hl H]]. apply andb_true_iff in H. destruct H as [N E].
  apply String.eqb_eq in E. exists l. auto.
Qed.

Lemma ref_manifestb_sound : forall snaps st k, ref_manifestb snaps st k = true -> ref_manifest snaps st k.
Proof.
  intros snaps st k H. apply existsb_exists in H. destruct H as [l [Hl H]]. apply andb_true_iff in H. destruct H as [N H].
  destruct (ref_listb_sound _ _ H) as [m [Hm [Nm ->]]]. destruct (entries_at_in WList _ _ _ Hm) as [ms [L Hin]].
  exact (ref_manifest_intro snaps st l ms m Hl N L Hin Nm).
Qed.

Lemma ref_datab_sound : forall snaps st k, ref_datab snaps st k = true -> ref_data snaps st k.
Proof.
  intros snaps st k H. apply existsb_exists in H. destruct H as [l [Hl H]]. apply andb_true_iff in H. destruct H as [N H].
  apply existsb_exists in H. destruct H as [m [Hm H]]. apply andb_true_iff in H. destruct H as [Nm H].
  apply str_mem_In, in_map_iff in H. destruct H as [e [<- He]].
  destruct (entries_at_in WList _ _ _ Hm) as [ms [L Hin]]. destruct (entries_at_in WManifest _ _ _ He) as [es [L' Hin']].
  exact (ref_data_intro snaps st l ms m es e Hl N L Hin Nm L' Hin').
Qed.

Lemma nodupb_sound : forall l, nodupb l = true -> NoDup l.
Proof.
  induction l as [|x r IH]; simpl; intro H; [constructor|].
  apply andb_true_iff in H. destruct H as [H1 H2]. constructor; [|auto].
  apply negb_true_iff in H1. apply str_mem_false in H1. exact H1.
Qed.

Lemma is_marker_keyb_iff : forall mk, is_marker_keyb mk = true <-> is_marker_key mk.
Proof. intro mk. unfold is_marker_keyb, is_marker_key. rewrite andb_true_iff. tauto. Qed.

Lemma wf_objb_sound : forall k ob, wf_objb k ob = true -> obj_wf k ob.
Proof.
  intros k ob H. unfold wf_objb in H. split; [|split].
  - (* a list *) intros ms m B Hm Hn. destruct (body ob); try discriminate B. injection B as ->.
    rewrite forallb_forall in H. specialize (H m Hm). rewrite Hn in H. exact H.
  - (* a manifest *) intros es e B He. destruct (body ob); try discriminate B. injection B as ->.
    rewrite forallb_forall in H. exact (H e He).
  - (* a marker with a usable payload *) intros t M B Hn. rewrite B in H. apply is_marker_keyb_iff in M. rewrite M, Hn in H.
    apply str_mem_In. exact H.
Qed.

Lemma wf_storeb_sound : forall snaps st, wf_storeb snaps st = true -> wf_store snaps st.
Proof.
  intros snaps st H. unfold wf_storeb in H. apply andb_true_iff in H. destruct H as [H H3].
  apply andb_true_iff in H. destruct H as [H1 H2]. rewrite forallb_forall in H2, H3.
  apply wf_store_iff. split; [apply nodupb_sound; exact H1|]. split.
  - intros l Hl Hn. specialize (H2 l Hl). rewrite Hn in H2. exact H2.
  - intros k ob L. apply wf_objb_sound. apply lookup_In in L. exact (H3 (k, ob) L).
Qed.
