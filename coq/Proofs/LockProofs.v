(* Proofs/LockProofs.v -- invariants of the S3 conditional-write lock model (C19, S3 lock).

   Facts about one event, each proved by one pass over `sstep`: what an event of client a leaves alone (step_framed:
   clock, late_delete, the other clients' records), the invariant `sinv` (step_sinv), what can happen to the lock
   object (step_obj), how a client's belief changes and what a call can return (step_client), that acquire() is entered
   by its call only (step_in_acquire), the clock readings of one acquire() (stinv_step).  The theorems about runs are
   derived from these. *)
From Coq Require Import ZArith Lia List Bool.
Require Import DS.Model.Lock DS.Proofs.LockAgeProofs DS.Proofs.ListFacts.
Import ListNotations.
Open Scope Z_scope.

Lemma updN_same {A} (f : N -> A) k v : updN f k v k = v.
Proof. unfold updN. rewrite N.eqb_refl. reflexivity. Qed.

Lemma updN_other {A} (f : N -> A) k v x : x <> k -> updN f k v x = f x.
Proof. unfold updN. intro H. destruct (N.eqb_spec x k); [contradiction|reflexivity]. Qed.

Definition in_acquire (p : spc) : bool :=
  match p with QStart | QCreate | QHead | QAge _ _ _ | QTake _ _ | QTimeChk | QSleep _ => true | _ => false end.

Definition actor (ev : sevent) : option N :=
  match ev with SCall c _ | SStep c _ _ | SRenew c _ | SDie c => Some c | STick _ | SEnv _ _ => None end.

Section S3.
Variable cd : bool.
Variable lease : Z.
Variable rsleep : Z.

(* ---- what every event leaves alone: the clock does not go back, the flag late_delete is not reset, the records of
   the clients other than its actor stay.  `sstep` composes its result from s_log, s_cl and s_set. ---- *)
Definition framed (s : sstate) (a : option N) (s' : sstate) : Prop :=
  snow s <= snow s' /\ (late_delete s' = false -> late_delete s = false) /\ (forall c, a <> Some c -> scl s' c = scl s c).

Lemma framed_log s a ob : framed s a (s_log s ob).
Proof. repeat split; auto. simpl. lia. Qed.

Lemma framed_set s a o ne t x ld ob r :
  snow s <= t -> (ld = false -> late_delete s = false) -> framed s (Some a) (s_set s o ne t a x ld ob r).
Proof. intros Ht Hl. repeat split; auto. intros c Ne. apply updN_other. congruence. Qed.

Lemma framed_cl s a x ob r : framed s (Some a) (s_cl s a x ob r).
Proof. apply framed_set; [lia|auto]. Qed.

Lemma step_framed s ev : framed s (actor ev) (sstep cd lease rsleep s ev).
Proof.
  destruct ev as [c k|c f j|c f|d|c|z r]; unfold sstep, actor; cbv zeta.
  - (* SCall *) repeat break_match; auto using framed_log, framed_cl.
  - (* SStep: the sleeps move the clock forward, and the DELETE of a release only ever sets late_delete *)
    repeat break_match; auto using framed_log, framed_cl; apply framed_set; try lia; auto.
    (* left: the leaves where the DELETE lands (one per fault value); the new flag is late_delete s || _ *)
    all: intro H; apply orb_false_iff in H; tauto.
  - (* SRenew *) repeat break_match; auto using framed_log, framed_cl; apply framed_set; try lia; auto.
  - (* STick: no actor *) repeat split; auto; simpl; lia.
  - (* SDie *) apply framed_cl.
  - (* SEnv: no actor *) repeat split; auto; simpl; lia.
Qed.

Lemma step_other s ev c : actor ev <> Some c -> scl (sstep cd lease rsleep s ev) c = scl s c.
Proof. apply (step_framed s ev). Qed.

Lemma step_clock s ev : snow s <= snow (sstep cd lease rsleep s ev).
Proof. apply (step_framed s ev). Qed.

Lemma late_sticky s ev : late_delete (sstep cd lease rsleep s ev) = false -> late_delete s = false.
Proof. apply (step_framed s ev). Qed.

(* the head reply a client has in hand: LastModified and ETag *)
Definition seen (p : spc) : option (Z * N) :=
  match p with QAge l e _ | QTake l e => Some (l, e) | _ => None end.

(* what the invariant says of one client, against a store: ETag counter, lock object, clock *)
Record cinv (ne : N) (o : option lobj) (now : Z) (c : N) (x : sclient) : Prop := {
  (* the client's own ETag has been handed out, and the object that carries it is the client's: a renewal or a
     conditional DELETE keyed to it touches only the client's own object (my_etag_owner) *)
  C_my : forall e, my_etag x = Some e -> (e < ne)%N /\ forall ob, o = Some ob -> etag ob = e -> owner ob = c;
  (* the head reply in hand: if the object still carries that ETag, its LastModified is the one the age test saw, so
     the takeover PUT If-Match lands only on the object whose age was tested (take_lapsed) *)
  C_pc : forall l e, seen (s_pc x) = Some (l, e) -> (e < ne)%N /\ forall ob, o = Some ob -> etag ob = e -> lm ob = l;
  (* the takeover PUT is reached only when the age test found the lease lapsed (take_lapsed) *)
  C_take : forall l e, s_pc x = QTake l e -> now - l > lease;
  (* inside release() the client believes it holds and its heartbeat is off: no renewal between GET and DELETE
     (step_hinv, the delete case) *)
  C_rel : in_release (s_pc x) = true -> is_locked x = true /\ hb x = false;
  (* a lease does not start in the future (step_hinv, the write case) *)
  C_lw : last_write x <= now
}.

Record sinv (s : sstate) : Prop := {
  (* the object's ETag has been handed out (a fresh one is nobody's yet) and its LastModified is not in the future *)
  E_obj : forall o, obj s = Some o -> (etag o < next_etag s)%N /\ lm o <= snow s;
  E_cl : forall c, cinv (next_etag s) (obj s) (snow s) c (scl s c)
}.

(* a client that believes it holds the lock and whose lease has not lapsed really owns the object *)
Definition hinv (s : sstate) : Prop :=
  forall c, is_locked (scl s c) = true -> snow s - last_write (scl s c) <= lease ->
            exists o, obj s = Some o /\ owner o = c /\ last_write (scl s c) <= lm o.

Lemma sinv_init : sinv sinit.
Proof. repeat constructor; simpl; intros; try discriminate; lia. Qed.

Lemma hinv_init : hinv sinit.
Proof. intros c H. discriminate. Qed.

Lemma cinv_keep ne o now c x o' t : cinv ne o now c x -> (o' = o \/ o' = None) -> now <= t -> cinv ne o' t c x.
Proof.
  intros [A B C D E] Ho Ht.
  assert (Hobj : forall ob, o' = Some ob -> o = Some ob) by (intros ob H; destruct Ho; congruence).
  constructor; auto; try lia.
  - intros e M. destruct (A e M). auto.
  - intros l e P. destruct (B l e P). auto.
  - intros l e P. specialize (C l e P). lia.
Qed.

(* somebody writes a fresh object: its ETag is nobody's yet *)
Lemma cinv_write ne o now c x w :
  cinv ne o now c x -> cinv (N.succ ne) (Some {| owner := w; etag := ne; lm := now |}) now c x.
Proof.
  intros [A B C D E]. constructor; auto.
  - intros e M. destruct (A e M). split; [lia|]. intros ob H1 H2. inversion H1; subst; simpl in *. lia.
  - intros l e P. destruct (B l e P). split; [lia|]. intros ob H1 H2. inversion H1; subst; simpl in *. lia.
Qed.

(* the acting client's record changes: a new ETag is that of its own object, a new head reply is the object's, the
   takeover PUT is reached only past the lease, release() is entered believing and with the heartbeat off *)
Lemma cinv_change ne o now c x x' :
  cinv ne o now c x -> (forall ob, o = Some ob -> (etag ob < ne)%N) ->
  (forall e, my_etag x' = Some e -> my_etag x = Some e \/ exists ob, o = Some ob /\ etag ob = e /\ owner ob = c) ->
  (forall l e, seen (s_pc x') = Some (l, e) ->
     seen (s_pc x) = Some (l, e) \/ exists ob, o = Some ob /\ l = lm ob /\ e = etag ob) ->
  (forall l e, s_pc x' = QTake l e -> s_pc x = QTake l e \/ now - l > lease) ->
  (in_release (s_pc x') = true -> is_locked x' = true /\ hb x' = false) ->
  (last_write x' = last_write x \/ last_write x' = now) ->
  cinv ne o now c x'.
Proof.
  intros [A B C D E] Ho Hm Hp Hk Hr Hl. constructor; [| | |exact Hr|destruct Hl as [-> | ->]; lia].
  - intros e M. destruct (Hm e M) as [M0|(ob & Eo & Ee & Ow)]; [exact (A e M0)|].
    split; [rewrite <- Ee; exact (Ho ob Eo)|]. congruence.
  - intros l e P. destruct (Hp l e P) as [P0|(ob & Eo & -> & ->)]; [exact (B l e P0)|].
    split; [exact (Ho ob Eo)|]. congruence.
  - intros l e P. destruct (Hk l e P) as [P0|L]; [exact (C l e P0)|exact L].
Qed.

Lemma sinv_keep s c x' o' t ld ob r :
  sinv s -> (o' = obj s \/ o' = None) -> snow s <= t ->
  (my_etag x' = my_etag (scl s c) \/ my_etag x' = None) ->
  (forall l e, seen (s_pc x') = Some (l, e) ->
     seen (s_pc (scl s c)) = Some (l, e) \/ (exists o, obj s = Some o /\ l = lm o /\ e = etag o)) ->
  (forall l e, s_pc x' = QTake l e -> s_pc (scl s c) = QTake l e \/ snow s - l > lease) ->
  (in_release (s_pc x') = true -> is_locked x' = true /\ hb x' = false) ->
  last_write x' = last_write (scl s c) ->
  sinv (s_set s o' (next_etag s) t c x' ld ob r).
Proof.
  intros [I1 I2] Ho Ht Hm Hp Hk Hr Hl.
  assert (Hobj : forall o, o' = Some o -> obj s = Some o) by (intros o E; destruct Ho; congruence).
  constructor; simpl.
  - intros o E. apply Hobj, I1 in E. lia.
  - intro c0. unfold updN. apply (cinv_keep (next_etag s) (obj s) (snow s)); [|exact Ho|exact Ht].
    destruct (N.eqb_spec c0 c) as [->|Ne]; [|apply I2].
    apply (cinv_change _ _ _ _ (scl s c)); auto; try apply I2.
    + intros o E. apply (I1 o E).
    + intros e M. left. destruct Hm as [Hm|Hm]; congruence.
Qed.

Lemma sinv_write s c x' ld ob r :
  sinv s ->
  (my_etag x' = Some (next_etag s) \/ my_etag x' = my_etag (scl s c)) ->
  (forall l e, seen (s_pc x') = Some (l, e) -> seen (s_pc (scl s c)) = Some (l, e)) ->
  (forall l e, s_pc x' = QTake l e -> s_pc (scl s c) = QTake l e) ->
  (in_release (s_pc x') = true -> is_locked x' = true /\ hb x' = false) ->
  (last_write x' = last_write (scl s c) \/ last_write x' = snow s) ->
  sinv (s_set s (Some (fresh_obj s c)) (N.succ (next_etag s)) (snow s) c x' ld ob r).
Proof.
  intros [I1 I2] Hm Hp Hk Hr Hl. constructor; simpl.
  - intros o E. inversion E; subst; simpl. split; lia.
  - intro c0. unfold updN. destruct (N.eqb_spec c0 c) as [->|Ne]; [|exact (cinv_write _ _ _ _ _ c (I2 c0))].
    apply (cinv_change _ _ _ _ (scl s c)); auto; [exact (cinv_write _ _ _ _ _ c (I2 c))|..].
    + intros o E. inversion E; simpl. lia.
    + intros e M. destruct Hm as [Hm|Hm]; [right; exists (fresh_obj s c); repeat split|left]; simpl; congruence.
Qed.

Lemma sinv_log s ob : sinv s -> sinv (s_log s ob).
Proof. intros [I1 I2]. constructor; [exact I1|exact I2]. Qed.

Lemma etag_matches_spec s e : etag_matches s e = true -> exists o, obj s = Some o /\ etag o = e.
Proof.
  unfold etag_matches. destruct (obj s) as [o|]; [|discriminate]. intro H. apply N.eqb_eq in H. eauto.
Qed.

(* the steps at which nothing of the invariant is at stake *)
Lemma sinv_plain s c x' ob r :
  sinv s -> (my_etag x' = my_etag (scl s c) \/ my_etag x' = None) -> last_write x' = last_write (scl s c) ->
  seen (s_pc x') = None -> in_release (s_pc x') = false -> sinv (s_cl s c x' ob r).
Proof.
  intros Iv Hm Hl Hs Hr. apply sinv_keep; auto; try apply Z.le_refl.
  - intros l e H. congruence.
  - intros l e H. rewrite H in Hs. discriminate.
  - congruence.
Qed.

Lemma step_sinv s ev : sinv s -> sinv (sstep cd lease rsleep s ev).
Proof.
  intro Iv. assert (R : forall c, in_release (s_pc (scl s c)) = true -> is_locked (scl s c) = true /\ hb (scl s c) = false)
    by (intro c; apply (E_cl s Iv c)).
  destruct ev as [c k|c f j|c f|d|c|z r]; unfold sstep; cbv zeta.
  - (* SCall: nothing to show (sinv_log, sinv_plain) but for release(), entered only by a client that believes, with
       the heartbeat stopped *)
    repeat break_match; try (apply sinv_log; exact Iv); try solve [apply sinv_plain; auto].
    apply sinv_keep; simpl; auto; try discriminate; lia.
  - (* SStep, by the primitive the client is parked in front of *)
    destruct (s_alive (scl s c)); [|apply sinv_log; exact Iv].
    destruct (s_pc (scl s c)) as [| | | |l e r|l e| |u|second|u| |] eqn:P.
    + (* QIdle *) apply sinv_log; exact Iv.
    + (* QStart *) apply sinv_plain; auto.
    + (* QCreate: a PUT that lands writes a fresh ETag, the client's own if it sees the reply, nobody's if the reply is
         lost; in every case the client ends at QIdle or QHead with no reply in hand *)
      repeat break_match; first [apply sinv_plain; auto|apply sinv_write; simpl; auto; discriminate].
    + (* QHead: a served HEAD puts the object's own LastModified and ETag in hand *)
      repeat break_match; try solve [apply sinv_plain; auto].
      apply sinv_keep; simpl; auto; try discriminate; try lia.
      intros l0 e0 H. injection H as <- <-. right. eauto.
    + (* QAge: the reply in hand is kept, and QTake is next only when the age test found the lease lapsed *)
      rewrite takeover_age_render. destruct r as [off|]; [rewrite takeover_keeps_spec|apply sinv_plain; auto].
      destruct (snow s - l <=? lease) eqn:Hl; [apply sinv_plain; auto|].
      apply sinv_keep; simpl; rewrite ?P; auto; try discriminate; try lia.
      intros l0 e0 H. injection H as <- <-. right. apply Z.leb_gt in Hl. lia.
    + (* QTake: as QCreate; the reply in hand is given up whatever the store answers *)
      repeat break_match; first [apply sinv_plain; auto|apply sinv_write; simpl; auto; discriminate].
    + (* QTimeChk *) break_match; apply sinv_plain; auto.
    + (* QSleep: time passes *) apply sinv_keep; simpl; auto; try discriminate; lia.
    + (* QHeldGet *) repeat break_match; apply sinv_plain; auto.
    + (* QHeldSleep *) apply sinv_keep; simpl; auto; try discriminate; lia.
    + (* QRelGet: on to the DELETE, still inside release(): believing, heartbeat off, as at its entry *)
      specialize (R c). rewrite P in R.
      repeat break_match; try solve [apply sinv_plain; auto]. apply sinv_keep; simpl; auto; try discriminate; lia.
    + (* QRelDel: release() ends at QIdle with the ETag forgotten, whether or not the DELETE lands *)
      break_match; [apply sinv_keep; simpl; auto; try discriminate; lia|apply sinv_plain; auto].
  - (* SRenew: the record changes in its ETag and lease start (a renewal that lands and is seen) or in its belief, not
       in its program counter -- which is outside release(): there the heartbeat is off and the guard false *)
    destruct (s_alive (scl s c) && hb (scl s c) && is_locked (scl s c)) eqn:G; [|apply sinv_log; exact Iv].
    assert (NR : in_release (s_pc (scl s c)) = false).
    { destruct (in_release (s_pc (scl s c))) eqn:Rl; [|reflexivity].
      destruct (R c Rl) as [_ Hb]. rewrite Hb, andb_false_r in G. discriminate G. }
    destruct (my_etag (scl s c)) as [e|]; [|apply sinv_log; exact Iv].
    (* by fault, and whether the ETag still matches: the PUT lands (sinv_write) or not (sinv_keep).  sinv_keep fails to unify
       on the leaves that write (next_etag moves): those take sinv_write; the premise left in both is "not inside
       release()": NR *)
    destruct f; repeat break_match; first [apply sinv_keep|apply sinv_write]; simpl; auto; try lia;
      intro Rl; congruence.
  - (* STick: time passes, so a lapsed lease stays lapsed *)
    destruct Iv as [I1 I2]. constructor; simpl.
    + intros o E. apply I1 in E. lia.
    + intro c. apply (cinv_keep _ _ _ _ _ _ _ (I2 c)); [auto|lia].
  - (* SDie: the record but for `alive` stays *) apply sinv_keep; simpl; auto; lia.
  - (* SEnv *) destruct Iv as [I1 I2]. constructor; [exact I1|exact I2].
Qed.

(* a takeover's conditional PUT lands only on an object older than the lease *)
Lemma take_lapsed s c l e : sinv s -> s_pc (scl s c) = QTake l e -> etag_matches s e = true ->
  exists o, obj s = Some o /\ snow s - lm o > lease.
Proof.
  intros Iv P Em. destruct (etag_matches_spec s e Em) as [o [Eo Ee]]. exists o. split; [exact Eo|].
  destruct (C_pc _ _ _ _ _ (E_cl s Iv c) l e) as [_ B]; [rewrite P; reflexivity|]. rewrite (B o Eo Ee).
  apply (C_take _ _ _ _ _ (E_cl s Iv c) l e P).
Qed.

Lemma my_etag_owner s c e : sinv s -> my_etag (scl s c) = Some e -> etag_matches s e = true ->
  exists o, obj s = Some o /\ owner o = c.
Proof.
  intros Iv M Em. destruct (etag_matches_spec s e Em) as [o [Eo Ee]]. exists o. split; [exact Eo|].
  apply (proj2 (C_my _ _ _ _ _ (E_cl s Iv c) e M) o Eo Ee).
Qed.

(* ---- what one event can do to the lock object: nothing; a release deletes it; or client c writes a fresh one,
   either inside acquire() (created when absent, taken over when older than the lease) or renewing its own ----
   Stated of the parts of the new state it reads (object, client records, flag), as client_effect below: a leaf of the walk
   then computes each part once, where the new state written out at every place it is read makes every leaf many times
   larger and the walk slow to check. *)
Definition obj_effect (s : sstate) (o' : option lobj) (cl' : N -> sclient) (ld' : bool) : Prop :=
  o' = obj s
  \/ (exists c, o' = None /\ in_release (s_pc (scl s c)) = true /\ is_locked (cl' c) = false
         /\ (cd = true -> exists o, obj s = Some o /\ owner o = c)
         /\ (cd = false -> ld' = false -> snow s - last_write (scl s c) <= lease))
  \/ (exists c, o' = Some (fresh_obj s c)
         /\ (in_acquire (s_pc (scl s c)) = true
               /\ (obj s = None \/ exists o, obj s = Some o /\ snow s - lm o > lease)
             \/ exists o, obj s = Some o /\ owner o = c)).

Lemma step_obj s ev : sinv s ->
  let s' := sstep cd lease rsleep s ev in obj_effect s (obj s') (scl s') (late_delete s').
Proof.
  intros Iv s'. unfold s'. clear s'.
  destruct ev as [c k|c f j|c f|d|c|z r]; unfold sstep; cbv zeta.
  - (* SCall: no request *) repeat break_match; left; reflexivity.
  - (* SStep: only QCreate and QTake write, only QRelDel deletes; the other primitives leave the object *)
    destruct (s_alive (scl s c)); [|left; reflexivity].
    destruct (s_pc (scl s c)) as [| | | |l e r|l e| |u|second|u| |] eqn:P; try (repeat break_match; left; reflexivity).
    + (* QCreate: the PUT If-None-Match lands on an absent object *)
      repeat break_match; try (left; reflexivity); right; right; exists c;
        (split; [reflexivity|left; split; [rewrite P; reflexivity|left; assumption]]).
    + (* QTake: the PUT If-Match lands (reply seen, or lost) only on the object whose age was found lapsed *)
      pose proof (take_lapsed s c l e Iv P) as T.
      repeat break_match; try (left; reflexivity); right; right; exists c;
        (split; [reflexivity|left; split; [rewrite P; reflexivity|right; apply T; reflexivity]]).
    + (* QRelDel: conditional on the releaser's own ETag (cd), or flagged late when its lease has lapsed *)
      destruct (lands f && (negb cd || match my_etag (scl s c) with Some e => etag_matches s e | None => false end)) eqn:C;
        [|left; reflexivity].
      right; left; exists c. simpl. rewrite updN_same. repeat split; [rewrite P; reflexivity| |].
      * intros ->. apply andb_true_iff in C. destruct C as [_ C]. simpl in C.
        destruct (my_etag (scl s c)) as [e|] eqn:M; [|discriminate]. exact (my_etag_owner s c e Iv M C).
      * intros _ L. apply orb_false_iff in L. destruct L as [_ L]. apply negb_false_iff in L. apply Z.leb_le in L. exact L.
  - (* SRenew: the PUT If-Match on the client's own ETag lands (reply seen, or lost) only on its own object *)
    destruct (s_alive (scl s c) && hb (scl s c) && is_locked (scl s c)); [|left; reflexivity].
    destruct (my_etag (scl s c)) as [e|] eqn:M; [|left; reflexivity].
    pose proof (my_etag_owner s c e Iv M) as T.
    repeat break_match; try (left; reflexivity); right; right; exists c; (split; [reflexivity|right; apply T; reflexivity]).
  - (* STick *) left; reflexivity.
  - (* SDie *) left; reflexivity.
  - (* SEnv *) left; reflexivity.
Qed.

(* ---- one event and one client.  Belief: it never comes to believe it holds, nor moves the start of its lease, except by
   seeing its own write of the object succeed.  Result: a call returns True only to a served GET of the caller's own
   body, and acquire() succeeds only when its conditional write landed, on an absent object or through the takeover PUT ---- *)
Definition client_effect (s : sstate) (ev : sevent) (c : N) (x' : sclient) (o' : option lobj) : Prop :=
  ((is_locked x' = true -> is_locked (scl s c) = true) /\ last_write x' = last_write (scl s c)
   \/ o' = Some (fresh_obj s c) /\ last_write x' = snow s)
  /\ (s_res x' = s_res (scl s c)
      \/ match s_res x' with
         | STrue => exists f j second o, ev = SStep c f j /\ s_pc (scl s c) = QHeldGet second /\ obj s = Some o /\ owner o = c
         | SOk => o' = Some (fresh_obj s c)
                  /\ (obj s = None \/ exists l e, s_pc (scl s c) = QTake l e /\ etag_matches s e = true)
         | _ => True
         end).

Lemma step_client s ev c :
  let s' := sstep cd lease rsleep s ev in client_effect s ev c (scl s' c) (obj s').
Proof.
  intros s'. destruct (option_eq_Some_dec _ N.eq_dec (actor ev) c) as [A|A]; [|unfold s'; rewrite step_other by exact A; split; left; auto].
  unfold s'. clear s'.
  (* c's own event, leaf by leaf; c's new record is read off the leaf.
     Belief: kept or dropped with the lease start kept (left), or the leaf is a write whose reply c sees: q_won, q_renewed
     (right).  Result: kept (left), or one other than STrue / SOk (right, nothing to show) -- on all but the three leaves
     that make a call return True, which are left over. *)
  destruct ev as [c0 k|c0 f j|c0 f|d|c0|z r]; try discriminate A; injection A as ->; unfold sstep; cbv zeta;
    repeat break_match; simpl; rewrite ?updN_same; unfold client_effect; simpl;
    (split; [first [left; split; [congruence|reflexivity]|right; split; reflexivity]
            |try first [left; reflexivity|right; exact I]]).
  - (* QCreate, the PUT If-None-Match served on an absent object: acquire() returns True *)
    right. split; [reflexivity|left; assumption].
  - (* QTake, the PUT If-Match served on a matching ETag: acquire() returns True *)
    right. split; [reflexivity|eauto].
  - (* QHeldGet, the GET served with the caller's own body: is_held() returns True *)
    right. do 4 eexists. repeat split; [eassumption..|]. apply N.eqb_eq. assumption.
Qed.

Lemma step_hinv s ev : sinv s -> hinv s -> (cd = false -> late_delete (sstep cd lease rsleep s ev) = false) ->
  hinv (sstep cd lease rsleep s ev).
Proof.
  intros Iv H L c Lk W. pose proof (step_clock s ev) as Ht.
  destruct (proj1 (step_client s ev c)) as [[B1 B2]|[Wr Lw]];
    [|(* c saw its own write land *) exists (fresh_obj s c); rewrite Lw; simpl; repeat split; [exact Wr|lia]].
  (* c's belief and lease start are as before *)
  rewrite B2 in *. destruct (H c (B1 Lk)) as (o & Eo & Ow & Hl); [lia|].
  destruct (step_obj s ev Iv) as [Same|[(c1 & Del & R & Lk1 & D1 & D2)|(c1 & Wr & Cond)]].
  - exists o. rewrite Same. auto.
  - (* a delete: the releaser owned the object, so c is the releaser, who no longer believes *)
    exfalso. assert (Ow1 : exists o1, obj s = Some o1 /\ owner o1 = c1).
    { destruct cd; [apply D1; reflexivity|].
      destruct (H c1 (proj1 (C_rel _ _ _ _ _ (E_cl s Iv c1) R)) (D2 eq_refl (L eq_refl))) as (o1 & Eo1 & Ow1 & _).
      exists o1. split; assumption. }
    destruct Ow1 as (o1 & Eo1 & Ow1). congruence.
  - (* a write by c1: of an absent or lapsed object -- impossible, c's is there and live -- or of c1's own *)
    exists (fresh_obj s c1). rewrite Wr. simpl.
    destruct Cond as [[_ [Eo1|(o1 & Eo1 & Lp)]]|(o1 & Eo1 & Ow1)]; [congruence|exfalso; assert (o1 = o) by congruence; subst; lia|].
    repeat split; [congruence|]. pose proof (C_lw _ _ _ _ _ (E_cl s Iv c)). lia.
Qed.

Lemma run_inv evs : forall s, sinv s -> ((cd = false -> late_delete s = false) -> hinv s) ->
  sinv (srun cd lease rsleep s evs)
  /\ ((cd = false -> late_delete (srun cd lease rsleep s evs) = false) -> hinv (srun cd lease rsleep s evs)).
Proof.
  induction evs as [|ev evs IH]; intros s Iv H; simpl; [auto|].
  apply IH.
  - apply step_sinv. exact Iv.
  - intro L. apply step_hinv; auto. apply H. intro C. eapply late_sticky. apply L. exact C.
Qed.

Lemma reach_sinv evs : sinv (srun cd lease rsleep sinit evs).
Proof. apply (run_inv evs sinit sinv_init (fun _ => hinv_init)). Qed.

Theorem s3_mutex_partial : forall evs,
  let s := srun cd lease rsleep sinit evs in
  (cd = false -> late_delete s = false) ->
  s3_mutex_at lease s
  /\ forall c, holder_live lease s c -> exists o, obj s = Some o /\ owner o = c.
Proof.
  intros evs s L.
  destruct (run_inv evs sinit sinv_init (fun _ => hinv_init)) as [Iv H]. fold s in Iv, H. specialize (H L).
  assert (Own : forall c, holder_live lease s c -> exists o, obj s = Some o /\ owner o = c).
  { intros c (A & Lk & R & W). destruct (H c Lk W) as [o [Eo [Ow _]]]. eauto. }
  split; [|exact Own].
  intros c1 c2 H1 H2. destruct (Own c1 H1) as [o1 [E1 O1]]. destruct (Own c2 H2) as [o2 [E2 O2]]. congruence.
Qed.

Definition is_acquire_of (a : N) (ev : sevent) : bool :=
  match ev with SCall c (CAcquire _) => N.eqb c a | _ => false end.

(* the lock object is not a's, and a is not inside acquire() *)
Definition foreign (s : sstate) (a : N) : Prop :=
  (forall o, obj s = Some o -> owner o <> a) /\ in_acquire (s_pc (scl s a)) = false.

Lemma step_in_acquire s ev a : in_acquire (s_pc (scl s a)) = false -> is_acquire_of a ev = false ->
  in_acquire (s_pc (scl (sstep cd lease rsleep s ev) a)) = false.
Proof.
  intros P Hev. destruct (option_eq_Some_dec _ N.eq_dec (actor ev) a) as [A|A]; [|rewrite step_other by exact A; exact P].
  destruct ev as [c k|c f j|c f|d|c|z r]; try discriminate A; injection A as ->; simpl in *.
  - (* SCall *) rewrite N.eqb_refl in Hev. repeat break_match; simpl; rewrite ?updN_same; simpl; congruence.
  - (* SStep *) destruct (s_alive (scl s a)); [|exact P].
    destruct (s_pc (scl s a)) eqn:Pa; try discriminate P; repeat break_match; simpl; rewrite ?updN_same; simpl; rewrite ?Pa; auto.
  - (* SRenew *) repeat break_match; simpl; rewrite ?updN_same; simpl; auto.
  - (* SDie *) rewrite updN_same. exact P.
Qed.

Lemma foreign_step s ev a : sinv s -> foreign s a -> is_acquire_of a ev = false ->
  foreign (sstep cd lease rsleep s ev) a.
Proof.
  intros Iv [F P] Hev. split; [|apply step_in_acquire; assumption].
  intros o' Eo'. destruct (step_obj s ev Iv) as [Same|[(c & Del & _)|(c & Wr & Cond)]].
  - apply F. congruence.
  - congruence.
  - (* a write by a itself: not inside acquire(), and not a renewal of an object that is not a's *)
    rewrite Wr in Eo'. injection Eo' as <-. simpl. intros ->.
    destruct Cond as [[A _]|(o & Eo & Ow)]; [congruence|exact (F o Eo Ow)].
Qed.

Lemma foreign_run evs : forall s a, sinv s -> foreign s a -> forallb (fun ev => negb (is_acquire_of a ev)) evs = true ->
  sinv (srun cd lease rsleep s evs) /\ foreign (srun cd lease rsleep s evs) a.
Proof.
  induction evs as [|ev evs IH]; intros s a Iv F H; simpl; [auto|].
  simpl in H. apply andb_true_iff in H. destruct H as [H1 H2]. apply negb_true_iff in H1.
  apply IH; auto. apply step_sinv; auto. apply foreign_step; auto.
Qed.

(* while the object is somebody else's: no is_held() of a returns True, no renewal of a touches the store, and a
   served renewal makes a drop its belief *)
Lemma foreign_is_superseded s a : sinv s -> foreign s a ->
  (forall f j, s_res (scl s a) <> STrue -> s_res (scl (sstep cd lease rsleep s (SStep a f j)) a) <> STrue)
  /\ (forall f, obj (sstep cd lease rsleep s (SRenew a f)) = obj s)
  /\ (forall e, s_alive (scl s a) = true -> hb (scl s a) = true -> is_locked (scl s a) = true ->
                my_etag (scl s a) = Some e ->
                is_locked (scl (sstep cd lease rsleep s (SRenew a FNone)) a) = false).
Proof.
  intros Iv [F _].
  assert (Hm : forall e, my_etag (scl s a) = Some e -> etag_matches s e = false).
  { intros e M. destruct (etag_matches s e) eqn:Em; [|reflexivity].
    destruct (my_etag_owner s a e Iv M Em) as (o & Eo & Ow). destruct (F o Eo Ow). }
  split; [|split].
  - intros f j Hn Hr. destruct (proj2 (step_client s (SStep a f j) a)) as [E|R]; [congruence|].
    rewrite Hr in R. destruct R as (_ & _ & _ & o & _ & _ & Eo & Ow). exact (F o Eo Ow).
  - intro f. simpl. destruct (s_alive (scl s a) && hb (scl s a) && is_locked (scl s a)); [|reflexivity].
    destruct (my_etag (scl s a)) as [e|] eqn:M; [|reflexivity]. rewrite (Hm e eq_refl).
    destruct f; reflexivity.
  - intros e A Hb L M. simpl. rewrite A, Hb, L, M. simpl. rewrite (Hm e M). simpl. rewrite updN_same. reflexivity.
Qed.

(* inside the retry loop: past the first clock reading (QStart) *)
Definition looping (p : spc) : bool := in_acquire p && match p with QStart => false | _ => true end.

(* the clock readings of one acquire(): an invariant of the client's own record *)
Record stinv (x : sclient) : Prop := {
  (* inside the loop the latest reading is the first one or lies before the deadline: it is the t_prev of the reading
     that raises *)
  ST_loop : looping (s_pc x) = true -> last_t x = s_start x \/ last_t x - s_start x < s_timeout x;
  (* TimeoutError: at a reading past the deadline whose predecessor was not past it, the two at most s_maxgap apart
     (C19_s3_timeout, through stinv_timeout) *)
  ST_ret : s_res x = STimeout ->
           s_timeout x <= t_ret x - s_start x
           /\ (t_prev x = s_start x \/ t_prev x - s_start x < s_timeout x)
           /\ t_ret x - t_prev x <= s_maxgap x
}.

Definition readings (x : sclient) := (s_timeout x, s_start x, last_t x, t_prev x, t_ret x, s_maxgap x).

(* a step that reads no clock *)
Lemma stinv_goto x x' :
  readings x' = readings x -> (looping (s_pc x') = true -> looping (s_pc x) = true) ->
  (s_res x' = STimeout -> s_res x = STimeout) -> stinv x -> stinv x'.
Proof.
  intros E Hl Hr [T1 T2]. injection E as E1 E2 E3 E4 E5 E6.
  constructor; rewrite E1, E2, ?E3, ?E4, ?E5, ?E6; auto.
Qed.

Lemma stinv_step s ev c : stinv (scl s c) -> stinv (scl (sstep cd lease rsleep s ev) c).
Proof.
  intro T. destruct (option_eq_Some_dec _ N.eq_dec (actor ev) c) as [A|A]; [|rewrite step_other by exact A; exact T].
  destruct ev as [c0 k|c0 f j|c0 f|d|c0|z r]; try discriminate A; injection A as ->; simpl.
  - (* SCall *) destruct (s_alive (scl s c)); [|exact T].
    destruct (s_pc (scl s c)) eqn:P; try exact T.
    repeat break_match; simpl; rewrite updN_same;
      try (apply (stinv_goto (scl s c)); [reflexivity|discriminate..|exact T]).
    (* acquire() is entered: no reading yet *) constructor; simpl; discriminate.
  - (* SStep *) destruct (s_alive (scl s c)); [|exact T].
    destruct (s_pc (scl s c)) eqn:P; try exact T;
      try (repeat break_match; simpl; rewrite updN_same;
           apply (stinv_goto (scl s c)); [reflexivity|simpl; rewrite ?P; auto; discriminate..|exact T]).
    + (* QStart: the first reading *)
      simpl. rewrite updN_same. constructor; simpl; [left; reflexivity|discriminate].
    + (* QTimeChk: a later reading t; the previous one was the first or before the deadline *)
      destruct T as [T1 _]. rewrite P in T1. specialize (T1 eq_refl).
      destruct (Z.geb_spec (snow s - s_start (scl s c)) (s_timeout (scl s c))) as [Hge|Hlt];
        simpl; rewrite updN_same; constructor; simpl; intros; try discriminate.
      * split; [lia|]. split; [exact T1|lia].
      * right. lia.
  - (* SRenew *) repeat break_match; simpl; rewrite ?updN_same; try exact T;
      (apply (stinv_goto (scl s c)); [reflexivity|auto..|exact T]).
  - (* SDie *) rewrite updN_same. apply (stinv_goto (scl s c)); [reflexivity|auto..|exact T].
Qed.

Lemma stinv_init : stinv sclient0.
Proof. constructor; simpl; discriminate. Qed.

Lemma reach_stinv evs c : stinv (scl (srun cd lease rsleep sinit evs) c).
Proof. apply (fold_left_preserves _ _ _ (fun s => stinv (scl s c))); [intros s e; apply stinv_step|exact stinv_init]. Qed.

Lemma stinv_timeout x : stinv x -> s_res x = STimeout ->
  s_start x + s_timeout x <= t_ret x
  /\ t_ret x <= Z.max (s_start x) (s_start x + s_timeout x) + s_maxgap x
  /\ (0 < s_timeout x -> t_ret x < s_start x + s_timeout x + s_maxgap x).
Proof. intros [_ T2] H. destruct (T2 H) as (A & B & G). repeat split; lia. Qed.

End S3.

(* the schedule on which the faithful model of the unchanged code violates the full statement (C19_s3_mutex_refuted) *)
Definition fc19_witness : list sevent :=
  [ SCall 0%N (CAcquire 2000); SStep 0%N FNone 300; SStep 0%N FNone 300;      (* A holds since t=0 *)
    SCall 0%N CRelease; SStep 0%N FNone 300;                                  (* A: GET -> body is mine *)
    STick 60001;                                                              (* A paused past its lease *)
    SCall 1%N (CAcquire 2000); SStep 1%N FNone 300; SStep 1%N FNone 300; SStep 1%N FNone 300;
    SStep 1%N FNone 300; SStep 1%N FNone 300;                                 (* B takes over, legitimately *)
    SStep 0%N FNone 300;                                                      (* A: unconditional DELETE *)
    SCall 2%N (CAcquire 2000); SStep 2%N FNone 300; SStep 2%N FNone 300 ].    (* C creates: B and C both live *)

Lemma fc19_witness_is_late : late_delete (srun false 60000 200 sinit fc19_witness) = true.
Proof. vm_compute. reflexivity. Qed.

(* The weaker-looking hypothesis "no release is delayed by more than the lease BETWEEN ITS GET AND ITS
   DELETE" does not suffice: here A (whose heartbeat did not get to renew) starts releasing 59 s into its
   lease, and its DELETE lands 1002 ms after its GET -- after B's legitimate takeover at 60.001 s. *)
Definition gap_witness : list sevent :=
  [ SCall 0%N (CAcquire 2000); SStep 0%N FNone 300; SStep 0%N FNone 300;
    STick 59000; SCall 0%N CRelease; SStep 0%N FNone 300;                     (* GET at 59.000 s *)
    STick 1001;
    SCall 1%N (CAcquire 2000); SStep 1%N FNone 300; SStep 1%N FNone 300; SStep 1%N FNone 300;
    SStep 1%N FNone 300; SStep 1%N FNone 300;                                 (* takeover at 60.001 s *)
    STick 1; SStep 0%N FNone 300;                                             (* DELETE at 60.002 s *)
    SCall 2%N (CAcquire 2000); SStep 2%N FNone 300; SStep 2%N FNone 300 ].
