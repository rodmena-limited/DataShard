(* Proofs/ListFacts.v -- facts about lists, folds, boolean membership and `option` that the layers need and Coq 8.16's
   standard library lacks.  Nothing here mentions the model. *)
From Coq Require Import List Bool Lia Permutation Sorted.
Import ListNotations.

(* Most machines run by fold_left over their step, many taking "the step if it is enabled, else stay" (`skip`). *)
Lemma fold_left_preserves : forall (St Ev : Type) (f : St -> Ev -> St) (P : St -> Prop),
  (forall s e, P s -> P (f s e)) -> forall l s, P s -> P (fold_left f l s).
Proof. intros St Ev f P H l. induction l as [|e l IH]; intros s Hs; [exact Hs|]. apply IH, H, Hs. Qed.

Definition skip {St Ev : Type} (step : St -> Ev -> option St) (s : St) (e : Ev) : St :=
  match step s e with Some s' => s' | None => s end.

Lemma run_skip_preserves_on : forall (St Ev : Type) (step : St -> Ev -> option St) (P : St -> Prop) (ok : Ev -> Prop),
  (forall s e s', P s -> ok e -> step s e = Some s' -> P s') ->
  forall l s, Forall ok l -> P s -> P (fold_left (skip step) l s).
Proof.
  intros St Ev step P ok H. induction l as [|e l IH]; intros s F Hs; [exact Hs|].
  inversion F as [|? ? Oe Fl]; subst. apply (IH _ Fl). unfold skip.
  destruct (step s e) eqn:E; [exact (H _ _ _ Hs Oe E) | exact Hs].
Qed.

Lemma run_skip_preserves : forall (St Ev : Type) (step : St -> Ev -> option St) (P : St -> Prop),
  (forall s e s', P s -> step s e = Some s' -> P s') ->
  forall l s, P s -> P (fold_left (skip step) l s).
Proof.
  intros St Ev step P H l s. apply (run_skip_preserves_on St Ev step P (fun _ => True)).
  - intros x e x' Px _. exact (H x e x' Px).
  - apply Forall_forall. intros; exact I.
Qed.

(* A machine `hi` layered on a machine `lo` through a projection: if every enabled step of `hi`, from the states of its own
   invariant P, leaves the projection alone or moves it by a step of `lo`, every state `hi` reaches projects to a state `lo`
   reaches -- what holds of all runs of `lo` holds of the projections of all runs of `hi`. *)
Section Refines.
  Variables (S E S' E' : Type) (hi : S -> E -> option S) (lo : S' -> E' -> option S') (proj : S -> S').

  Lemma run_skip_refines : forall P : S -> Prop,
    (forall x e x', P x -> hi x e = Some x' -> P x' /\ (proj x' = proj x \/ exists e', proj x' = skip lo (proj x) e')) ->
    forall es x, P x ->
    P (fold_left (skip hi) es x) /\ exists es', proj (fold_left (skip hi) es x) = fold_left (skip lo) es' (proj x).
  Proof.
    intros P H. induction es as [|e es IH]; intros x Px; [split; [exact Px | exists []; reflexivity]|].
    simpl. unfold skip at 2 4. destruct (hi x e) as [x'|] eqn:L; [|apply IH; exact Px].
    destruct (H x e x' Px L) as [Px' M]. destruct (IH x' Px') as [Q [es' E0]]. split; [exact Q|].
    destruct M as [M|[e' M]]; rewrite E0, M; [exists es' | exists (e' :: es')]; reflexivity.
  Qed.

  (* ... for a layer that needs no invariant of its own *)
  Lemma run_skip_projects :
    (forall x e x', hi x e = Some x' -> proj x' = proj x \/ exists e', proj x' = skip lo (proj x) e') ->
    forall es x, exists es', proj (fold_left (skip hi) es x) = fold_left (skip lo) es' (proj x).
  Proof.
    intros H es x. apply (run_skip_refines (fun _ => True)); [|exact I].
    intros y e y' _ L. split; [exact I | exact (H y e y' L)].
  Qed.
End Refines.

(* A strict run (the index of the first event that is not enabled, or the final state) that accepts every event ends where
   the skipping run ends: a witness "exists X, strict .. = inl X /\ P X" is the skipping run, a small term, and what is left
   to evaluate is `accepted` and P of it. *)
Definition accepted {A : Type} (r : A + nat) : bool := match r with inl _ => true | inr _ => false end.

Section Strict.
  Variables (St Ev : Type) (step : St -> Ev -> option St) (strict : St -> list Ev -> nat -> St + nat).
  Hypothesis strict_nil : forall x i, strict x [] i = inl x.
  Hypothesis strict_cons : forall x e es i,
    strict x (e :: es) i = match step x e with Some x' => strict x' es (S i) | None => inr i end.

  Lemma strict_accepted : forall es x i, accepted (strict x es i) = true -> strict x es i = inl (fold_left (skip step) es x).
  Proof.
    induction es as [|e es IH]; intros x i; [intros _; apply strict_nil|].
    rewrite strict_cons. simpl. unfold skip at 2. destruct (step x e); [apply IH | discriminate].
  Qed.

  Lemma strict_witness : forall (P : St -> Prop) es x i,
    accepted (strict x es i) = true -> P (fold_left (skip step) es x) -> exists X, strict x es i = inl X /\ P X.
  Proof. intros P es x i A H. exists (fold_left (skip step) es x). split; [exact (strict_accepted es x i A) | exact H]. Qed.
End Strict.

Lemma existsb_eqb_In : forall (A : Type) (eqb : A -> A -> bool), (forall x y, eqb x y = true <-> x = y) ->
  forall x l, existsb (eqb x) l = true <-> In x l.
Proof.
  intros A eqb Heq x l. rewrite existsb_exists. split.
  - intros [y [Hy E]]. apply Heq in E. subst y. exact Hy.
  - intro Hx. exists x. split; [exact Hx|]. apply Heq. reflexivity.
Qed.

Lemma existsb_eqb_not_In : forall (A : Type) (eqb : A -> A -> bool), (forall x y, eqb x y = true <-> x = y) ->
  forall x l, existsb (eqb x) l = false <-> ~ In x l.
Proof. intros A eqb Heq x l. rewrite <- (existsb_eqb_In A eqb Heq), not_true_iff_false. reflexivity. Qed.

Lemma existsb_false : forall (A : Type) (p : A -> bool) l, existsb p l = false <-> forall x, In x l -> p x = false.
Proof.
  intros A p l. rewrite <- not_true_iff_false, existsb_exists. split.
  - intros N x I. destruct (p x) eqn:P; [destruct N; eauto | reflexivity].
  - intros H [x [I P]]. rewrite (H x I) in P. discriminate.
Qed.

Lemma forallb_false : forall (A : Type) (p : A -> bool) l, forallb p l = false -> exists x, In x l /\ p x = false.
Proof.
  intros A p. induction l as [|a l IH]; simpl; [discriminate|]. destruct (p a) eqn:Pa; simpl.
  - intro F. destruct (IH F) as [x [Hin Px]]. exists x. auto.
  - intros _. exists a. auto.
Qed.

Lemma existsb_perm : forall (A : Type) (f : A -> bool) (l l' : list A), Permutation l l' -> existsb f l = existsb f l'.
Proof.
  intros A f l l' HP. apply eq_true_iff_eq. rewrite !existsb_exists.
  split; intros [x [Hx Hf]]; exists x; (split; [|exact Hf]).
  - exact (Permutation_in x HP Hx).
  - exact (Permutation_in x (Permutation_sym HP) Hx).
Qed.

(* the model files define these two tests at their own element types (Path.leqb, Str.str_eqb, Path.is_prefix, ...); the
   lemmas about those are instances of the two below, by conversion *)
Section ListEqb.
  Context {A : Type} (eqb : A -> A -> bool).
  Fixpoint eqbl (a b : list A) : bool :=
    match a, b with
    | [], [] => true
    | x :: a', y :: b' => eqb x y && eqbl a' b'
    | _, _ => false
    end.
  Fixpoint prefixb (a b : list A) : bool :=
    match a, b with
    | [], _ => true
    | x :: a', y :: b' => eqb x y && prefixb a' b'
    | _ :: _, [] => false
    end.
  Hypothesis eqb_eq : forall x y, eqb x y = true <-> x = y.
  Lemma eqbl_eq : forall a b, eqbl a b = true <-> a = b.
  Proof.
    induction a as [|x a IH]; destruct b as [|y b]; simpl; try (split; discriminate); [split; reflexivity|].
    rewrite andb_true_iff, eqb_eq, IH. split; [intros [-> ->]; reflexivity | intros [= -> ->]; auto].
  Qed.
  Lemma prefixb_spec : forall a b, prefixb a b = true <-> exists s, b = a ++ s.
  Proof.
    induction a as [|x a IH]; intros b; simpl.
    - split; [intros _; exists b; reflexivity|reflexivity].
    - destruct b as [|y b]; [split; [discriminate|intros [s H]; discriminate]|].
      rewrite andb_true_iff, eqb_eq, IH. split.
      + intros [-> [s ->]]. exists s. reflexivity.
      + intros [s [= -> ->]]. eauto.
  Qed.
End ListEqb.

Lemma map_inj : forall (A B : Type) (f : A -> B), (forall a b, f a = f b -> a = b) ->
  forall x y, map f x = map f y -> x = y.
Proof.
  intros A B f I. induction x as [|a x IH]; destruct y as [|b y]; simpl; intro H; try discriminate; auto.
  injection H as E1 E2. f_equal; auto.
Qed.

Lemma flat_map_nil : forall (A B : Type) (f : A -> list B) (l : list A), (forall x, In x l -> f x = []) -> flat_map f l = [].
Proof.
  intros A B f l. induction l as [|x l IH]; simpl; intro H; [reflexivity|].
  rewrite (H x) by (left; reflexivity). simpl. apply IH. intros y Hy. apply H. right. exact Hy.
Qed.

Lemma combine_map_r : forall (A B : Type) (g : A -> B) (l : list A), combine l (map g l) = map (fun a => (a, g a)) l.
Proof. intros A B g l. induction l as [|x l IH]; cbn [map combine]; [reflexivity|]. rewrite IH. reflexivity. Qed.

Lemma filter_map_comm : forall (A B : Type) (f : A -> B) (g : B -> bool) (l : list A),
  filter g (map f l) = map f (filter (fun x => g (f x)) l).
Proof.
  intros A B f g l. induction l as [|x l IH]; simpl; [reflexivity|].
  destruct (g (f x)); simpl; rewrite IH; reflexivity.
Qed.

Lemma filter_flat_map : forall (A B C : Type) (p : C -> bool) (h : B -> C) (g : A -> list B) (l : list A),
  filter p (map h (flat_map g l)) = flat_map (fun a => filter p (map h (g a))) l.
Proof.
  intros A B C p h g l. induction l as [|a l IH]; simpl; [reflexivity|]. rewrite map_app, filter_app, IH. reflexivity.
Qed.

Lemma filter_all_true : forall (A : Type) (P : A -> bool) (l : list A), (forall x, In x l -> P x = true) -> filter P l = l.
Proof.
  intros A P l H. induction l as [|x l IH]; simpl; [reflexivity|].
  rewrite (H x (or_introl eq_refl)). f_equal. apply IH. intros y Hy. apply H. right. exact Hy.
Qed.

Lemma filter_all_false : forall (A : Type) (P : A -> bool) l, (forall x, In x l -> P x = false) <-> filter P l = [].
Proof.
  intros A P l. induction l as [|a l IH]; simpl; [tauto|]. destruct (P a) eqn:E.
  - split; [intro H; rewrite (H a (or_introl eq_refl)) in E|]; discriminate.
  - rewrite <- IH. split; [auto|intros H x [<-|Hx]; auto].
Qed.

Lemma filter_filter_andb : forall (A : Type) (P Q : A -> bool) l, filter P (filter Q l) = filter (fun x => Q x && P x) l.
Proof.
  intros A P Q l. induction l as [|x l IH]; simpl; [reflexivity|].
  destruct (Q x); simpl; [destruct (P x); rewrite IH; reflexivity|exact IH].
Qed.

Lemma filter_filter_imp : forall (A : Type) (P Q : A -> bool) (l : list A),
  (forall x, In x l -> P x = true -> Q x = true) -> filter P (filter Q l) = filter P l.
Proof.
  intros A P Q l H. rewrite filter_filter_andb. apply filter_ext_in. intros x Hx.
  destruct (P x) eqn:EP; [rewrite (H x Hx EP); reflexivity|apply andb_false_r].
Qed.

Lemma filter_comm : forall (A : Type) (P Q : A -> bool) l, filter P (filter Q l) = filter Q (filter P l).
Proof. intros A P Q l. rewrite !filter_filter_andb. apply filter_ext. intro x. apply andb_comm. Qed.

Lemma filter_length_le : forall (A : Type) (P : A -> bool) (l : list A), length (filter P l) <= length l.
Proof. intros A P l. induction l as [|x l IH]; simpl; [lia|]. destruct (P x); simpl; lia. Qed.

Lemma filter_length_eq : forall (A : Type) (P : A -> bool) (l : list A), length (filter P l) = length l -> filter P l = l.
Proof.
  intros A P l. induction l as [|x l IH]; simpl; intros H; [reflexivity|].
  destruct (P x); simpl in H; [f_equal; apply IH; lia|pose proof (filter_length_le A P l); lia].
Qed.

Lemma NoDup_snoc : forall (A : Type) (l : list A) x, NoDup l -> ~ In x l -> NoDup (l ++ [x]).
Proof. intros A l x Hnd Hx. eapply Permutation_NoDup; [apply Permutation_cons_append|]. constructor; assumption. Qed.

Lemma NoDup_app : forall (A : Type) (l l' : list A),
  NoDup (l ++ l') <-> NoDup l /\ NoDup l' /\ forall x, In x l -> ~ In x l'.
Proof.
  intros A l l'. induction l as [|a l IH]; simpl.
  - split; [intro H; repeat split; [constructor|exact H|tauto]|tauto].
  - rewrite !NoDup_cons_iff, IH, in_app_iff. split.
    + intros [Ha [Hl [Hl' D]]]. repeat split; try tauto. intros x [<-|Hx]; [tauto|exact (D x Hx)].
    + intros [[Ha Hl] [Hl' D]]. repeat split; try tauto.
      * intros [Hin|Hin]; [tauto|exact (D a (or_introl eq_refl) Hin)].
      * intros x Hx. apply D. right. exact Hx.
Qed.

Lemma NoDup_map_filter : forall (A B : Type) (f : A -> B) (P : A -> bool) (l : list A),
  NoDup (map f l) -> NoDup (map f (filter P l)).
Proof.
  intros A B f P l. induction l as [|x l IH]; simpl; [auto|]. rewrite NoDup_cons_iff. intros [Hx Hl].
  destruct (P x); simpl; [|auto]. constructor; [|auto].
  intro Hin. apply Hx. revert Hin. apply incl_map, incl_filter.
Qed.

Lemma NoDup_map_inj_in : forall (A B : Type) (f : A -> B) (l : list A) x y,
  NoDup (map f l) -> In x l -> In y l -> f x = f y -> x = y.
Proof.
  intros A B f l. induction l as [|a l IH]; simpl; intros x y Hnd Hx Hy Hf; [contradiction|].
  apply NoDup_cons_iff in Hnd. destruct Hnd as [Ha Hl].
  destruct Hx as [->|Hx], Hy as [->|Hy]; try reflexivity.
  - exfalso. apply Ha. rewrite Hf. apply in_map. exact Hy.
  - exfalso. apply Ha. rewrite <- Hf. apply in_map. exact Hx.
  - apply IH; assumption.
Qed.

Lemma Forall_repeat : forall (A : Type) (P : A -> Prop) x n, P x -> Forall P (repeat x n).
Proof. intros A P x n H. apply Forall_forall. intros y Hy. apply repeat_spec in Hy. subst. exact H. Qed.

Lemma Forall_firstn : forall (A : Type) (P : A -> Prop) (l : list A) k, Forall P l -> Forall P (firstn k l).
Proof.
  intros A P l. induction l as [|x l IH]; intros [|k] H; simpl; try constructor; inversion H; subst; auto.
Qed.

Lemma Forall2_in_l : forall (A B : Type) (R : A -> B -> Prop) l l' x,
  Forall2 R l l' -> In x l -> exists y, In y l' /\ R x y.
Proof.
  intros A B R l l' x H. induction H as [|a b l l' Hab _ IH]; simpl; [tauto|].
  intros [<-|Hx]; [exists b; auto|]. destruct (IH Hx) as [y [Hy Hr]]. exists y. auto.
Qed.

Lemma Forall2_impl_in : forall (A B : Type) (P Q : A -> B -> Prop) l l',
  (forall x y, In x l -> P x y -> Q x y) -> Forall2 P l l' -> Forall2 Q l l'.
Proof. intros A B P Q l l' Himp H. induction H; constructor; [|apply IHForall2; intros]; apply Himp; simpl; auto. Qed.

Lemma StronglySorted_snoc : forall (A : Type) (R : A -> A -> Prop) (l : list A) y,
  StronglySorted R l -> Forall (fun x => R x y) l -> StronglySorted R (l ++ [y]).
Proof.
  intros A R l y Hs Hall. induction Hs as [|x l Hs IH Hx]; simpl.
  - constructor; constructor.
  - inversion Hall; subst. constructor; [apply IH; assumption|].
    apply Forall_app. split; [exact Hx|constructor; [assumption|constructor]].
Qed.

Lemma StronglySorted_snoc_inv : forall (A : Type) (R : A -> A -> Prop) (l : list A) y,
  StronglySorted R (l ++ [y]) -> StronglySorted R l /\ Forall (fun x => R x y) l.
Proof.
  intros A R l y. induction l as [|a l IH]; simpl; intros H; [split; constructor|].
  inversion H; subst. destruct (IH H2) as [Hs Hall]. apply Forall_app in H3. destruct H3 as [Ha Hy].
  split; constructor; try assumption. inversion Hy; assumption.
Qed.

Lemma StronglySorted_filter : forall (A : Type) (R : A -> A -> Prop) (P : A -> bool) (l : list A),
  StronglySorted R l -> StronglySorted R (filter P l).
Proof.
  intros A R P l H. induction H as [|x l Hs IH Hall]; simpl; [constructor|].
  destruct (P x); [|exact IH]. constructor; [exact IH|].
  apply Forall_forall. intros y Hy. apply filter_In in Hy. rewrite Forall_forall in Hall. apply Hall. tauto.
Qed.

Lemma StronglySorted_map : forall (A B : Type) (f : A -> B) (R : B -> B -> Prop) (l : list A),
  StronglySorted R (map f l) <-> StronglySorted (fun a b => R (f a) (f b)) l.
Proof.
  intros A B f R l. induction l as [|x l IH]; simpl; split; intros H; try constructor; inversion H; subst.
  - apply IH. assumption.
  - apply Forall_map. assumption.
  - apply IH. assumption.
  - apply Forall_map. assumption.
Qed.

Lemma nth_error_middle : forall (A : Type) (pre post : list A) (x : A), nth_error (pre ++ x :: post) (length pre) = Some x.
Proof. induction pre as [|a pre IH]; intros post x; [reflexivity|apply IH]. Qed.

Lemma last_cons_irrel : forall (A : Type) (x : A) l d d', last (x :: l) d = last (x :: l) d'.
Proof. intros A x l d d'. revert x. induction l as [|y l IH]; intros x; simpl; auto. destruct l; auto. apply (IH y). Qed.

Lemma last_in : forall (A : Type) (l : list A) d, In (last l d) (d :: l).
Proof.
  intros A l d. induction l as [|x l IH]; simpl; auto.
  destruct l as [|y l']; [right; left; reflexivity|].
  destruct IH as [E|IH]; [left; exact E | right; right; exact IH].
Qed.

Lemma option_eq_Some_dec : forall (A : Type), (forall x y : A, {x = y} + {x <> y}) ->
  forall (a : option A) (c : A), {a = Some c} + {a <> Some c}.
Proof. intros A dec [c'|] c; [destruct (dec c' c); [left|right]; congruence|right; discriminate]. Qed.
