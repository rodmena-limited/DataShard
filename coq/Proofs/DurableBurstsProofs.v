(* Proofs/DurableBurstsProofs.v -- the discipline over burst-written files: it accepts every burst refinement
   (Model/DurableChunks.v burst_of) of a trace it accepts, ending in a similar ghost state (gsim: same final-name
   states, same referenced set, same open temps with the same content, the refined side at least as synced).  With
   the trace-level theorems of DurablePrograms.v this lifts the ops-level theorems of C16 to every way of writing the
   files in bursts (Props/C16.v).  Last, what C16_unsynced_tail_rejected rests on: a temp file with an unflushed write
   stays so under every accepted call other than its own Fsync or Unlink (unsynced_stays). *)
From Coq Require Import List.
Require Import DS.Model.Durable DS.Model.DurableChunks DS.Proofs.DurableProofs DS.Proofs.DurablePrograms.
Import ListNotations.
Open Scope N_scope.

Definition tsim (o' o : option (content * bool)) : Prop :=
  match o with
  | None => o' = None
  | Some (c, b) => exists b', o' = Some (c, b') /\ (b = true -> b' = true)
  end.

Definition gsim (g' g : ghost) : Prop :=
  (forall x, st g' x = st g x) /\ (forall x, refd g' x = refd g x) /\ (forall t, tsim (tmps g' t) (tmps g t)).

Lemma tsim_refl : forall o, tsim o o.
Proof. intros [[c b]|]; simpl; eauto. Qed.

Lemma gsim_refl : forall g, gsim g g.
Proof. intro g. split; [|split]; auto. intro t. apply tsim_refl. Qed.

Lemma gsim_upd : forall g' g t v, gsim g' g ->
  gsim (mkGhost (upd_t (tmps g') t v) (st g') (refd g')) (mkGhost (upd_t (tmps g) t v) (st g) (refd g)).
Proof.
  intros g' g t v [Hs [Hr Ht]]. split; [exact Hs|]. split; [exact Hr|]. intro t0. simpl. unfold upd_t.
  destruct (path_eqb t0 t); [apply tsim_refl|apply Ht].
Qed.

(* a call on a temp file depends on whether the temp is open, not on whether it is flushed *)
Lemma tmp_eff_sim : forall g' g c t v, gsim g' g -> tmp_eff g c t v -> tmp_eff g' c t v.
Proof.
  intros g' g c t v [_ [_ Ht]] [d n H|d n c0 b w H|d n c0 b H|d n c0 b H];
    specialize (Ht (T d n)); rewrite H in Ht; simpl in Ht; [now constructor| | |];
    (* te_create is closed (the refined temp is closed too); then the three rules on an open temp *)
    destruct Ht as [b' [E _]]; econstructor; eauto.
Qed.

Lemma forallb_ref_ok_sim : forall g' g l, (forall x, st g' x = st g x) -> forallb (ref_ok g') l = forallb (ref_ok g) l.
Proof. intros g' g l H. induction l as [|r l IH]; simpl; [reflexivity|]. rewrite IH. unfold ref_ok. now rewrite H. Qed.

Lemma gsim_check : forall g' g c g1, gsim g' g -> check g c = Some g1 ->
  exists g1', check g' c = Some g1' /\ gsim g1' g1.
Proof.
  intros g' g c g1 Hg H. pose proof Hg as [Hs [Hr Ht]].
  (* per rule of `checked`: the same rule accepts the call on the refined side, and the two results are similar *)
  destruct (check_inv _ _ _ H) as [c t v He|d n d' n' c0 Htm Hro Hq|dd|d n c0 b Hp Hrf Hst|dd].
  - (* ck_tmp *) eexists. split.
    + apply check_complete, ck_tmp. eapply tmp_eff_sim; eauto.
    + now apply gsim_upd.
  - (* ck_rename: the refined side's temp is flushed as well *)
    pose proof (Ht (T d n)) as Hx. rewrite Htm in Hx. destruct Hx as [b' [E Hb]]. rewrite (Hb eq_refl) in E.
    eexists. split.
    + apply check_complete, ck_rename; [exact E|now rewrite (forallb_ref_ok_sim g' g _ Hs)|now rewrite Hs].
    + split; [|split]; simpl.
      * intro x. unfold upd_s. destruct (path_eqb x (P d' n')); auto.
      * intro x. now rewrite Hr.
      * intro t0. unfold upd_t. destruct (path_eqb t0 (T d n)); [reflexivity|apply Ht].
  - (* ck_fsyncdir *) eexists. split.
    + apply check_complete, ck_fsyncdir.
    + split; [|split]; simpl; auto. intro x. now rewrite Hs.
  - (* ck_unlink *) eexists. split.
    + apply check_complete, (ck_unlink g' d n c0 b Hp); [now rewrite Hr|now rewrite Hs].
    + split; [|split]; simpl; auto. intro x. unfold upd_s. destruct (path_eqb x (P d n)); auto.
  - (* ck_mkdir *) exists g'. split; [apply check_complete, ck_mkdir|exact Hg].
Qed.

Lemma chunk_calls_shape : forall t ch, chunk_calls t ch =
  Write t (ch_bytes ch) :: (if ch_sync ch then [Fsync t] else []).
Proof. reflexivity. Qed.

Lemma bursts_app : forall t a b, bursts t (a ++ b) = bursts t a ++ bursts t b.
Proof. intros. unfold bursts. apply flat_map_app. Qed.

Lemma bursts_sim : forall d n chs g w b0, tmps g (T d n) = Some (w, b0) ->
  exists g2 b2, checks g (bursts (T d n) chs) = Some g2 /\ tmps g2 (T d n) = Some (w ++ chunks_content chs, b2)
    /\ (forall t, t <> T d n -> tmps g2 t = tmps g t) /\ st g2 = st g /\ refd g2 = refd g.
Proof.
  intros d n chs. induction chs as [|ch chs IH]; intros g w b0 H.
  - exists g, b0. cbn. rewrite app_nil_r. auto.
  - (* the first burst: its Write, and its Fsync if it has one *)
    assert (HA : exists gA bA, checks g (chunk_calls (T d n) ch) = Some gA /\ tmps gA (T d n) = Some (w ++ ch_bytes ch, bA)
                   /\ (forall t, t <> T d n -> tmps gA t = tmps g t) /\ st gA = st g /\ refd gA = refd g).
    { rewrite chunk_calls_shape. cbn [checks check]. rewrite H.
      destruct (ch_sync ch); cbn [checks check tmps]; rewrite ?upd_t_same; (eexists; eexists; split; [reflexivity|]);
        cbn [tmps st refd]; rewrite ?upd_t_same; repeat split; intros t Ht; now rewrite !upd_t_other. }
    destruct HA as [gA [bA [CA [DA [FA [SA RA]]]]]]. destruct (IH gA _ _ DA) as [g2 [b2 [C [D [F [Ss R]]]]]].
    exists g2, b2. unfold bursts, chunks_content. cbn [flat_map]. fold (bursts (T d n) chs) (chunks_content chs).
    rewrite checks_app, CA, C, D, Ss, R, app_assoc. repeat split; auto. intros t Ht. rewrite F, FA; auto.
Qed.

Lemma gsim_bursts : forall g' g t chs g1, gsim g' g -> check g (Write t (chunks_content chs)) = Some g1 ->
  exists g1', checks g' (bursts t chs) = Some g1' /\ gsim g1' g1.
Proof.
  intros g' g t chs g1 [Hs [Hr Ht]] H. destruct t as [d n|d n]; simpl in H; [discriminate|].
  pose proof (Ht (T d n)) as Hx. destruct (tmps g (T d n)) as [[c0 fl]|] eqn:E; [|discriminate].
  simpl in Hx. destruct Hx as [b' [Hx _]]. inversion H; subst g1.
  destruct (bursts_sim d n chs g' c0 b' Hx) as [g2 [b2 [C [D [F [Ss R]]]]]].
  exists g2. split; [exact C|]. split; [|split]; simpl.
  - intro x. rewrite Ss. apply Hs.
  - intro x. rewrite R. apply Hr.
  - intro t0. unfold upd_t. destruct (path_eqb_spec t0 (T d n)) as [->|Hne].
    + rewrite D. simpl. exists b2. split; [reflexivity|discriminate].
    + rewrite F by exact Hne. apply Ht.
Qed.

Theorem burst_refines : forall tr' tr, burst_of tr' tr -> forall g' g g1, gsim g' g -> checks g tr = Some g1 ->
  exists g1', checks g' tr' = Some g1' /\ gsim g1' g1.
Proof.
  intros tr' tr Hb. induction Hb as [|c tr' tr Hb IH|t chs tr' tr Hb IH]; intros g' g g1 Hg H.
  - simpl in H. inversion H; subst. exists g'. split; [reflexivity|exact Hg].
  - simpl in H. destruct (check g c) as [g2|] eqn:E; [|discriminate].
    destruct (gsim_check _ _ _ _ Hg E) as [g2' [C2 S2]]. simpl. rewrite C2. eapply IH; eauto.
  - cbn [checks] in H. destruct (check g (Write t (chunks_content chs))) as [g2|] eqn:E; [|discriminate].
    destruct (gsim_bursts _ _ _ _ _ Hg E) as [g2' [C2 S2]]. rewrite checks_app, C2. eapply IH; eauto.
Qed.

Theorem burst_disciplined : forall tr' tr, burst_of tr' tr -> disciplined tr = true -> disciplined tr' = true.
Proof.
  intros tr' tr Hb H. unfold disciplined in *. destruct (checks g0 tr) as [g1|] eqn:E; [|discriminate].
  destruct (burst_refines _ _ Hb g0 g0 g1 (gsim_refl g0) E) as [g1' [C _]]. now rewrite C.
Qed.

Lemma burst_of_refl : forall tr, burst_of tr tr.
Proof. induction tr; constructor; auto. Qed.

Lemma chunked_burst_of : forall p chs, burst_of (publish_data_chunked p chs) (publish_data p (chunks_content chs)).
Proof. intros p chs. apply bo_keep, bo_split, burst_of_refl. Qed.

Lemma burst_of_app : forall a' a b' b, burst_of a' a -> burst_of b' b -> burst_of (a' ++ b') (a ++ b).
Proof.
  intros a' a b' b Ha Hb. induction Ha as [|c tr' tr Ha IH|t chs tr' tr Ha IH]; simpl; auto.
  - now constructor.
  - rewrite <- app_assoc. now constructor.
Qed.

Lemma Ledger_sim : forall used F M g g', Ledger used F M g -> gsim g' g -> Ledger used F M g'.
Proof.
  intros used F M g g' H [Hs [Hr Ht]]. destruct H as [Gtmps Gfresh Gfiles Gmarks Grefd Gptr].
  (* the ledger reads st and refd, which agree, and wants every temp closed, which similarity preserves *)
  constructor.
  - (* g_tmps *) intro t. specialize (Ht t). rewrite Gtmps in Ht. exact Ht.
  - (* g_fresh *) intros q H1 H2. rewrite Hs. auto.
  - (* g_files *) intros f Hf. rewrite Hs. auto.
  - (* g_marks *) intros m Hm. rewrite Hs, Hr. auto.
  - (* g_refd *) intros r H. rewrite Hr in H. auto.
  - (* g_ptr *) rewrite Hs. exact Gptr.
Qed.

Lemma burst_no_ptr : forall tr' tr, burst_of tr' tr -> Forall no_ptr_rename tr -> Forall no_ptr_rename tr'.
Proof.
  intros tr' tr Hb. induction Hb as [|c tr' tr Hb IH|t chs tr' tr Hb IH]; intro H.
  - constructor.
  - inversion H; subst. constructor; auto.
  - inversion H; subst. apply Forall_app. split; [|auto].
    (* a burst is a Write, perhaps followed by an Fsync *)
    apply Forall_flat_map, Forall_forall. intros ch _. rewrite chunk_calls_shape.
    destruct (ch_sync ch); repeat constructor; intros t0 E; discriminate.
Qed.

Lemma unsynced_step : forall g a g2 d n c0, tmps g (T d n) = Some (c0, false) ->
  a <> Fsync (T d n) -> a <> Unlink (T d n) -> check g a = Some g2 -> exists c1, tmps g2 (T d n) = Some (c1, false).
Proof.
  intros g a g2 d n c0 H N1 N2 E.
  (* ck_fsyncdir, ck_unlink and ck_mkdir leave tmps alone *)
  destruct (check_inv _ _ _ E) as [c t v He|d1 n1 d2 n2 c1 Htm _ _|dd|d1 n1 c1 b _ _ _|dd]; simpl; eauto.
  - (* ck_tmp *) destruct (path_eqb_spec (T d n) t) as [<-|Hne]; [|rewrite upd_t_other; eauto].
    (* te_create: the temp is open (H); te_fsync / te_unlink: the excluded calls (N1, N2); te_write leaves it unflushed *)
    rewrite upd_t_same. inversion He; subst; try congruence; eauto.
  - (* ck_rename: a rename needs its temp flushed, so it is another temp's *)
    rewrite upd_t_other; eauto. intro X. rewrite X in H. congruence.
Qed.

Lemma unsynced_stays : forall mid g d n c0, tmps g (T d n) = Some (c0, false) ->
  Forall (fun c => c <> Fsync (T d n) /\ c <> Unlink (T d n)) mid ->
  forall g', checks g mid = Some g' -> exists c1, tmps g' (T d n) = Some (c1, false).
Proof.
  induction mid as [|a mid IH]; intros g d n c0 H HF g' Hc; simpl in Hc.
  - inversion Hc; subst. eauto.
  - inversion HF as [|x l [Hx1 Hx2] HF']; subst. destruct (check g a) as [g2|] eqn:E; [|discriminate].
    destruct (unsynced_step _ _ _ _ _ _ H Hx1 Hx2 E) as [c1 H1]. eapply IH; eauto.
Qed.
