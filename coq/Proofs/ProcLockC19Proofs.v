(* Proofs/ProcLockC19Proofs.v -- what property C19 says about the LOCAL lock, over the process-topology layer
   Model/ProcLock.v (FileLock handles in OS processes, open file descriptions, fork inheritance, deaths), from the
   invariant `inv` of Proofs/ProcLockProofs.v: death of the holder, success only from a free lock, refusal while held,
   and the persistence of a holding through every event list without its unlock or the death of its process.

   All are about an arbitrary state that satisfies `inv`; Proofs/ProcForkProofs.v has their counterparts for the machine with
   whole-process forks (Model/ProcFork.v) and shows that its reachable states satisfy `inv`; Props/C19.v puts the two
   together over the REGENERATED discipline gen_lock_disc (Gen/GenFileLock.v). *)
From Coq Require Import List Arith.
Require Import DS.Model.ProcLockBase DS.Model.ProcLock DS.Proofs.ProcLockProofs.
Import ListNotations.

Definition not_fork (e : levent) : Prop := match e with LFork _ _ => False | _ => True end.

Lemma not_fork_quiescent s e : not_fork e -> fork_quiescent s e.
Proof. destruct e; simpl; intro H; [exact I | exact I | contradiction]. Qed.

(* the holder's own unlock and the death of its process are the only events that end a holding *)
Definition ends_holding (proc : hid -> pid) (k : hid) (e : levent) : Prop := e = LStep k KUnlock \/ e = LKill (proc k).

Lemma forks_quiescent_app dc proc evs1 : forall s evs2,
  forks_quiescent dc proc s evs1 -> forks_quiescent dc proc (lrun dc proc s evs1) evs2 ->
  forks_quiescent dc proc s (evs1 ++ evs2).
Proof.
  induction evs1 as [|e evs1 IH]; intros s evs2 Q1 Q2; simpl in *; [exact Q2|].
  destruct Q1 as [Qe Q1]. split; [exact Qe|]. apply IH; assumption.
Qed.

Lemma lrun_app dc proc evs1 : forall s evs2, lrun dc proc s (evs1 ++ evs2) = lrun dc proc (lrun dc proc s evs1) evs2.
Proof. intros s evs2. unfold lrun. apply fold_left_app. Qed.

Section Topology.
Variable proc : hid -> pid.

Notation step := (lstep ByDescription proc).
Notation run := (lrun ByDescription proc).

Lemma strict_inv evs : forall s i s', inv s -> Forall not_fork evs ->
  lrun_strict ByDescription proc s evs i = inl s' -> inv s'.
Proof.
  induction evs as [|e evs IH]; intros s i s' Iv F R; simpl in R.
  - inversion R; subst s'. exact Iv.
  - inversion F as [|e0 l0 Fe Fl]; subst.
    destruct (step s e) as [s1|] eqn:E; [|discriminate].
    apply (IH s1 (S i) s'); [|exact Fl|exact R].
    apply (inv_step proc s e s1 Iv); [apply not_fork_quiescent; exact Fe | exact E].
Qed.

Lemma kill_frees s h :
  inv s -> lholds s h ->
  exists s', step s (LKill (proc h)) = Some s' /\ inv s' /\ lock_view s' = None /\ (forall k, ~ lholds s' k).
Proof.
  intros Iv Hh.
  destruct (step s (LKill (proc h))) as [s'|] eqn:E; [|simpl in E; discriminate].
  assert (Iv' : inv s') by (apply (inv_step proc s (LKill (proc h)) s' Iv); [exact I | exact E]).
  pose proof (step_view_effect proc s (LKill (proc h)) s' Iv I E) as V. simpl in V.
  assert (Vh : lock_view s = Some h) by (apply (inv_flag_iff_view s h Iv); exact Hh).
  rewrite Vh in V. unfold in_proc in V. rewrite Nat.eqb_refl in V.
  exists s'. split; [reflexivity|]. split; [exact Iv'|]. split; [exact V|].
  apply (view_none s' Iv'). exact V.
Qed.

Lemma free_lock_granted_alone s w :
  inv s -> l_h s w = HIdle -> lock_view s = None ->
  exists s', lrun_strict ByDescription proc s (map (LStep w) attempt_granted_events) 0 = inl s'
    /\ lholds s' w /\ lock_view s' = Some w /\ (forall k, lholds s' k -> k = w).
Proof.
  intros Iv Hw V. destruct (free_lock_is_granted proc s w Iv Hw V) as [s' [R [Hh V']]].
  exists s'. split; [exact R|]. split; [exact Hh|]. split; [exact V'|].
  intros k Hk. apply (inv_exclusive s' k w); [|exact Hk|exact Hh].
  apply (strict_inv (map (LStep w) attempt_granted_events) s 0 s' Iv); [|exact R]. simpl. repeat constructor.
Qed.

Lemma granted_only_when_free s h s' :
  inv s -> step s (LStep h (KTry true)) = Some s' ->
  (forall k, ~ lholds s k) /\ lholds s' h /\ (forall k, lholds s' k -> k = h).
Proof.
  intros Iv E.
  assert (Iv' : inv s') by (apply (inv_step proc s (LStep h (KTry true)) s' Iv); [exact I | exact E]).
  pose proof (step_view_effect proc s (LStep h (KTry true)) s' Iv I E) as V. simpl in V. destruct V as [V V'].
  assert (Hh : lholds s' h) by (apply (inv_flag_iff_view s' h Iv'); exact V').
  split; [apply (view_none s Iv); exact V|]. split; [exact Hh|].
  intros k Hk. apply (inv_exclusive s' k h Iv' Hk Hh).
Qed.

Lemma refused_while_held s h k :
  inv s -> lholds s k -> k <> h ->
  step s (LStep h (KTry true)) = None
  /\ (forall d, l_h s h = HOpened d ->
        exists s', step s (LStep h (KTry false)) = Some s' /\ lholds s' k /\ l_h s' h = HRefused d).
Proof.
  intros Iv Hk N. split.
  - destruct (step s (LStep h (KTry true))) as [s'|] eqn:E; [|reflexivity]. exfalso.
    destruct (granted_only_when_free s h s' Iv E) as [Nh _]. exact (Nh k Hk).
  - intros d Ho. destruct Hk as [dk Hdk].
    pose proof (i_held s Iv k dk Hdk) as Ow.
    assert (Nd : dk <> d).
    { intro Eq. subst dk. apply N. apply (fd_unique s k h d Iv); [rewrite Hdk | rewrite Ho]; reflexivity. }
    simpl. rewrite Ho. rewrite Ow. simpl.
    apply Nat.eqb_neq in Nd. rewrite Nd. simpl. eexists. split; [reflexivity|]. split.
    + exists dk. simpl. rewrite lupd_other by (exact N). exact Hdk.
    + simpl. apply lupd_same.
Qed.

Lemma holder_persists evs : forall s k,
  inv s -> lholds s k -> forks_quiescent ByDescription proc s evs ->
  Forall (fun e => ~ ends_holding proc k e) evs ->
  inv (run s evs) /\ lholds (run s evs) k.
Proof.
  induction evs as [|e evs IH]; intros s k Iv Hk Q F; simpl; [split; assumption|].
  destruct Q as [Qe Q]. inversion F as [|e0 l0 Fe Fl]; subst.
  apply IH; [apply inv_step_skip; assumption | | exact Q | exact Fl].
  unfold lstep_skip. destruct (step s e) as [s1|] eqn:E; [|exact Hk].
  apply (step_keeps_holder proc s e s1 k E Hk).
  - intro Eq. apply Fe. left. exact Eq.
  - intro Eq. apply Fe. right. exact Eq.
Qed.

Lemma no_success_while_held evs s k h :
  inv s -> lholds s k -> forks_quiescent ByDescription proc s evs ->
  Forall (fun e => ~ ends_holding proc k e) evs -> h <> k ->
  step (run s evs) (LStep h (KTry true)) = None /\ ~ lholds (run s evs) h.
Proof.
  intros Iv Hk Q F N.
  destruct (holder_persists evs s k Iv Hk Q F) as [Iv' Hk'].
  split.
  - apply (refused_while_held (run s evs) h k Iv' Hk'). intro Eq. apply N. symmetry. exact Eq.
  - intro Hh. apply N. apply (inv_exclusive (run s evs) h k Iv' Hh Hk').
Qed.

End Topology.
