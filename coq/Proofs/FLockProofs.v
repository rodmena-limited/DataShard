(* Proofs/FLockProofs.v -- invariants of the FileLock/flock model (C19, local lock).

   The invariant `inv` has a kernel part (`kinv`: descriptors are on the inode the path names, a flock holder is an open
   descriptor) and, per client, what the kernel records about the descriptors the client's program is using (`cinv`).
   One step of client c is a change of c's record and one kernel operation on ONE descriptor of c; the operation leaves
   every other descriptor alone (`kframe`), so every claim about another descriptor survives (`desc_frame`).
   The second half: what a step of client a leaves alone outside the kernel tables (`framed`: clock, directory entry, the
   other records), from which the clock-reading invariant `tinv` (C19_flock_timeout) and ok_only_when_free go client by
   client. *)
From Coq Require Import ZArith Lia List.
Require Import DS.Model.FLock DS.Proofs.ListFacts.
Import ListNotations.
Open Scope Z_scope.

Lemma upd_same {A} (f : N -> A) k v : upd f k v k = v.
Proof. unfold upd. rewrite N.eqb_refl. reflexivity. Qed.

Lemma upd_other {A} (f : N -> A) k v x : x <> k -> upd f k v x = f x.
Proof. unfold upd. intro H. destruct (N.eqb_spec x k); [contradiction|reflexivity]. Qed.

Definition pc_fd (p : fpc) : option ofd :=
  match p with PFlock fd | PCloseFail fd => Some fd | _ => None end.

Definition releasing (p : fpc) : bool :=
  match p with PRelUnlock | PRelClose => true | _ => false end.

(* the kernel assumption: an exclusive flock is granted on an inode only if nobody else holds it *)
Definition flock_excl (grant : option ofd -> ofd -> bool) : Prop :=
  forall h o, grant h o = true -> h = None \/ h = Some o.
(* ... and a free inode is granted (used only for the death/liveness theorem) *)
Definition flock_free (grant : option ofd -> ofd -> bool) : Prop :=
  forall o, grant None o = true.

Lemma kernel_grant_excl : flock_excl kernel_grant.
Proof.
  intros [o'|] o H; simpl in H; [|auto]. right. apply N.eqb_eq in H. subst. reflexivity.
Qed.

Lemma kernel_grant_free : flock_free kernel_grant.
Proof. intro o. reflexivity. Qed.

Record kinv (s : fstate) : Prop := {
  (* open descriptions are numbered below next_fd (the next open() makes a new one) and all sit on the inode the path
     names: C19_flock_same_inode *)
  I_ofd : forall o c i, ofdt s o = Some (c, i) -> (o < next_fd s)%N /\ names s = Some i;
  (* the flock holder of an inode is an open description of that inode: a closed or new description holds nothing *)
  I_holder : forall i o, holder s i = Some o -> exists c, ofdt s o = Some (c, i)
}.

(* descriptor fd is open, by client c; lk = Some true: it carries the flock; Some false: it does not *)
Definition desc (s : fstate) (c : cid) (fd : ofd) (lk : option bool) : Prop :=
  exists i, ofdt s fd = Some (c, i)
            /\ match lk with
               | Some true => holder s i = Some fd
               | Some false => forall j, holder s j <> Some fd
               | None => True
               end.

(* release() has unlocked before it closes *)
Definition lock_claim (p : fpc) : option bool := match p with PRelClose => None | _ => Some true end.

(* what the kernel records about the descriptors client c's program is using *)
Record cinv (s : fstate) (c : cid) (x : fclient) : Prop := {
  (* a live client whose flag is set stores a descriptor of its own, which carries the flock until release() has
     unlocked it: C19_flock_mutex, holding_owns *)
  C_lock : alive x = true -> locked x = true -> exists fd, lock_fd x = Some fd /\ desc s c fd (lock_claim (pc x));
  (* the descriptor of an attempt in progress is the client's own and does not carry the flock: closing it after a
     refusal frees nobody's lock, and a grant on it finds the inode free (flock_excl) *)
  C_pcfd : forall fd, alive x = true -> pc_fd (pc x) = Some fd -> desc s c fd (Some false);
  (* release() runs with the flag set, so C_lock names the descriptor it unlocks and closes *)
  C_rel : releasing (pc x) = true -> locked x = true
}.

Record inv (s : fstate) : Prop := { I_k : kinv s; I_cl : forall c, cinv s c (cl s c) }.

Lemma inv_init : inv finit.
Proof. repeat constructor; simpl; intros; discriminate. Qed.

(* a kernel operation on descriptor fd: the other descriptors keep their entries and their locks (and no client moves) *)
Definition kframe (fd : ofd) (s s' : fstate) : Prop :=
  (forall o, o <> fd -> ofdt s' o = ofdt s o)
  /\ (forall i o, o <> fd -> (holder s' i = Some o <-> holder s i = Some o))
  /\ cl s' = cl s.

Lemma desc_frame fd s s' c o lk : kframe fd s s' -> o <> fd -> desc s c o lk -> desc s' c o lk.
Proof.
  intros (Fo & Fh & _) Ne [i [O H]]. exists i. rewrite (Fo o Ne). split; [exact O|].
  destruct lk as [[|]|]; [exact (proj2 (Fh i o Ne) H)|intros j Hj; exact (H j (proj1 (Fh j o Ne) Hj))|exact I].
Qed.

Lemma inv_client s c x o r :
  kinv s -> (forall c0, c0 <> c -> cinv s c0 (cl s c0)) -> cinv s c x -> inv (with_client s c x o r).
Proof.
  intros [K1 K2] Cl [A B C]. constructor; [constructor; assumption|].
  intro c0. simpl. unfold upd. destruct (N.eqb_spec c0 c) as [->|Ne]; [constructor; [exact A|exact B|exact C]|].
  destruct (Cl c0 Ne) as [A0 B0 C0]. constructor; [exact A0|exact B0|exact C0].
Qed.

(* one step of client c with a kernel operation on descriptor fd, c's own or new: the operation leaves the other
   clients' claims alone, c's record becomes x *)
Lemma inv_kop s k fd c x o r :
  inv s -> kinv k -> kframe fd s k -> (forall c0 i, ofdt s fd = Some (c0, i) -> c0 = c) -> cinv k c x ->
  inv (with_client k c x o r).
Proof.
  intros Iv K F Own Cx. apply inv_client; [exact K| |exact Cx].
  intros c0 Ne. replace (cl k c0) with (cl s c0) by (destruct F as (_ & _ & ->); reflexivity).
  (* a descriptor of c0 is not fd, so what is claimed of it survives *)
  assert (D' : forall fd0 lk, desc s c0 fd0 lk -> desc k c0 fd0 lk).
  { intros fd0 lk D. apply (desc_frame fd s); [exact F| |exact D]. destruct D as [i [O _]]. intros ->. apply Ne. exact (Own c0 i O). }
  destruct (I_cl s Iv c0) as [A B C]. constructor; [|intros fd0 Ax P; exact (D' _ _ (B fd0 Ax P))|exact C].
  intros Ax L. destruct (A Ax L) as [fd0 [E D]]. exists fd0. split; [exact E|exact (D' _ _ D)].
Qed.

(* a step of client c that moves its program counter only, with the kernel as it is: no claim is added *)
Lemma inv_move s c x o r :
  inv s ->
  alive x = alive (cl s c) -> locked x = locked (cl s c) -> lock_fd x = lock_fd (cl s c) ->
  (pc (cl s c) = PRelClose -> pc x = PRelClose) ->
  (forall fd, pc_fd (pc x) = Some fd -> pc_fd (pc (cl s c)) = Some fd) ->
  (releasing (pc x) = true -> locked x = true) ->
  inv (with_client s c x o r).
Proof.
  intros Iv Ha Hl Hf Hp Hq Hr. destruct (I_cl s Iv c) as [A B C]. apply inv_client; [apply Iv|intros; apply Iv|].
  constructor; [|intros fd Ax Q; rewrite Ha in Ax; exact (B fd Ax (Hq fd Q))|exact Hr].
  rewrite Ha, Hl, Hf. intros Ax L. destruct (A Ax L) as [fd [E D]]. exists fd. split; [exact E|].
  assert (Hp' : pc x = PRelClose \/ lock_claim (pc x) = Some true) by (destruct (pc x); auto).
  destruct Hp' as [-> | E'].
  - (* at PRelClose only "open" is claimed *) destruct D as [i [O _]]. exists i. simpl. auto.
  - (* elsewhere the old program counter is not PRelClose either (Hp): the claim is the same *)
    rewrite E'. destruct (pc (cl s c)); [exact D..|]. rewrite (Hp eq_refl) in E'. discriminate E'.
Qed.

(* the invariant reads the kernel's tables and the clients' records only (not the clock, not the trace) *)
Lemma inv_same_tables s s' :
  names s' = names s -> next_fd s' = next_fd s -> holder s' = holder s -> ofdt s' = ofdt s -> cl s' = cl s ->
  inv s -> inv s'.
Proof.
  intros En Ef Eh Eo Ec [[K1 K2] Cl]. constructor; [constructor|intro c; destruct (Cl c) as [A B C]; constructor].
  - (* I_ofd *) rewrite Eo, Ef, En. exact K1.
  - (* I_holder *) rewrite Eh, Eo. exact K2.
  - (* C_lock *) unfold desc. rewrite Ec, Eo, Eh. exact A.
  - (* C_pcfd *) unfold desc. rewrite Ec, Eo, Eh. exact B.
  - (* C_rel *) rewrite Ec. exact C.
Qed.

Lemma inv_logged s o : inv s -> inv (logged s o).
Proof. apply inv_same_tables; reflexivity. Qed.

Lemma inv_with_now s t : inv s -> inv (with_now s t).
Proof. apply inv_same_tables; reflexivity. Qed.

Section Step.
Variable grant : option ofd -> ofd -> bool.
Variable poll : Z.
Hypothesis Hexcl : flock_excl grant.

Lemma drop_holder_some s fd i o : drop_holder s fd i = Some o <-> holder s i = Some o /\ o <> fd.
Proof.
  unfold drop_holder. destruct (holder s i) as [o'|]; [|split; [discriminate|intros [H _]; discriminate]].
  destruct (N.eqb_spec o' fd); split; try discriminate.
  - intros [H Ne]. congruence.
  - intro H. inversion H; subst. auto.
  - intros [H _]. exact H.
Qed.

Lemma unlock_frame s fd : kframe fd s (k_unlock s fd).
Proof. split; [reflexivity|split; [|reflexivity]]. intros i o Ne. simpl. rewrite drop_holder_some. tauto. Qed.

Lemma close_frame s fd : kframe fd s (k_close s fd).
Proof.
  split; [intros o Ne; apply upd_other; exact Ne|split; [|reflexivity]].
  intros i o Ne. simpl. rewrite drop_holder_some. tauto.
Qed.

Lemma kinv_unlock s fd : kinv s -> kinv (k_unlock s fd).
Proof.
  intros [K1 K2]. constructor; simpl; [exact K1|]. intros i o H. apply drop_holder_some in H. apply K2, H.
Qed.

Lemma kinv_close s fd : kinv s -> kinv (k_close s fd).
Proof.
  intros [K1 K2]. constructor; simpl.
  - intros o c i H. unfold upd in H. destruct (N.eqb o fd); [discriminate|]. exact (K1 o c i H).
  - intros i o H. apply drop_holder_some in H. destruct H as [H Ne]. rewrite upd_other by exact Ne. exact (K2 i o H).
Qed.

(* open: a new descriptor next_fd on the inode the path names (made if there is none) *)
Lemma open_spec s c : kinv s ->
  exists i s', k_open s c = (s', next_fd s, i) /\ kinv s' /\ kframe (next_fd s) s s'
               /\ ofdt s (next_fd s) = None /\ desc s' c (next_fd s) (Some false).
Proof.
  intros [K1 K2].
  assert (Hnone : ofdt s (next_fd s) = None).
  { destruct (ofdt s (next_fd s)) as [[c' i']|] eqn:E; [|reflexivity]. apply K1 in E. lia. }
  assert (Hfresh : forall j, holder s j <> Some (next_fd s)).
  { intros j Hj. destruct (K2 _ _ Hj) as [c' Hc']. congruence. }
  assert (E : exists i ni, (forall j, names s = Some j -> j = i)
                           /\ k_open s c = (with_kernel s (Some i) ni (N.succ (next_fd s)) (holder s)
                                                        (upd (ofdt s) (next_fd s) (Some (c, i))), next_fd s, i)).
  { unfold k_open. destruct (names s) as [i|]; do 2 eexists; (split; [|reflexivity]); congruence. }
  destruct E as (i & ni & Hi & E). exists i. eexists. split; [exact E|].
  split; [constructor; simpl|split; [split; [|split; [tauto|reflexivity]]|split; [exact Hnone|]]].
  - intros o c0 i0 H. unfold upd in H. destruct (N.eqb_spec o (next_fd s)).
    + inversion H; subst. split; [lia|reflexivity].
    + apply K1 in H. destruct H as [Hl Hn]. rewrite (Hi i0 Hn). split; [lia|reflexivity].
  - intros i0 o H. destruct (K2 _ _ H) as [c' Hc']. exists c'. rewrite upd_other; [exact Hc'|congruence].
  - intros o Ne. apply upd_other. exact Ne.
  - exists i. split; [apply upd_same|exact Hfresh].
Qed.

Lemma flock_spec s c fd i : kinv s -> ofdt s fd = Some (c, i) -> holder s i = None ->
  let s' := with_kernel s (names s) (next_ino s) (next_fd s) (upd (holder s) i (Some fd)) (ofdt s) in
  kinv s' /\ kframe fd s s' /\ desc s' c fd (Some true).
Proof.
  intros [K1 K2] O Hf s'. split; [constructor; simpl; [exact K1|]|split; [split; [reflexivity|split; [|reflexivity]]|]].
  - intros i0 o H. unfold upd in H. destruct (N.eqb_spec i0 i); [inversion H; subst; eauto|apply K2; exact H].
  - intros i0 o N. simpl. unfold upd. destruct (N.eqb_spec i0 i); [subst; rewrite Hf; split; congruence|tauto].
  - exists i. split; [exact O|apply upd_same].
Qed.

Lemma desc_die s cs c fd lk : memN c cs = false -> desc s c fd lk -> desc (k_die s cs) c fd lk.
Proof.
  intros M [i [O H]]. exists i. simpl. rewrite O, M. split; [reflexivity|].
  destruct lk as [[|]|]; [rewrite H, O, M; reflexivity| |exact I].
  intros j Hj. apply (H j). destruct (holder s j) as [o'|]; [|discriminate].
  destruct (ofdt s o') as [[c' i']|]; [destruct (memN c' cs); [discriminate|]|]; exact Hj.
Qed.

Lemma kinv_die s cs : kinv s -> kinv (k_die s cs).
Proof.
  intros [K1 K2]. constructor; simpl.
  - intros o c0 i0 H. destruct (ofdt s o) as [[c' i']|] eqn:E; [|discriminate].
    destruct (memN c' cs); [discriminate|]. inversion H; subst. exact (K1 o c0 i0 E).
  - intros i0 o H. destruct (holder s i0) as [o'|] eqn:E; [|discriminate].
    destruct (K2 _ _ E) as [c' Hc']. rewrite Hc' in H.
    destruct (memN c' cs) eqn:M; [discriminate|]. inversion H; subst.
    exists c'. rewrite Hc', M. reflexivity.
Qed.

Lemma inv_step s ev : ev <> EUnlink -> inv s -> inv (fstep grant poll s ev).
Proof.
  intros Hne Iv. pose proof (I_k s Iv) as K.
  destruct ev as [c b tmo|c|c|c|d|cs|]; simpl; try congruence.
  - (* ECallAcquire *)
    destruct (alive (cl s c)) eqn:A; [|apply inv_logged; auto].
    destruct (pc (cl s c)) eqn:P; try (apply inv_logged; auto).
    apply inv_move; simpl; auto; try discriminate; congruence.
  - (* ECallRelease *)
    destruct (alive (cl s c)) eqn:A; [|apply inv_logged; auto].
    destruct (pc (cl s c)) eqn:P; try (apply inv_logged; auto).
    destruct (locked (cl s c)) eqn:L; [|apply inv_logged; auto].
    destruct (lock_fd (cl s c)) eqn:E; [|apply inv_logged; auto].
    apply inv_move; simpl; auto; try discriminate; congruence.
  - (* EStep *)
    destruct (alive (cl s c)) eqn:A; [|apply inv_logged; auto].
    pose proof (I_cl s Iv c) as [CL CP CR].
    destruct (pc (cl s c)) as [| | |fd|fd| |u| |] eqn:P.
    + (* PIdle *) apply inv_logged; auto.
    + (* PStart *) apply inv_move; simpl; auto; try discriminate; congruence.
    + (* POpen *)
      destruct (open_spec s c K) as (i & s' & -> & K' & F & Hnone & D).
      apply (inv_kop s s' (next_fd s)); [exact Iv|exact K'|exact F|congruence|].
      constructor; simpl.
      * (* C_lock: the descriptor held through is an older one *)
        intros _ L. destruct (CL A L) as [o [E Do]]. exists o. split; [exact E|].
        apply (desc_frame (next_fd s) s); [exact F| |exact Do]. destruct Do as [j [O _]]. congruence.
      * (* C_pcfd: the new descriptor *) intros fd _ H. injection H as <-. exact D.
      * (* C_rel *) discriminate.
    + (* PFlock fd *)
      destruct (CP fd A eq_refl) as [i [Oi Hnh]].
      unfold k_flock. rewrite Oi. destruct (grant (holder s i) fd) eqn:G.
      * (* granted: the inode was free *)
        destruct (Hexcl _ _ G) as [Hfree|Hmine]; [|destruct (Hnh i Hmine)].
        destruct (flock_spec s c fd i K Oi Hfree) as (K' & F & D).
        apply (inv_kop s _ fd); [exact Iv|exact K'|exact F|congruence|].
        constructor; simpl; [|discriminate..]. intros _ _. exists fd. auto.
      * (* refused *)
        apply inv_move; simpl; auto; try discriminate; try congruence. rewrite P. auto.
    + (* PCloseFail fd: the descriptor does not carry the lock, so it is not the one the client holds through *)
      destruct (CP fd A eq_refl) as [i [Oi Hnh]].
      assert (Hx : forall x', locked x' = locked (cl s c) -> lock_fd x' = lock_fd (cl s c) -> pc x' = PCheck \/ pc x' = PIdle ->
                              forall o r, inv (with_client (k_close s fd) c x' o r)).
      { intros x' Lx Fx Px o r.
        apply (inv_kop s _ fd); [exact Iv|apply kinv_close; exact K|apply close_frame|congruence|].
        constructor; [|intros fd0 _ H; destruct Px as [Px|Px]; rewrite Px in H; discriminate H
                      |intro H; destruct Px as [Px|Px]; rewrite Px in H; discriminate H].
        rewrite Lx, Fx. intros _ L. destruct (CL A L) as [o1 [E Do]]. exists o1. split; [exact E|].
        replace (lock_claim (pc x')) with (Some true) by (destruct Px as [-> | ->]; reflexivity).
        apply (desc_frame fd s); [apply close_frame| |exact Do]. destruct Do as [j [_ Hj]]. intros ->. exact (Hnh j Hj). }
      unfold after_failed_attempt. destruct (blocking (cl s c)); apply Hx; simpl; auto.
    + (* PCheck *)
      destruct (now s >=? deadline (cl s c)); apply inv_move; simpl; auto; try discriminate; congruence.
    + (* PSleep *)
      apply (inv_move (with_now s (Z.max (now s) u))); simpl; auto; try discriminate; try congruence.
      apply inv_with_now, Iv.
    + (* PRelUnlock *)
      destruct (CL A (CR eq_refl)) as [fd [E [i [Oi Hh]]]]. rewrite E.
      apply (inv_kop s _ fd); [exact Iv|apply kinv_unlock; exact K|apply unlock_frame|congruence|].
      constructor; simpl; [|discriminate|auto]. intros _ _. exists fd. split; [exact E|exists i; auto].
    + (* PRelClose *)
      destruct (CL A (CR eq_refl)) as [fd [E [i [Oi _]]]]. rewrite E.
      apply (inv_kop s _ fd); [exact Iv|apply kinv_close; exact K|apply close_frame|congruence|].
      constructor; simpl; discriminate.
  - (* EOpenErr *)
    destruct (alive (cl s c)) eqn:A; [|apply inv_logged; auto].
    destruct (pc (cl s c)) eqn:P; try (apply inv_logged; auto).
    unfold after_failed_attempt. destruct (blocking (cl s c)); apply inv_move; simpl; auto; try discriminate; congruence.
  - (* ETick *)
    apply inv_logged. apply inv_with_now. auto.
  - (* EDie *)
    constructor; [apply kinv_die; exact K|]. intro c. pose proof (I_cl s Iv c) as [CL CP CR]. simpl.
    (* a client that dies is not alive: every field is vacuous *)
    destruct (memN c cs) eqn:M; constructor; simpl; try discriminate; auto.
    + (* a survivor, C_lock *) intros A L. destruct (CL A L) as [fd [E D]]. exists fd. split; [exact E|apply desc_die; assumption].
    + (* a survivor, C_pcfd *) intros fd A Q. apply desc_die; auto.
Qed.

Lemma inv_run evs : forall s, no_unlink evs -> inv s -> inv (frun grant poll s evs).
Proof.
  induction evs as [|ev evs IH]; intros s Hn Iv; simpl; auto.
  apply IH.
  - intro H. apply Hn. right. exact H.
  - apply inv_step; auto. intro; subst. apply Hn. left. reflexivity.
Qed.

Lemma reach_inv evs : no_unlink evs -> inv (frun grant poll finit evs).
Proof. intro Hn. apply inv_run; [exact Hn|exact inv_init]. Qed.

Lemma holding_owns s c : inv s -> holding s c ->
  exists fd i, names s = Some i /\ lock_fd (cl s c) = Some fd /\ ofdt s fd = Some (c, i) /\ holder s i = Some fd.
Proof.
  intros Iv [A [L P]]. destruct (C_lock s c _ (I_cl s Iv c) A L) as [fd [F [i [O Hh]]]].
  exists fd, i. repeat split; auto.
  - apply (I_ofd s (I_k s Iv)) in O. tauto.
  - destruct (pc (cl s c)); try exact Hh. destruct (P eq_refl).
Qed.

Lemma mutex_of_inv s c1 c2 : inv s -> holding s c1 -> holding s c2 -> c1 = c2.
Proof.
  intros Iv H1 H2.
  destruct (holding_owns s c1 Iv H1) as [fd1 [i1 [N1 [_ [O1 Hh1]]]]].
  destruct (holding_owns s c2 Iv H2) as [fd2 [i2 [N2 [_ [O2 Hh2]]]]].
  rewrite N1 in N2. inversion N2; subst. rewrite Hh1 in Hh2. inversion Hh2; subst.
  rewrite O1 in O2. inversion O2. reflexivity.
Qed.

Definition actor (ev : fevent) : option cid :=
  match ev with
  | ECallAcquire c _ _ | ECallRelease c | EStep c | EOpenErr c => Some c
  | _ => None
  end.

(* ---- what every step of client a leaves alone: the clock does not go back, the directory entry stays, the other
   clients' records stay.  `fstep` composes its result from the operations below. ---- *)
Definition framed (s : fstate) (a : cid) (s' : fstate) : Prop :=
  now s <= now s' /\ (forall i, names s = Some i -> names s' = Some i) /\ (forall c, c <> a -> cl s' c = cl s c).

Lemma framed_refl s a : framed s a s.
Proof. repeat split; auto. lia. Qed.

Lemma framed_client s a k x o r : framed s a k -> framed s a (with_client k a x o r).
Proof. intros (H1 & H2 & H3). repeat split; simpl; auto. intros c Ne. rewrite upd_other by exact Ne. auto. Qed.

Lemma framed_logged s a k o : framed s a k -> framed s a (logged k o).
Proof. intros (H1 & H2 & H3). repeat split; auto. Qed.

Lemma framed_sleep s a t : framed s a (with_now s (Z.max (now s) t)).
Proof. repeat split; simpl; auto. lia. Qed.

Lemma framed_open s a c : framed s a (fst (fst (k_open s c))).
Proof. unfold k_open. destruct (names s) eqn:E; repeat split; simpl; auto; try lia; congruence. Qed.

Lemma framed_flock s a fd : framed s a (fst (k_flock grant s fd)).
Proof.
  unfold k_flock. destruct (ofdt s fd) as [[? i]|]; [destruct (grant (holder s i) fd)|]; repeat split; simpl; auto; lia.
Qed.

Lemma framed_unlock s a fd : framed s a (k_unlock s fd).
Proof. repeat split; simpl; auto. lia. Qed.

Lemma framed_close s a fd : framed s a (k_close s fd).
Proof. repeat split; simpl; auto. lia. Qed.

Local Hint Resolve framed_refl framed_client framed_logged framed_sleep framed_unlock framed_close : framed.

Lemma step_framed s ev a : actor ev = Some a -> framed s a (fstep grant poll s ev).
Proof.
  intro Ha. destruct ev as [c b tmo|c|c|c|d|cs|]; try discriminate Ha; injection Ha as ->; simpl.
  - (* ECallAcquire *) destruct (alive (cl s a)); [destruct (pc (cl s a))|]; auto with framed.
  - (* ECallRelease *) destruct (alive (cl s a)); [destruct (pc (cl s a))|]; auto with framed.
    destruct (locked (cl s a)); [destruct (lock_fd (cl s a))|]; auto with framed.
  - (* EStep: PIdle, PStart and PSleep are immediate *)
    destruct (alive (cl s a)); [destruct (pc (cl s a))|]; auto with framed.
    + (* POpen *) pose proof (framed_open s a a) as F. destruct (k_open s a) as [[s' fd] i]. auto with framed.
    + (* PFlock *) pose proof (framed_flock s a fd) as F. destruct (k_flock grant s fd) as [s' [|]]; auto with framed.
    + (* PCloseFail *) destruct (after_failed_attempt (cl s a)). auto with framed.
    + (* PCheck *) destruct (now s >=? deadline (cl s a)); auto with framed.
    + (* PRelUnlock *) destruct (lock_fd (cl s a)); auto with framed.
    + (* PRelClose *) destruct (lock_fd (cl s a)); auto with framed.
  - (* EOpenErr *) destruct (alive (cl s a)); [destruct (pc (cl s a))|]; auto with framed.
    destruct (after_failed_attempt (cl s a)). auto with framed.
Qed.

Lemma now_mono s ev : now s <= now (fstep grant poll s ev).
Proof.
  destruct (actor ev) as [a|] eqn:Ha; [apply (step_framed s ev a Ha)|].
  destruct ev; try discriminate Ha; simpl; lia.
Qed.

Lemma names_stable s ev i : ev <> EUnlink -> names s = Some i -> names (fstep grant poll s ev) = Some i.
Proof.
  intros Hne Hn. destruct (actor ev) as [a|] eqn:Ha; [apply (step_framed s ev a Ha); exact Hn|].
  destruct ev; try discriminate Ha; try exact Hn. congruence.
Qed.

Lemma step_other s ev c : actor ev <> Some c ->
  cl (fstep grant poll s ev) c = cl s c \/ cl (fstep grant poll s ev) c = set_dead (cl s c).
Proof.
  intro Ne. destruct (actor ev) as [a|] eqn:Ha; [left; apply (step_framed s ev a Ha); congruence|].
  destruct ev; try discriminate Ha; auto. simpl. destruct (memN c cs); auto.
Qed.

Lemma death_frees s cs c w fd : flock_free grant -> inv s -> holding s c -> In c cs ->
  let s' := fstep grant poll s (EDie cs) in
  (forall i, names s' = Some i -> holder s' i = None)
  /\ (alive (cl s' w) = true -> pc (cl s' w) = PFlock fd ->
      let s'' := fstep grant poll s' (EStep w) in
      holding s'' w /\ res (cl s'' w) = ROk /\ forall w', holding s'' w' -> w' = w).
Proof.
  intros Hfree Iv Hc Hin s'.
  assert (Iv' : inv s') by (apply inv_step; [discriminate|assumption]).
  destruct (holding_owns s c Iv Hc) as [fdc [i [Nm [F [O Hh]]]]].
  assert (M : memN c cs = true).
  { unfold memN. apply existsb_exists. exists c. split; auto. apply N.eqb_refl. }
  assert (Hnone : forall j, names s' = Some j -> holder s' j = None).
  { intros j Hj. simpl in Hj. rewrite Nm in Hj. inversion Hj; subst j. simpl. rewrite Hh, O, M. reflexivity. }
  split; [exact Hnone|].
  intros Aw Pw s''.
  destruct (C_pcfd s' w _ (I_cl s' Iv' w) fd Aw) as [j [Oj Hnh]]; [rewrite Pw; reflexivity|].
  assert (Nj : names s' = Some j) by (apply (I_ofd s' (I_k s' Iv')) in Oj; tauto).
  assert (Iv'' : inv s'') by (apply inv_step; [discriminate|assumption]).
  assert (Hw : holding s'' w /\ res (cl s'' w) = ROk).
  { unfold s''. clearbody s'. simpl fstep. rewrite Aw, Pw. unfold k_flock. rewrite Oj, (Hnone j Nj), Hfree.
    unfold holding. simpl. rewrite upd_same. simpl. repeat split; auto. discriminate. }
  destruct Hw as [Hw Hr]. split; [exact Hw|split; [exact Hr|]].
  intros w' Hw'. eapply mutex_of_inv; eauto.
Qed.

Lemma cl_logged s o c : cl (logged s o) c = cl s c.
Proof. reflexivity. Qed.

Definition in_loop (p : fpc) : bool :=
  match p with POpen | PFlock _ | PCloseFail _ | PCheck | PSleep _ => true | _ => false end.

(* the clock readings and the sleep count of the acquire() in progress *)
Definition readings (x : fclient) :=
  (timeout x, deadline x, start x, last_read x, prev_read x, ret_time x, maxgap x, iters x).

(* the clock readings of the acquire() in progress, against the clock t: an invariant of the client's own record.
   The three conjuncts of C19_flock_timeout are T_ret, T_bound, T_sleep; T_loop carries them through the loop *)
Record tinv (t : Z) (x : fclient) : Prop := {
  (* inside the loop: the deadline is the one fixed by the first reading; the latest reading is the first one or lies before
     the deadline (the reading that raises is the first past it, so it is within one gap, maxgap, of the deadline); every
     completed sleep lasted at least `poll` *)
  T_loop : in_loop (pc x) = true ->
           deadline x = start x + timeout x /\ last_read x <= Z.max (start x) (deadline x) /\ start x + iters x * poll <= t;
  (* a sleep is entered before the deadline and ends no earlier than `poll` later *)
  T_sleep : forall u, pc x = PSleep u -> start x + (iters x + 1) * poll <= u /\ iters x * poll < timeout x;
  (* the loop goes round at most timeout/poll + 1 times *)
  T_bound : 0 < iters x -> (iters x - 1) * poll < timeout x;
  (* TimeoutError: no earlier than the deadline, no later than one gap after it *)
  T_ret : res x = RTimeout ->
          deadline x = start x + timeout x /\ deadline x <= ret_time x
          /\ ret_time x <= Z.max (start x) (start x + timeout x) + maxgap x
}.

Lemma tinv_init : tinv 0 client0.
Proof. constructor; simpl; intros; try discriminate; lia. Qed.

(* a step that reads no clock and ends no sleep *)
Lemma tinv_goto t t' x x' :
  readings x' = readings x -> t <= t' ->
  (in_loop (pc x') = true -> in_loop (pc x) = true) ->
  (forall u, pc x' = PSleep u -> pc x = PSleep u) ->
  (res x' = RTimeout -> res x = RTimeout) ->
  tinv t x -> tinv t' x'.
Proof.
  intros E Hm Hl Hs Hr [Tloop Tsleep Tbound Tret]. injection E as E1 E2 E3 E4 E5 E6 E7 E8.
  constructor; rewrite ?E1, ?E2, ?E3, ?E4, ?E5, ?E6, ?E7, ?E8; auto.
  intro H. specialize (Tloop (Hl H)). lia.
Qed.

(* the same for a step of client c, standing at p, that works on a state k whose clock is s's *)
Lemma tinv_client s k c x o r p :
  tinv (now s) (cl s c) -> pc (cl s c) = p -> now k = now s -> readings x = readings (cl s c) ->
  (in_loop (pc x) = true -> in_loop p = true) -> (forall u, pc x = PSleep u -> p = PSleep u) ->
  (res x = RTimeout -> res (cl s c) = RTimeout) ->
  tinv (now (with_client k c x o r)) (cl (with_client k c x o r) c).
Proof.
  intros T P Hn E Hl Hs Hr. simpl. rewrite upd_same, Hn. apply (tinv_goto (now s) _ (cl s c)); rewrite ?P; auto. apply Z.le_refl.
Qed.

Lemma tinv_step s ev c :
  tinv (now s) (cl s c) -> tinv (now (fstep grant poll s ev)) (cl (fstep grant poll s ev) c).
Proof.
  intro T. pose proof (now_mono s ev) as Hm.
  destruct (option_eq_Some_dec _ N.eq_dec (actor ev) c) as [Ha|Ha];
    [|(* not c's event *) destruct (step_other s ev c Ha) as [E|E]; rewrite E; apply (tinv_goto (now s) _ (cl s c)); auto].
  (* c's own events; where nothing happens (dead, or not at the program counter the event is for) the state is logged *)
  destruct ev as [c0 b tmo|c0|c0|c0|d|cs|]; try discriminate Ha; injection Ha as ->; simpl in *.
  - (* ECallAcquire: the readings start afresh *)
    destruct (alive (cl s c)); [|exact T].
    destruct (pc (cl s c)) eqn:P; try exact T.
    constructor; simpl; rewrite ?upd_same; simpl; intros; try discriminate; lia.
  - (* ECallRelease *)
    destruct (alive (cl s c)); [|exact T].
    destruct (pc (cl s c)) eqn:P; try exact T.
    destruct (locked (cl s c)); [|exact T].
    destruct (lock_fd (cl s c)); [apply (tinv_client s _ c _ _ _ _ T P); simpl; auto; discriminate|exact T].
  - (* EStep: PStart, PCheck and PSleep read the clock or end a sleep; the others are tinv_client *)
    destruct (alive (cl s c)); [|exact T].
    destruct (pc (cl s c)) as [| | |fd|fd| |u| |] eqn:P.
    + (* PIdle *) exact T.
    + (* PStart: the first reading fixes the deadline *)
      constructor; simpl; rewrite ?upd_same; simpl; intros; try discriminate; lia.
    + (* POpen *) unfold k_open. destruct (names s); apply (tinv_client s _ c _ _ _ _ T P); simpl; auto; discriminate.
    + (* PFlock *)
      unfold k_flock. destruct (ofdt s fd) as [[? ?]|]; [destruct (grant _ _)|];
        apply (tinv_client s _ c _ _ _ _ T P); simpl; auto; discriminate.
    + (* PCloseFail *)
      unfold after_failed_attempt. destruct (blocking _); apply (tinv_client s _ c _ _ _ _ T P); simpl; auto; discriminate.
    + (* PCheck: a later reading *)
      destruct T as [Tloop Tsleep Tbound Tret]. rewrite P in *. specialize (Tloop eq_refl).
      destruct (Z.geb_spec (now s) (deadline (cl s c))) as [Hge|Hlt].
      * (* past the deadline: TimeoutError; T_ret holds because the reading before was the first or before the deadline (T_loop, 2nd conjunct) *)
        constructor; simpl; rewrite ?upd_same; simpl; intros; try discriminate; auto; lia.
      * (* before the deadline: sleep until now + poll *)
        constructor; simpl; rewrite ?upd_same; simpl; try (intros; discriminate); auto; try (intros; lia).
        (* T_sleep *) intros u0 Hu. injection Hu as <-. lia.
    + (* PSleep: one more completed sleep, of at least `poll` *)
      destruct T as [Tloop Tsleep Tbound Tret]. rewrite P in *. destruct (Tsleep u eq_refl) as [Hu Hb]. specialize (Tloop eq_refl).
      constructor; simpl; rewrite ?upd_same; simpl; intros; try discriminate; auto; lia.
    + (* PRelUnlock *)
      destruct (lock_fd _); [apply (tinv_client s _ c _ _ _ _ T P); simpl; auto; discriminate|exact T].
    + (* PRelClose *)
      destruct (lock_fd _); [apply (tinv_client s _ c _ _ _ _ T P); simpl; auto; discriminate|exact T].
  - (* EOpenErr: as a failed attempt *)
    destruct (alive (cl s c)); [|exact T].
    destruct (pc (cl s c)) eqn:P; try exact T.
    unfold after_failed_attempt. destruct (blocking _); apply (tinv_client s _ c _ _ _ _ T P); simpl; auto; discriminate.
Qed.

Lemma reach_tinv evs c : tinv (now (frun grant poll finit evs)) (cl (frun grant poll finit evs) c).
Proof. apply (fold_left_preserves _ _ _ (fun s => tinv (now s) (cl s c))); [intros s e; apply tinv_step|apply tinv_init]. Qed.

(* every other primitive stores another result or keeps the old one *)
Lemma ok_only_at_flock s c :
  res (cl s c) <> ROk -> res (cl (fstep grant poll s (EStep c)) c) = ROk ->
  exists fd, alive (cl s c) = true /\ pc (cl s c) = PFlock fd /\ snd (k_flock grant s fd) = true.
Proof.
  intros Hr Hr'. simpl in Hr'.
  destruct (alive (cl s c)) eqn:A; [|destruct (Hr Hr')].
  destruct (pc (cl s c)) as [| | |fd|fd| |u| |] eqn:P.
  - (* PIdle: nothing happens *) destruct (Hr Hr').
  - (* PStart: RNone *) simpl in Hr'. rewrite upd_same in Hr'. discriminate Hr'.
  - (* POpen: kept *) destruct (k_open s c) as [[k fd] i]. simpl in Hr'. rewrite upd_same in Hr'. destruct (Hr Hr').
  - (* PFlock: ROk if granted, kept if refused *)
    exists fd. destruct (k_flock grant s fd) as [k [|]]; [auto|].
    simpl in Hr'. rewrite upd_same in Hr'. destruct (Hr Hr').
  - (* PCloseFail: kept, or RWouldBlock *)
    unfold after_failed_attempt in Hr'. destruct (blocking (cl s c)); simpl in Hr'; rewrite upd_same in Hr';
      [destruct (Hr Hr')|discriminate Hr'].
  - (* PCheck: RTimeout or RNone *)
    destruct (now s >=? deadline (cl s c)); simpl in Hr'; rewrite upd_same in Hr'; discriminate Hr'.
  - (* PSleep: kept *) simpl in Hr'. rewrite upd_same in Hr'. destruct (Hr Hr').
  - (* PRelUnlock: kept *)
    destruct (lock_fd (cl s c)); [simpl in Hr'; rewrite upd_same in Hr'|]; destruct (Hr Hr').
  - (* PRelClose: kept *)
    destruct (lock_fd (cl s c)); [simpl in Hr'; rewrite upd_same in Hr'|]; destruct (Hr Hr').
Qed.

Lemma ok_only_when_free s c : inv s ->
  let s' := fstep grant poll s (EStep c) in
  res (cl s c) <> ROk -> res (cl s' c) = ROk ->
  (forall c', ~ holding s c') /\ holding s' c.
Proof.
  intros Iv s' Hr Hr'. destruct (ok_only_at_flock s c Hr Hr') as (fd & A & P & G).
  destruct (C_pcfd s c _ (I_cl s Iv c) fd A) as [i [Oi Hnh]]; [rewrite P; reflexivity|].
  unfold k_flock in G. rewrite Oi in G. destruct (grant (holder s i) fd) eqn:Gr; [|discriminate G].
  (* the inode was free: flock_excl, and the attempt's descriptor holds nothing (C_pcfd) *)
  destruct (Hexcl _ _ Gr) as [Hfree|Hmine]; [|destruct (Hnh i Hmine)].
  split.
  - (* a holder's descriptor would hold that one inode *)
    intros c' Hc'. destruct (holding_owns s c' Iv Hc') as [fd' [i' [N' [_ [O' Hh']]]]].
    apply (I_ofd s (I_k s Iv)) in Oi. destruct Oi as [_ Oi]. rewrite Oi in N'. inversion N'; subst. congruence.
  - unfold s', holding. simpl. rewrite A, P. unfold k_flock. rewrite Oi, Gr. simpl. rewrite upd_same. simpl.
    repeat split; auto. discriminate.
Qed.

End Step.

(* without the "never unlink" discipline mutual exclusion is lost: a concrete schedule in which the
   lock file is deleted while client 0 holds it, after which client 1 locks a NEW inode *)
Definition unlink_witness : list fevent :=
  [ECallAcquire 0%N true 1000; EStep 0%N; EStep 0%N; EStep 0%N; EUnlink;
   ECallAcquire 1%N true 1000; EStep 1%N; EStep 1%N; EStep 1%N].
