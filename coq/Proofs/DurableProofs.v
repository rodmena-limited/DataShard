(* Proofs/DurableProofs.v -- safety of the publish discipline under relational power loss (C16).

   Part A (this file): every trace accepted by Durable.check keeps the invariant Inv between the
   ghost state and the file system, under EVERY schedule of background persistence events; Inv
   implies that whatever the durable pointer's content refers to is durably present, whole, and
   closed under references.  The induction over schedules is `chain_run`, for any program given as a chain of
   assertions that survive background events; an accepted trace is the chain of the assertions Inv g_k (checks_chain).
   Part B: DurablePrograms.v shows that trace_of ops is accepted for every well-formed history. *)
From Coq Require Import NArith List Bool Arith Lia.
Require Import DS.Model.Durable DS.Proofs.ListFacts.
Import ListNotations.
Open Scope N_scope.

Notation vE s := (entry (vol s)).
Notation vD s := (data (vol s)).
Notation dE s := (entry (dur s)).
Notation dD s := (data (dur s)).

Lemma path_eqb_spec : forall a b, reflect (a = b) (path_eqb a b).
Proof.
  intros [d n|d n] [d' n'|d' n']; simpl; try (constructor; congruence);
    destruct (N.eqb_spec d d'), (N.eqb_spec n n'); simpl; constructor; congruence.
Qed.

Lemma path_eq_dec : forall a b : path, {a = b} + {a <> b}.
Proof. intros a b. destruct (path_eqb_spec a b); auto. Qed.

Lemma path_eqb_refl : forall a, path_eqb a a = true.
Proof. intro a. destruct (path_eqb_spec a a); congruence. Qed.

Lemma path_eqb_neq : forall a b, a <> b -> path_eqb a b = false.
Proof. intros a b H. destruct (path_eqb_spec a b); congruence. Qed.

Lemma T_neq : forall d n d' n', T d' n' <> T d n -> path_eqb (T d' n') (T d n) = false.
Proof. intros. now apply path_eqb_neq. Qed.

Lemma upd_e_same : forall f p v, upd_e f p v p = v.
Proof. intros. unfold upd_e. now rewrite path_eqb_refl. Qed.
Lemma upd_e_other : forall f p v x, x <> p -> upd_e f p v x = f x.
Proof. intros. unfold upd_e. now rewrite path_eqb_neq. Qed.
Lemma upd_d_same : forall f i c, upd_d f i c i = c.
Proof. intros. unfold upd_d. now rewrite N.eqb_refl. Qed.
Lemma upd_d_other : forall f i c j, j <> i -> upd_d f i c j = f j.
Proof. intros. unfold upd_d. destruct (N.eqb_spec j i); congruence. Qed.
Lemma upd_t_same : forall f p v, upd_t f p v p = v.
Proof. intros. unfold upd_t. now rewrite path_eqb_refl. Qed.
Lemma upd_t_other : forall f p v x, x <> p -> upd_t f p v x = f x.
Proof. intros. unfold upd_t. now rewrite path_eqb_neq. Qed.
Lemma upd_s_same : forall f p v, upd_s f p v p = v.
Proof. intros. unfold upd_s. now rewrite path_eqb_refl. Qed.
Lemma upd_s_other : forall f p v x, x <> p -> upd_s f p v x = f x.
Proof. intros. unfold upd_s. now rewrite path_eqb_neq. Qed.

Lemma mem_In : forall p l, mem p l = true <-> In p l.
Proof. apply existsb_eqb_In. intros a b. destruct (path_eqb_spec a b); split; congruence. Qed.

(* What the ghost state of the discipline knows about the file system, under every schedule.
     i_fresh      inode numbers in use are below `next`, so a Create gets a new one
     i_tnone      a temp name the ghost has not open does not exist (Create cannot fail with EEXIST)
     i_tsome      an open temp exists, holds what the ghost says (durably too if marked flushed), and its inode is
                  private: no final name, visible or durable, and no other temp leads to it (writes touch nothing else)
     i_vol        a visible final name is Linked in the ghost, its inode holds that content, and holds it durably
     i_linked     a Linked name is visible; its entry is durable if the ghost says so (what a reference may rely on)
     i_dur        a durable entry other than the pointer's leads to the content the ghost records (never an older one)
     i_sealed     an inode a durable entry leads to is fully flushed: no background event can change it (safe_state, part 1)
     i_freshname  a Fresh name exists neither visibly nor durably (a Rename onto it replaces nothing)
     i_ptr        whatever a durable pointer refers to is in `refd` ...
     i_refs       ... and so is whatever a Linked content refers to (closure under references)
     i_refd       a referenced name is a final name other than the pointer, durably linked (with i_dur, i_linked:
                  present and whole on disk -- refd_durable, safe_state part 2) *)
Record Inv (g : ghost) (s : fs) : Prop := {
  i_fresh : forall x i, vE s x = Some i \/ dE s x = Some i -> i < next s;
  i_tnone : forall d n, tmps g (T d n) = None -> vE s (T d n) = None;
  i_tsome : forall d n c b, tmps g (T d n) = Some (c, b) ->
      exists i, vE s (T d n) = Some i /\ vD s i = c /\ (b = true -> dD s i = c)
        /\ (forall d' n', vE s (P d' n') <> Some i /\ dE s (P d' n') <> Some i)
        /\ (forall d' n', T d' n' <> T d n -> vE s (T d' n') <> Some i);
  i_vol : forall d n i, vE s (P d n) = Some i ->
      exists c b, st g (P d n) = Linked c b /\ vD s i = c /\ dD s i = c;
  i_linked : forall d n c b, st g (P d n) = Linked c b ->
      exists i, vE s (P d n) = Some i /\ (b = true -> dE s (P d n) = Some i);
  i_dur : forall d n i c b, dE s (P d n) = Some i -> P d n <> PTR -> st g (P d n) = Linked c b -> dD s i = c;
  i_sealed : forall d n i, dE s (P d n) = Some i -> vD s i = dD s i;
  i_freshname : forall d n, st g (P d n) = Fresh -> vE s (P d n) = None /\ dE s (P d n) = None;
  i_ptr : forall i r, dE s PTR = Some i -> In r (refs (dD s i)) -> refd g r = true;
  i_refs : forall d n c b r, st g (P d n) = Linked c b -> In r (refs c) -> refd g r = true;
  i_refd : forall r, refd g r = true -> is_final r = true /\ r <> PTR /\ exists c, st g r = Linked c true
}.

Lemma Inv_init : Inv g0 fs0.
Proof.
  constructor; simpl; intros; try discriminate; try tauto.
  - (* i_fresh *) destruct H; discriminate.
Qed.

(* what Inv_persist asks of a step, for a background event *)
Lemma bg_frame : forall s b, vol (bg_step s b) = vol s /\ next (bg_step s b) = next s.
Proof. intros s [j k|x]; simpl; [destruct (Nat.leb (length (dD s j)) k)|]; auto. Qed.

Lemma bg_sealed : forall s b i, vD s i = dD s i -> dD (bg_step s b) i = dD s i.
Proof.
  intros s [j k|x] i H; [|reflexivity]. simpl. destruct (Nat.leb_spec (length (dD s j)) k) as [Hk|Hk]; [|reflexivity].
  simpl. unfold upd_d. destruct (N.eqb_spec i j) as [->|]; [|reflexivity].
  rewrite H. apply firstn_all2. now rewrite <- H in Hk |- *.
Qed.

Lemma bg_entry : forall s b p, dE (bg_step s b) p = dE s p \/ dE (bg_step s b) p = vE s p.
Proof.
  intros s [j k|x] p; simpl.
  - destruct (Nat.leb (length (dD s j)) k); auto.
  - unfold upd_e. destruct (path_eqb_spec p x) as [<-|]; auto.
Qed.

(* Persisting is safe: what every background event and the directory fsync have in common.  The ghost may record as
   durable (Linked c true) entries that did get the visible one. *)
Lemma Inv_persist : forall g g' s s', Inv g s ->
  vol s' = vol s -> next s' = next s -> (forall j, vD s j = dD s j -> dD s' j = dD s j) ->
  (forall x, dE s' x = dE s x \/ dE s' x = vE s x) ->
  tmps g' = tmps g -> refd g' = refd g ->
  (forall x, st g' x = st g x \/ exists c b, st g x = Linked c b /\ st g' x = Linked c true /\ dE s' x = vE s x) ->
  Inv g' s'.
Proof.
  intros g g' s s' I Hv Hn HS HE Et Er Hst.
  (* an inode a final name leads to, durably or visibly, is sealed *)
  assert (Hseal : forall d n i, dE s' (P d n) = Some i -> vD s i = dD s i).
  { intros d n i H. destruct (HE (P d n)) as [E|E]; rewrite E in H; [exact (i_sealed _ _ I d n i H)|].
    destruct (i_vol _ _ I d n i H) as [c [b0 [_ [E2 E3]]]]. congruence. }
  assert (Hold : forall x c b, st g' x = Linked c b -> exists b0, st g x = Linked c b0).
  { intros x c b H. destruct (Hst x) as [E|[c1 [b1 [E1 [E2 _]]]]]; [rewrite E in H; eauto|]. rewrite E2 in H. inversion H; subst. eauto. }
  destruct I as [Ifresh Itnone Itsome Ivol Ilinked Idur Isealed Ifreshname Iptr Irefs Irefd].
  constructor; rewrite ?Hv, ?Hn, ?Et, ?Er; auto.    (* i_tnone speaks of the visible tree and tmps only *)
  - (* i_fresh *) intros x i [H|H]; [eauto|]. destruct (HE x) as [E|E]; rewrite E in H; eauto.
  - (* i_tsome *) intros d n c b0 Ht. destruct (Itsome d n c b0 Ht) as [i [H1 [H2 [H3 [H4 H5]]]]].
    exists i. repeat split; auto; try apply H4.
    + intro Hb. rewrite HS; auto. rewrite H2, H3; auto.
    + destruct (HE (P d' n')) as [E|E]; rewrite E; apply H4.
  - (* i_vol *) intros d n i Hi. destruct (Ivol d n i Hi) as [c [b0 [H1 [H2 H3]]]].
    assert (Hd : dD s' i = c) by (rewrite HS; congruence).
    destruct (Hst (P d n)) as [E|[c1 [b1 [E1 [E2 _]]]]]; [exists c, b0|exists c, true]; repeat split; auto; congruence.
  - (* i_linked *) intros d n c b0 Hl. destruct (Hst (P d n)) as [E|[c1 [b1 [E1 [E2 E3]]]]].
    + rewrite E in Hl. destruct (Ilinked d n c b0 Hl) as [i [H1 H2]]. exists i. split; auto.
      intro Hb. destruct (HE (P d n)) as [E'|E']; rewrite E'; auto.
    + destruct (Ilinked d n c1 b1 E1) as [i [H1 _]]. exists i. split; auto. intros _. congruence.
  - (* i_dur *) intros d n i c b0 H1 H2 H3. destruct (Hold _ _ _ H3) as [b1 H3']. rewrite HS by eauto.
    destruct (HE (P d n)) as [E|E]; rewrite E in H1; eauto.
    destruct (Ivol d n i H1) as [c' [b' [E1 [E2 E3]]]]. congruence.
  - (* i_sealed *) intros d n i H1. rewrite HS; eauto.
  - (* i_freshname *) intros d n Hf. destruct (Hst (P d n)) as [E|[c1 [b1 [_ [E2 _]]]]]; [|congruence]. rewrite E in Hf.
    destruct (Ifreshname d n Hf) as [H1 H2]. split; auto. destruct (HE (P d n)) as [E'|E']; rewrite E'; auto.
  - (* i_ptr *) intros i r H1 H2. rewrite HS in H2 by (apply (Hseal 0 0); exact H1).
    destruct (HE PTR) as [E|E]; rewrite E in H1; [exact (Iptr i r H1 H2)|].
    destruct (Ivol 0 0 i H1) as [c' [b' [E1 [E2 E3]]]]. rewrite E3 in H2. eapply Irefs; eauto.
  - (* i_refs *) intros d n c b0 r H Hin. destruct (Hold _ _ _ H) as [b1 H']. eauto.
  - (* i_refd *) intros r H. destruct (Irefd r H) as [A [B [c C]]]. repeat split; auto. exists c.
    destruct (Hst r) as [E|[c1 [b1 [E1 [E2 _]]]]]; congruence.
Qed.

Lemma Inv_bg : forall g s b, Inv g s -> Inv g (bg_step s b).
Proof.
  intros g s b I. destruct (bg_frame s b) as [Hv Hn].
  apply (Inv_persist g g s _ I Hv Hn (bg_sealed s b) (bg_entry s b)); auto.
Qed.

Ltac inv_some := match goal with H : Some _ = Some _ |- _ => inversion H; subst; clear H end.

Lemma ref_ok_spec : forall g r, ref_ok g r = true ->
  is_final r = true /\ r <> PTR /\ exists c, st g r = Linked c true.
Proof.
  intros g r H. unfold ref_ok in H. apply andb_prop in H as [H H3]. apply andb_prop in H as [H1 H2].
  repeat split; auto.
  - intro E. subst. now rewrite path_eqb_refl in H2.
  - destruct (st g r) as [|c [|]|]; try discriminate. eauto.
Qed.

Lemma peq_PT : forall a b c d, path_eqb (P a b) (T c d) = false.
Proof. reflexivity. Qed.
Lemma peq_TP : forall a b c d, path_eqb (T a b) (P c d) = false.
Proof. reflexivity. Qed.

(* From here to Inv_call path_eqb is opaque, so that `simpl` on `step` / `check` leaves `path_eqb x p` folded for the
   upd_*_same / _other rewrites and for `destruct (path_eqb_spec ..)`; peq_PT / peq_TP above are the tests between a final and
   a temporary name, which `simpl` would otherwise have decided. *)
Local Opaque path_eqb.

(* `checked g c g'` says exactly when the discipline accepts c and what it does.  Calls on a temporary file t give
   `tmps g t` a new value and change nothing else; three calls touch final names. *)
Inductive tmp_eff (g : ghost) : call -> path -> option (content * bool) -> Prop :=
| te_create : forall d n, tmps g (T d n) = None -> tmp_eff g (Create (T d n)) (T d n) (Some ([], true))
| te_write : forall d n c0 b w, tmps g (T d n) = Some (c0, b) -> tmp_eff g (Write (T d n) w) (T d n) (Some (c0 ++ w, false))
| te_fsync : forall d n c0 b, tmps g (T d n) = Some (c0, b) -> tmp_eff g (Fsync (T d n)) (T d n) (Some (c0, true))
| te_unlink : forall d n c0 b, tmps g (T d n) = Some (c0, b) -> tmp_eff g (Unlink (T d n)) (T d n) None.

Inductive checked (g : ghost) : call -> ghost -> Prop :=
| ck_tmp : forall c t v, tmp_eff g c t v -> checked g c (mkGhost (upd_t (tmps g) t v) (st g) (refd g))
| ck_rename : forall d n d' n' c0,
    tmps g (T d n) = Some (c0, true) -> forallb (ref_ok g) (refs c0) = true ->
    st g (P d' n') = Fresh \/ (exists c b, st g (P d' n') = Linked c b) /\ P d' n' = PTR ->
    checked g (Rename (T d n) (P d' n'))
      (mkGhost (upd_t (tmps g) (T d n) None) (upd_s (st g) (P d' n') (Linked c0 false))
               (fun x => refd g x || existsb (path_eqb x) (refs c0)))
| ck_fsyncdir : forall dd,
    checked g (FsyncDir dd)
      (mkGhost (tmps g)
               (fun x => if dir_of x =? dd then match st g x with Linked c0 _ => Linked c0 true | o => o end else st g x)
               (refd g))
| ck_unlink : forall d n c0 b,
    P d n <> PTR -> refd g (P d n) = false -> st g (P d n) = Linked c0 b ->
    checked g (Unlink (P d n)) (mkGhost (tmps g) (upd_s (st g) (P d n) Dead) (refd g))
| ck_mkdir : forall dd, checked g (Mkdir dd) g.

Lemma check_inv : forall g c g', check g c = Some g' -> checked g c g'.
Proof.
  intros g c g' H. destruct c as [p|p w|p|p q|dd|p|dd]; simpl in H.
  - (* Create *) destruct p; [discriminate|]. destruct (tmps g (T d n)) eqn:E; [discriminate|]. inv_some. apply ck_tmp. now constructor.
  - (* Write *) destruct p; [discriminate|]. destruct (tmps g (T d n)) as [[? ?]|] eqn:E; [|discriminate]. inv_some.
    apply ck_tmp. econstructor; eauto.
  - (* Fsync *) destruct p; [discriminate|]. destruct (tmps g (T d n)) as [[? ?]|] eqn:E; [|discriminate]. inv_some.
    apply ck_tmp. econstructor; eauto.
  - (* Rename *) destruct p; [discriminate|]. destruct q as [d' n'|]; [|discriminate].
    destruct (tmps g (T d n)) as [[c0 [|]]|] eqn:Ht; try discriminate.
    destruct (forallb (ref_ok g) (refs c0)) eqn:Hr; [|discriminate]. simpl in H.
    destruct (st g (P d' n')) as [|c b|] eqn:Hs; try discriminate.
    + inv_some. apply ck_rename; auto.
    + destruct (path_eqb_spec (P d' n') PTR) as [E|]; [|discriminate]. inv_some. apply ck_rename; eauto.
  - (* FsyncDir *) inv_some. apply ck_fsyncdir.
  - (* Unlink *) destruct p as [d n|d n].
    + destruct (path_eqb_spec (P d n) PTR); [discriminate|]. destruct (refd g (P d n)) eqn:Hrf; [discriminate|].
      destruct (st g (P d n)) eqn:Hs; try discriminate. simpl in H. inv_some. eapply ck_unlink; eauto.
    + destruct (tmps g (T d n)) as [[? ?]|] eqn:E; [|discriminate]. inv_some. apply ck_tmp. econstructor; eauto.
  - (* Mkdir *) inv_some. apply ck_mkdir.
Qed.

Lemma check_complete : forall g c g', checked g c g' -> check g c = Some g'.
Proof.
  intros g c g' [c0 t v [d n H|d n c1 b w H|d n c1 b H|d n c1 b H]|d n d' n' c0 Ht Hr Hq|dd|d n c0 b Hp Hrf Hs|dd];
    simpl; rewrite ?H; auto.
  - (* ck_rename *) rewrite Ht, Hr. simpl. destruct Hq as [->|[[c1 [b ->]] ->]]; [reflexivity|now rewrite path_eqb_refl].
  - (* ck_unlink *) now rewrite (path_eqb_neq _ _ Hp), Hrf, Hs.
Qed.

Lemma Inv_create : forall g s d n, tmps g (T d n) = None -> Inv g s ->
  exists s', step s (Create (T d n)) = Some s' /\ Inv (mkGhost (upd_t (tmps g) (T d n) (Some ([], true))) (st g) (refd g)) s'.
Proof.
  intros g s d n Ht I.
  pose proof (i_tnone _ _ I d n Ht) as Hv. simpl. rewrite Hv. eexists; split; [reflexivity|].
  assert (Hlt : forall x i, vE s x = Some i \/ dE s x = Some i -> i <> next s).
  { intros x i H. apply (i_fresh _ _ I) in H. lia. }
  destruct I as [Ifresh Itnone Itsome Ivol Ilinked Idur Isealed Ifreshname Iptr Irefs Irefd]. constructor; simpl.
  - (* i_fresh *) intros x i [H|H].
    + unfold upd_e in H. destruct (path_eqb x (T d n)); [inversion H; lia|]. assert (i < next s) by eauto. lia.
    + assert (i < next s) by eauto. lia.
  - (* i_tnone *) intros d0 n0 H. unfold upd_t in H. unfold upd_e. destruct (path_eqb (T d0 n0) (T d n)); [discriminate|auto].
  - (* i_tsome *) intros d0 n0 c b H. unfold upd_t in H. unfold upd_e at 1.
    destruct (path_eqb_spec (T d0 n0) (T d n)) as [E|E].
    + inversion H; subst. exists (next s). rewrite !upd_d_same. repeat split; auto.
      * rewrite upd_e_other by discriminate. intro Hx. eapply Hlt; eauto.
      * intro Hx. eapply Hlt; eauto.
      * intros d' n' Hne. rewrite upd_e_other by congruence. intro Hx. eapply Hlt; eauto.
    + destruct (Itsome d0 n0 c b H) as [i [H1 [H2 [H3 [H4 H5]]]]].
      assert (i <> next s) by (eapply Hlt; eauto).
      exists i. rewrite !upd_d_other by auto. repeat split; auto.
      * rewrite upd_e_other by discriminate. apply H4.
      * apply H4.
      * intros d' n' Hne. unfold upd_e. destruct (path_eqb_spec (T d' n') (T d n)); [congruence|auto].
  - (* i_vol *) intros d0 n0 i H. rewrite upd_e_other in H by discriminate.
    assert (i <> next s) by (eapply Hlt; eauto). rewrite !upd_d_other by auto. eauto.
  - (* i_linked *) intros d0 n0 c b H. rewrite upd_e_other by discriminate. eauto.
  - (* i_dur *) intros d0 n0 i c b H1 H2 H3. assert (i <> next s) by (eapply Hlt; eauto). rewrite upd_d_other by auto. eauto.
  - (* i_sealed *) intros d0 n0 i H1. assert (i <> next s) by (eapply Hlt; eauto). rewrite !upd_d_other by auto. eauto.
  - (* i_freshname *) intros d0 n0 H. rewrite upd_e_other by discriminate. eauto.
  - (* i_ptr *) intros i r H1. assert (i <> next s) by (eapply Hlt; eauto). rewrite upd_d_other by auto. eauto.
  - (* i_refs *) eauto.
  - (* i_refd *) eauto.
Qed.

(* Writes and fsyncs of an open temp file change the data of its private inode only. *)
Lemma Inv_tmp_data : forall g s s' d n c0 b0 i c b, Inv g s ->
  tmps g (T d n) = Some (c0, b0) -> vE s (T d n) = Some i ->
  vE s' = vE s -> dE s' = dE s -> next s' = next s ->
  vD s' i = c -> (b = true -> dD s' i = c) -> (forall j, j <> i -> vD s' j = vD s j /\ dD s' j = dD s j) ->
  Inv (mkGhost (upd_t (tmps g) (T d n) (Some (c, b))) (st g) (refd g)) s'.
Proof.
  intros g s s' d n c0 b0 i c b I Ht H1 Ev Ed En Hc Hb Ho.
  destruct (i_tsome _ _ I d n c0 b0 Ht) as [i' [H1' [_ [_ [H4 H5]]]]].
  assert (i' = i) by congruence. subst i'. clear H1'.
  (* no final name, visible or durable, leads to the temp's inode *)
  assert (HP : forall d' n' j, vE s (P d' n') = Some j \/ dE s (P d' n') = Some j -> vD s' j = vD s j /\ dD s' j = dD s j).
  { intros d' n' j [H|H]; apply Ho; intro E; subst; destruct (H4 d' n'); congruence. }
  destruct I as [Ifresh Itnone Itsome Ivol Ilinked Idur Isealed Ifreshname Iptr Irefs Irefd].
  constructor; simpl; rewrite ?Ev, ?Ed, ?En; auto.    (* the fields that mention neither tmps nor data are unchanged *)
  - (* i_tnone *) intros d0 n0 H. unfold upd_t in H. destruct (path_eqb (T d0 n0) (T d n)); [discriminate|auto].
  - (* i_tsome *) intros d0 n0 c1 b1 H. unfold upd_t in H. destruct (path_eqb_spec (T d0 n0) (T d n)) as [E|E].
    + inversion E; subst. inversion H; subst. exists i. repeat split; auto; apply H4.
    + destruct (Itsome d0 n0 c1 b1 H) as [j [J1 [J2 [J3 [J4 J5]]]]].
      assert (Hj : j <> i) by (intro; subst; eapply H5; eauto). destruct (Ho j Hj) as [A B].
      exists j. rewrite A, B. repeat split; auto; apply J4.
  - (* i_vol *) intros d0 n0 j H. destruct (HP d0 n0 j (or_introl H)) as [A B]. rewrite A, B. eauto.
  - (* i_dur *) intros d0 n0 j c1 b1 J1 J2 J3. destruct (HP d0 n0 j (or_intror J1)) as [A B]. rewrite B. eauto.
  - (* i_sealed *) intros d0 n0 j H. destruct (HP d0 n0 j (or_intror H)) as [A B]. rewrite A, B. eauto.
  - (* i_ptr *) intros j r J1. destruct (HP 0 0 j (or_intror J1)) as [A B]. rewrite B. eauto.
Qed.

Lemma Inv_write : forall g s d n c0 b0 w, tmps g (T d n) = Some (c0, b0) -> Inv g s ->
  exists s', step s (Write (T d n) w) = Some s' /\ Inv (mkGhost (upd_t (tmps g) (T d n) (Some (c0 ++ w, false))) (st g) (refd g)) s'.
Proof.
  intros g s d n c0 b0 w Ht I.
  destruct (i_tsome _ _ I d n c0 b0 Ht) as [i [H1 [H2 _]]].
  simpl. rewrite H1. eexists; split; [reflexivity|].
  apply (Inv_tmp_data g s _ d n c0 b0 i _ _ I Ht H1); simpl; auto.
  - rewrite upd_d_same. now rewrite H2.
  - discriminate.
  - intros j Hj. now rewrite upd_d_other.
Qed.

Lemma Inv_fsync : forall g s d n c0 b0, tmps g (T d n) = Some (c0, b0) -> Inv g s ->
  exists s', step s (Fsync (T d n)) = Some s' /\ Inv (mkGhost (upd_t (tmps g) (T d n) (Some (c0, true))) (st g) (refd g)) s'.
Proof.
  intros g s d n c0 b0 Ht I.
  destruct (i_tsome _ _ I d n c0 b0 Ht) as [i [H1 [H2 _]]].
  simpl. rewrite H1. eexists; split; [reflexivity|].
  apply (Inv_tmp_data g s _ d n c0 b0 i _ _ I Ht H1); simpl; auto.
  - intros _. now rewrite upd_d_same.
  - intros j Hj. now rewrite upd_d_other.
Qed.

Lemma Inv_rename : forall g s d n d' n' c0,
  tmps g (T d n) = Some (c0, true) -> forallb (ref_ok g) (refs c0) = true ->
  st g (P d' n') = Fresh \/ (exists c b, st g (P d' n') = Linked c b) /\ P d' n' = PTR -> Inv g s ->
  exists s', step s (Rename (T d n) (P d' n')) = Some s'
    /\ Inv (mkGhost (upd_t (tmps g) (T d n) None) (upd_s (st g) (P d' n') (Linked c0 false))
                    (fun x => refd g x || existsb (path_eqb x) (refs c0))) s'.
Proof.
  intros g s d n d' n' c0 Ht Hr Hq I.
  destruct (i_tsome _ _ I d n c0 true Ht) as [i [H1 [H2 [H3 [H4 H5]]]]]. specialize (H3 eq_refl).
  simpl. rewrite H1. eexists; split; [reflexivity|].
  rewrite forallb_forall in Hr.
  assert (Hrefq : forall r, In r (refs c0) -> r <> P d' n').
  { intros r Hin E. subst r. destruct (ref_ok_spec _ _ (Hr _ Hin)) as [_ [A [c B]]].
    destruct Hq as [Hq|[_ Hq]]; congruence. }
  destruct I as [Ifresh Itnone Itsome Ivol Ilinked Idur Isealed Ifreshname Iptr Irefs Irefd]. constructor; simpl.
  - (* i_fresh *) intros x j [H|H]; [|eauto]. unfold upd_e in H.
    destruct (path_eqb x (P d' n')); [inversion H; subst; eauto|]. destruct (path_eqb x (T d n)); [discriminate|eauto].
  - (* i_tnone *) intros d0 n0 H. rewrite upd_e_other by discriminate. unfold upd_t in H. unfold upd_e.
    destruct (path_eqb (T d0 n0) (T d n)); auto.
  - (* i_tsome *) intros d0 n0 c b H. unfold upd_t in H. destruct (path_eqb_spec (T d0 n0) (T d n)) as [E|E]; [discriminate|].
    destruct (Itsome d0 n0 c b H) as [j [J1 [J2 [J3 [J4 J5]]]]].
    assert (j <> i) by (intro; subst; eapply H5; eauto).
    exists j. rewrite upd_e_other by discriminate. rewrite upd_e_other by auto.
    split; [exact J1|]. split; [exact J2|]. split; [exact J3|]. split.
    + (* no final name leads to j, visibly (the one renamed onto leads to i <> j) or durably *)
      intros d1 n1. split; [|apply J4].
      unfold upd_e. destruct (path_eqb (P d1 n1) (P d' n')); [congruence|]. rewrite peq_PT. apply J4.
    + (* no other temp leads to j *)
      intros d1 n1 Hne. rewrite upd_e_other by discriminate. unfold upd_e.
      destruct (path_eqb (T d1 n1) (T d n)); [discriminate|auto].
  - (* i_vol *) intros d0 n0 j H. unfold upd_e in H. unfold upd_s.
    destruct (path_eqb_spec (P d0 n0) (P d' n')) as [E|E].
    + inversion H; subst. eauto.
    + rewrite peq_PT in H. eauto.
  - (* i_linked *) intros d0 n0 c b H. unfold upd_s in H. unfold upd_e.
    destruct (path_eqb_spec (P d0 n0) (P d' n')) as [E|E].
    + inversion H; subst. exists i. split; auto. discriminate.
    + rewrite peq_PT. eauto.
  - (* i_dur *) intros d0 n0 j c b J1 J2 J3. unfold upd_s in J3.
    destruct (path_eqb_spec (P d0 n0) (P d' n')) as [E|E]; [|eauto].
    inversion E; subst. destruct Hq as [Hq|[_ Hq]]; [|congruence].
    destruct (Ifreshname _ _ Hq). congruence.
  - (* i_sealed *) eauto.
  - (* i_freshname *) intros d0 n0 H. unfold upd_s in H. unfold upd_e.
    destruct (path_eqb_spec (P d0 n0) (P d' n')) as [E|E]; [discriminate|]. rewrite peq_PT. eauto.
  - (* i_ptr *) intros j r J1 J2. rewrite (Iptr j r J1 J2). reflexivity.
  - (* i_refs *) intros d0 n0 c b r H Hin. unfold upd_s in H.
    destruct (path_eqb_spec (P d0 n0) (P d' n')) as [E|E].
    + inversion H; subst. apply orb_true_iff. right. now apply mem_In.
    + rewrite (Irefs _ _ _ _ _ H Hin). reflexivity.
  - (* i_refd *) intros r H. apply orb_true_iff in H.
    assert (Hx : is_final r = true /\ r <> PTR /\ exists c, st g r = Linked c true).
    { destruct H as [H|H]; [eauto|]. apply mem_In in H. apply ref_ok_spec. auto. }
    destruct Hx as [A [B [c C]]]. repeat split; auto. exists c.
    rewrite upd_s_other; auto. intro E. subst r. destruct Hq as [Hq|[_ Hq]]; congruence.
Qed.

Lemma Inv_fsyncdir : forall g s dd, Inv g s ->
  exists s', step s (FsyncDir dd) = Some s'
    /\ Inv (mkGhost (tmps g)
                    (fun x => if dir_of x =? dd then match st g x with Linked c0 _ => Linked c0 true | o => o end else st g x)
                    (refd g)) s'.
Proof.
  intros g s dd I. simpl. eexists; split; [reflexivity|].
  apply (Inv_persist _ _ s _ I); simpl; auto.
  - intro x. destruct (dir_of x =? dd); auto.
  - intro x. destruct (dir_of x =? dd); auto. destruct (st g x) as [|c b|]; auto. right. eauto.
Qed.

Lemma Inv_unlink_P : forall g s d n c0 b0, refd g (P d n) = false -> st g (P d n) = Linked c0 b0 -> Inv g s ->
  exists s', step s (Unlink (P d n)) = Some s' /\ Inv (mkGhost (tmps g) (upd_s (st g) (P d n) Dead) (refd g)) s'.
Proof.
  intros g s d n c0 b0 Hrf Hs I.
  destruct (i_linked _ _ I d n c0 b0 Hs) as [i [H1 H2]].
  simpl. rewrite H1. eexists; split; [reflexivity|].
  destruct I as [Ifresh Itnone Itsome Ivol Ilinked Idur Isealed Ifreshname Iptr Irefs Irefd]. constructor; simpl; auto.
  - (* i_fresh *) intros x j [H|H]; [|eauto]. unfold upd_e in H. destruct (path_eqb x (P d n)); [discriminate|eauto].
  - (* i_tsome *) intros d0 n0 c b Ht. destruct (Itsome d0 n0 c b Ht) as [j [J1 [J2 [J3 [J4 J5]]]]].
    exists j. unfold upd_e. rewrite peq_TP. split; [exact J1|]. split; [exact J2|]. split; [exact J3|]. split; [|exact J5].
    intros d' n'. split; [|apply J4]. destruct (path_eqb (P d' n') (P d n)); [discriminate|apply J4].
  - (* i_vol *) intros d0 n0 j H. unfold upd_e in H. unfold upd_s.
    destruct (path_eqb (P d0 n0) (P d n)); [discriminate|eauto].
  - (* i_linked *) intros d0 n0 c b H. unfold upd_s in H. unfold upd_e.
    destruct (path_eqb (P d0 n0) (P d n)); [discriminate|eauto].
  - (* i_dur *) intros d0 n0 j c b J1 J2 J3. unfold upd_s in J3.
    destruct (path_eqb (P d0 n0) (P d n)); [discriminate|eauto].
  - (* i_freshname *) intros d0 n0 H. unfold upd_s in H. unfold upd_e.
    destruct (path_eqb (P d0 n0) (P d n)); [discriminate|eauto].
  - (* i_refs *) intros d0 n0 c b r H Hin. unfold upd_s in H.
    destruct (path_eqb (P d0 n0) (P d n)); [discriminate|eauto].
  - (* i_refd *) intros r H. destruct (Irefd r H) as [A [B [c C]]]. repeat split; auto. exists c.
    rewrite upd_s_other; auto. intro E. subst r. congruence.
Qed.

Lemma Inv_unlink_T : forall g s d n c0 b0, tmps g (T d n) = Some (c0, b0) -> Inv g s ->
  exists s', step s (Unlink (T d n)) = Some s' /\ Inv (mkGhost (upd_t (tmps g) (T d n) None) (st g) (refd g)) s'.
Proof.
  intros g s d n c0 b0 Ht I.
  destruct (i_tsome _ _ I d n c0 b0 Ht) as [i [H1 _]].
  simpl. rewrite H1. eexists; split; [reflexivity|].
  destruct I as [Ifresh Itnone Itsome Ivol Ilinked Idur Isealed Ifreshname Iptr Irefs Irefd]. constructor; simpl; auto.
  - (* i_fresh *) intros x j [H|H]; [|eauto]. unfold upd_e in H. destruct (path_eqb x (T d n)); [discriminate|eauto].
  - (* i_tnone *) intros d0 n0 H. unfold upd_t in H. unfold upd_e. destruct (path_eqb (T d0 n0) (T d n)); auto.
  - (* i_tsome *) intros d0 n0 c b H. unfold upd_t in H. unfold upd_e at 1.
    destruct (path_eqb_spec (T d0 n0) (T d n)) as [E|E]; [discriminate|].
    destruct (Itsome d0 n0 c b H) as [j [J1 [J2 [J3 [J4 J5]]]]].
    exists j. repeat split; auto; try apply J4.
    intros d1 n1 Hne. unfold upd_e. destruct (path_eqb (T d1 n1) (T d n)); [discriminate|auto].
Qed.

Theorem Inv_call : forall g s c g', check g c = Some g' -> Inv g s ->
  exists s', step s c = Some s' /\ Inv g' s'.
Proof.
  intros g s c g' Hc I.
  destruct (check_inv _ _ _ Hc) as [c t v [d n H|d n c0 b w H|d n c0 b H|d n c0 b H]|d n d' n' c0 Ht Hr Hq|dd|d n c0 b _ Hrf Hs|dd].
  - (* Create *) now apply Inv_create.
  - (* Write *) now apply Inv_write with b.
  - (* Fsync *) now apply Inv_fsync with b.
  - (* Unlink of a temp *) now apply Inv_unlink_T with c0 b.
  - (* Rename *) now apply Inv_rename.
  - (* FsyncDir *) now apply Inv_fsyncdir.
  - (* Unlink of a final name *) now apply Inv_unlink_P with c0 b.
  - (* Mkdir *) simpl. eauto.
Qed.

Local Transparent path_eqb.

Lemma checks_app : forall tr1 tr2 g, checks g (tr1 ++ tr2) =
  match checks g tr1 with Some g1 => checks g1 tr2 | None => None end.
Proof.
  induction tr1 as [|c tr1 IH]; intros tr2 g; simpl; [reflexivity|].
  destruct (check g c); auto.
Qed.

Lemma checks_prefix : forall tr n g g', checks g tr = Some g' ->
  exists g1, checks g (firstn n tr) = Some g1 /\ checks g1 (skipn n tr) = Some g'.
Proof.
  intros tr n g g' H. rewrite <- (firstn_skipn n tr) in H at 1. rewrite checks_app in H.
  destruct (checks g (firstn n tr)); [eauto|discriminate].
Qed.

(* reachability in the ghost: follow the references of the contents recorded for linked names (what Durable.tree_reach
   follows in a tree) *)
Inductive greach (g : ghost) : path -> path -> Prop :=
| greach_self : forall k, greach g k k
| greach_step : forall k k1 k2 c b, greach g k k1 -> st g k1 = Linked c b -> In k2 (refs c) -> greach g k k2.

Lemma refd_refs : forall g s k c b r, Inv g s -> refd g k = true -> st g k = Linked c b -> In r (refs c) -> refd g r = true.
Proof.
  intros g s k c b r I Hk Hs Hr. destruct (i_refd _ _ I _ Hk) as [Hf _]. destruct k; [|discriminate].
  eapply (i_refs _ _ I); eauto.
Qed.

Lemma refd_closed : forall g s k k', Inv g s -> greach g k k' -> refd g k = true -> refd g k' = true.
Proof.
  intros g s k k' I H. induction H as [|k k1 k2 c b H IH Hs Hin]; intro Hk; [exact Hk|].
  exact (refd_refs _ _ _ _ _ _ I (IH Hk) Hs Hin).
Qed.

Lemma refd_durable : forall g s k, Inv g s -> refd g k = true ->
  exists c i, st g k = Linked c true /\ k <> PTR /\ dE s k = Some i /\ dD s i = c /\ vE s k = Some i /\ vD s i = c.
Proof.
  intros g s k I H. destruct (i_refd _ _ I _ H) as [Hf [Hp [c Hc]]]. destruct k as [d n|]; [|discriminate].
  destruct (i_linked _ _ I d n c true Hc) as [i [H1 H2]]. specialize (H2 eq_refl).
  exists c, i. repeat split; auto.
  - eapply (i_dur _ _ I); eauto.
  - destruct (i_vol _ _ I d n i H1) as [c' [b' [E1 [E2 E3]]]]. congruence.
Qed.

(* the ghost-side twin of Inv_safe below (reachability through the contents the ghost records, greach); the C16 theorems go
   through Inv_safe *)
Theorem Inv_pointer_safe : forall g s i, Inv g s -> dE s PTR = Some i ->
  vD s i = dD s i /\
  forall r, In r (refs (dD s i)) -> forall k, greach g r k ->
    exists c j, st g k = Linked c true /\ k <> PTR /\ dE s k = Some j /\ dD s j = c.
Proof.
  intros g s i I Hi. split; [eapply (i_sealed _ _ I); eauto|].
  intros r Hr k Hk. assert (Hrf : refd g r = true) by (eapply (i_ptr _ _ I); eauto).
  pose proof (refd_closed _ _ _ _ I Hk Hrf) as Hkf.
  destruct (refd_durable _ _ _ I Hkf) as [c [j [A [B [C [D _]]]]]]. exists c, j. auto.
Qed.

Theorem Inv_safe : forall g s, Inv g s -> safe_state s.
Proof.
  intros g s I i Hi. split; [symmetry; eapply (i_sealed _ _ I); eauto|].
  intros r Hr k Hk. assert (Hrf : refd g r = true) by (eapply (i_ptr _ _ I); eauto).
  assert (Hkf : refd g k = true).
  { clear Hr. induction Hk as [k|v k k' c Hk IH Hc Hin]; auto.
    specialize (IH Hrf). destruct (refd_durable _ _ _ I IH) as [c' [j [A [B [C [D _]]]]]].
    unfold content_at, power_loss in Hc. rewrite C in Hc. inversion Hc; subst.
    eapply refd_refs; eauto. }
  destruct (refd_durable _ _ _ I Hkf) as [c [j [A [B [C [D [E F]]]]]]].
  exists c. unfold content_at, power_loss. rewrite C, E, D, F. auto.
Qed.

(* A program read as a chain of assertions: each holds between two calls, survives every background event and implies
   Safe; each call is enabled in the assertion before it and establishes the one after it. *)
Definition stable (Q : fs -> Prop) : Prop := forall s b, Q s -> Q (bg_step s b).

Inductive chain (Safe : fs -> Prop) : (fs -> Prop) -> list call -> (fs -> Prop) -> Prop :=
| ch_nil : forall Q, stable Q -> (forall s, Q s -> Safe s) -> chain Safe Q [] Q
| ch_cons : forall Q Q' Q'' c tr, stable Q -> (forall s, Q s -> Safe s) ->
    (forall s, Q s -> exists s', step s c = Some s' /\ Q' s') -> chain Safe Q' tr Q'' -> chain Safe Q (c :: tr) Q''.

Lemma chain_head : forall Safe Q tr Q', chain Safe Q tr Q' -> stable Q /\ forall s, Q s -> Safe s.
Proof. intros Safe Q tr Q' []; auto. Qed.

Lemma chain_app : forall Safe Q tr1 Q' tr2 Q'', chain Safe Q tr1 Q' -> chain Safe Q' tr2 Q'' -> chain Safe Q (tr1 ++ tr2) Q''.
Proof. induction 1; simpl; intro; [assumption|]. apply ch_cons with Q'; auto. Qed.

Lemma chain_run : forall Safe es Q tr Q' s k, chain Safe Q tr Q' -> Q s -> calls_of es = firstn k tr ->
  exists s', run s es = Some s' /\ Safe s' /\ ((length tr <= k)%nat -> Q' s').
Proof.
  induction es as [|[c|b] es IH]; intros Q tr Q' s k Hch HQ Hes; simpl in *.
  - exists s. destruct (chain_head _ _ _ _ Hch) as [_ Hs]. repeat split; auto.
    intro Hk. rewrite firstn_all2 in Hes by exact Hk. subst tr. inversion Hch; subst. exact HQ.
  - destruct k as [|k]; [discriminate|]. destruct Hch as [|Q Q1 Q2 c' tr _ _ Hc Hch]; [discriminate|].
    simpl in Hes. inversion Hes; subst c'. destruct (Hc s HQ) as [s1 [S1 HQ1]]. rewrite S1.
    destruct (IH _ _ _ s1 k Hch HQ1) as [s' [Hr [Hs Hd]]]; auto. exists s'. repeat split; auto.
    intro Hk. apply Hd. simpl in Hk. lia.
  - destruct (chain_head _ _ _ _ Hch) as [Hb _]. eapply IH; eauto.
Qed.

Lemma checks_chain : forall tr g g', checks g tr = Some g' -> chain safe_state (Inv g) tr (Inv g').
Proof.
  induction tr as [|c tr IH]; intros g g' H; simpl in H.
  - inv_some. apply ch_nil; [intros s b; apply Inv_bg|apply Inv_safe].
  - destruct (check g c) as [g1|] eqn:E; [|discriminate].
    apply ch_cons with (Inv g1); [intros s b; apply Inv_bg|apply Inv_safe| |auto].
    intros s I. exact (Inv_call _ _ _ _ E I).
Qed.

Theorem Inv_run : forall es g s g', checks g (calls_of es) = Some g' -> Inv g s ->
  exists s', run s es = Some s' /\ Inv g' s'.
Proof.
  intros es g s g' Hc I.
  destruct (chain_run _ es _ _ _ s (length (calls_of es)) (checks_chain _ _ _ Hc) I) as [s' [Hr [_ Hd]]];
    [now rewrite firstn_all|eauto].
Qed.
