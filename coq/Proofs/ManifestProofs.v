(* Proofs/ManifestProofs.v -- manifest rewrites are invisible: after ANY history of committed transactions (appends of
   several files, deletes that keep / rewrite / drop manifests, both at once) the data files a scan finds, WITH the column
   bounds pruning reads, are those of the flat list specification -- and therefore every scan API returns the SQL answer
   on the rows of the live files (Props/C12.v, C12_history_sql).

   The lemmas down to `survives_spec` are the INTERFACE of the regenerated kernels (Gen/GenManifest.v): what follows them uses
   gen_store_* / gen_load_* / gen_survives / gen_rewrite_decision only through these lemmas.  They are re-proved on every run
   against what the translator has just read off create_manifest_file / read_manifest_file / _commit_file_ops: if an entry's bounds stop
   going through a codec pair that round-trips, or the decision keeps a manifest from which a file was deleted, the lemma
   (and with it the C12_history_... theorems) fails to check. *)
From Coq Require Import String.
From Coq Require Import QArith List Lia.
Require Import DS.Model.Value DS.Model.BoundPrim DS.Gen.GenBound DS.Model.Bound DS.Proofs.BoundProofs.
Require Import DS.Model.ManifestBase DS.Gen.GenManifest.
Require DS.Proofs.ListFacts.
Require Import DS.Model.Prune DS.Proofs.PruneProofs.
Require Import DS.Model.Filter DS.Proofs.FilterProofs DS.Model.Manifest.
Import ListNotations.
Open Scope Z_scope.

(* bounds a writer can produce: no NULL (an all-NULL column has no entry at all) *)
Definition nonnull_bounds (bs : list (Z * value)) : Prop := forall k v, In (k, v) bs -> is_null v = false.

Lemma codec_roundtrip_map (bs : list (Z * value)) :
  nonnull_bounds bs ->
  map (fun kv => (fst kv, dec (snd kv))) (map (fun kv : Z * value => (fst kv, enc (snd kv))) bs) = bs.
Proof.
  intro NN. apply (bounds_map_roundtrip (fun k : Z => k) (fun k : Z => k)); [reflexivity|].
  intros k v I. unfold boundable. rewrite (NN k v I). reflexivity.
Qed.

(* what is written for an entry and read back is the entry's bounds: on BOTH sides, for added and carried-over entries *)
Lemma load_store_lower bs : nonnull_bounds bs -> gen_load_lower (gen_store_lower bs) = bs.
Proof. unfold gen_load_lower, gen_store_lower. apply codec_roundtrip_map. Qed.

Lemma load_store_upper bs : nonnull_bounds bs -> gen_load_upper (gen_store_upper bs) = bs.
Proof. unfold gen_load_upper, gen_store_upper. apply codec_roundtrip_map. Qed.

Lemma decoded_nonnull (sb : list (Z * (string * jpayload))) : nonnull_bounds (map (fun kv => (fst kv, dec (snd kv))) sb).
Proof. intros k v I. apply in_map_iff in I. destruct I as [[k' e] [[= _ <-] _]]. apply dec_nonnull. Qed.

Lemma load_lower_nonnull sb : nonnull_bounds (gen_load_lower sb).
Proof. apply decoded_nonnull. Qed.

Lemma load_upper_nonnull sb : nonnull_bounds (gen_load_upper sb).
Proof. apply decoded_nonnull. Qed.

(* a manifest is referenced again as it is only when nothing was deleted from it; left out only when nothing survives *)
Lemma decision_keep s n : gen_rewrite_decision s n = RKeep -> s = n.
Proof.
  unfold gen_rewrite_decision. destruct (Nat.eqb_spec s n); auto. destruct (Nat.ltb 0 s); discriminate.
Qed.

Lemma decision_drop s n : gen_rewrite_decision s n = RDrop -> s = 0%nat.
Proof.
  unfold gen_rewrite_decision. destruct (Nat.eqb_spec s n); [discriminate|].
  destruct (Nat.ltb_spec 0 s); [discriminate|]. lia.
Qed.

Lemma survives_spec del p : gen_survives del p = negb (zmem p del).
Proof. reflexivity. Qed.

Definition clean (d : dfile) : Prop := nonnull_bounds (dlo d) /\ nonnull_bounds (dhi d).

Lemma load_store d : clean d -> load (store d) = d.
Proof.
  intros [L H]. destruct d as [p f lo hi]. unfold load, store. simpl in *.
  rewrite load_store_lower, load_store_upper; auto.
Qed.

Lemma load_clean e : clean (load e).
Proof. split; [apply load_lower_nonnull | apply load_upper_nonnull]. Qed.

(* a second trip through a manifest changes nothing any more: what a rewrite carries over is what a reader saw before *)
Lemma load_store_load e : load (store (load e)) = load e.
Proof. apply load_store. apply load_clean. Qed.

Lemma load_store_all ds : Forall clean ds -> map load (map store ds) = ds.
Proof. induction 1 as [|d ds C _ IH]; simpl; [reflexivity|]. rewrite (load_store d C), IH. reflexivity. Qed.

Definition alive (del : list Z) (d : dfile) : bool := negb (zmem (dpath d) del).

Lemma view_rewrite del m :
  map load (concat (rewrite_manifest del m)) = filter (alive del) (map load m).
Proof.
  unfold rewrite_manifest.
  rewrite (filter_ext _ (alive del) (fun d => survives_spec del (dpath d))).
  destruct (gen_rewrite_decision (length (filter (alive del) (map load m))) (length (map load m))) eqn:D; simpl.
  - rewrite app_nil_r. apply decision_keep in D. symmetry. apply ListFacts.filter_length_eq. exact D.
  - rewrite app_nil_r. apply load_store_all, Forall_forall. intros d I. apply filter_In in I. destruct I as [I _].
    apply in_map_iff in I. destruct I as [e [<- _]]. apply load_clean.
  - apply decision_drop in D. destruct (filter (alive del) (map load m)); [reflexivity|discriminate].
Qed.

Lemma view_deletes del st :
  map load (concat (flat_map (rewrite_manifest del) st)) = filter (alive del) (map load (concat st)).
Proof.
  induction st as [|m st IH]; simpl; auto.
  rewrite concat_app, !map_app, filter_app, IH, view_rewrite. reflexivity.
Qed.

Lemma view_commit st t :
  Forall clean (tx_app t) -> map load (concat (commit_tx st t)) = spec_tx (map load (concat st)) t.
Proof.
  intro C. unfold commit_tx, spec_tx. rewrite concat_app, map_app. f_equal.
  - change (fun d : dfile => negb (zmem (dpath d) (tx_del t))) with (alive (tx_del t)).
    destruct (tx_del t) as [|p del] eqn:Del.
    + symmetry. apply ListFacts.filter_all_true. reflexivity.
    + apply view_deletes.
  - destruct (tx_app t) as [|a l] eqn:App; [reflexivity|].
    change (concat [map store (a :: l)]) with (map store (a :: l) ++ []). rewrite app_nil_r.
    exact (load_store_all (a :: l) C).
Qed.

Theorem view_run txs : forall st,
  (forall t, In t txs -> Forall clean (tx_app t)) ->
  map load (concat (run txs st)) = spec_run txs (map load (concat st)).
Proof.
  induction txs as [|t txs IH]; intros st C; [reflexivity|].
  unfold run, spec_run in *. simpl. rewrite IH by (intros; apply C; right; auto).
  rewrite view_commit by (apply C; left; auto). reflexivity.
Qed.

Definition paths (ds : list dfile) : list Z := map dpath ds.

Lemma dedup_id ds : forall seen,
  NoDup (paths ds) -> (forall d, In d ds -> ~ In (dpath d) seen) -> dedup seen ds = ds.
Proof.
  induction ds as [|a ds IH]; intros seen ND Fr; [reflexivity|].
  simpl. unfold zmem at 1. rewrite (proj2 (ListFacts.existsb_eqb_not_In Z Z.eqb Z.eqb_eq _ _)) by (apply Fr; left; auto). f_equal.
  inversion ND as [|? ? NI ND']; subst. apply IH; auto.
  intros d I [Q|S].
  - apply NI. rewrite Q. unfold paths. apply in_map. exact I.
  - apply (Fr d (or_intror I) S).
Qed.

Lemma nodup_filter_app {A} (p : A -> bool) (f : A -> Z) l R :
  NoDup (map f l ++ R) -> NoDup (map f (filter p l) ++ R).
Proof.
  rewrite !ListFacts.NoDup_app. intros [Hl [HR D]]. split; [apply ListFacts.NoDup_map_filter; exact Hl|].
  split; [exact HR|]. intros x Hx. apply D. revert Hx. apply incl_map, incl_filter.
Qed.

Lemma spec_run_nodup txs : forall fs,
  NoDup (paths fs ++ paths (concat (map tx_app txs))) -> NoDup (paths (spec_run txs fs)).
Proof.
  induction txs as [|t txs IH]; intros fs ND.
  - simpl in *. rewrite app_nil_r in ND. exact ND.
  - unfold spec_run in *. simpl. apply IH. unfold spec_tx, paths in *. simpl in ND.
    rewrite map_app in ND. rewrite map_app, <- app_assoc. apply nodup_filter_app. exact ND.
Qed.

Lemma spec_run_in txs : forall fs d,
  In d (spec_run txs fs) -> In d fs \/ exists t, In t txs /\ In d (tx_app t).
Proof.
  induction txs as [|t txs IH]; intros fs d I; [left; exact I|].
  unfold spec_run in *. simpl in I. apply IH in I. destruct I as [I|[t' [I1 I2]]].
  - unfold spec_tx in I. apply in_app_or in I. destruct I as [I|I].
    + apply filter_In in I. left; tauto.
    + right. exists t. split; [left|]; auto.
  - right. exists t'. split; [right|]; auto.
Qed.

(* each path once: its first entry (Table._get_all_data_files) *)
Theorem history_files txs :
  (forall t, In t txs -> Forall clean (tx_app t)) ->
  table_files (run txs []) = dedup [] (spec_run txs []).
Proof. intros C. unfold table_files. rewrite view_run by exact C. reflexivity. Qed.

Lemma dedup_in ds : forall seen d, In d (dedup seen ds) -> In d ds.
Proof.
  induction ds as [|a ds IH]; intros seen d I; [exact I|].
  simpl in I. destruct (zmem (dpath a) seen).
  - right. eapply IH; eauto.
  - destruct I as [Q|I]; [left; exact Q|right; eapply IH; eauto].
Qed.

(* the bounds a writer computes are never NULL (PruneProofs.file_bounds_nonnull): the files it hands over are clean *)
Lemma written_clean ids p f : wf_file ids (frows f) -> clean (written ids p f).
Proof.
  intro WF. split; intros k v I; apply (file_bounds_nonnull ids (frows f) k v WF); [left|right]; exact I.
Qed.

(* every transaction appends files as the writer produces them: exact bounds, one kind per column *)
Definition appends_written (ids : list (Z * Z)) (txs : list tx) : Prop :=
  forall t d, In t txs -> In d (tx_app t) -> wf_file ids (frows (dfile_ d)) /\ d = written ids (dpath d) (dfile_ d).

Lemma appends_clean ids txs : appends_written ids txs -> forall t, In t txs -> Forall clean (tx_app t).
Proof.
  intros AW t I. apply Forall_forall. intros d Id. destruct (AW t d I Id) as [WF Q]. rewrite Q. apply written_clean. exact WF.
Qed.

(* a bounds function that gives pruning what the manifests hold gives it, for every file a scan finds, the bounds the
   writer computed: pruning is safe (C13), whatever rewrites the entries went through *)
Lemma history_bounds_safe X ids bounds txs es :
  NoDup (map snd ids) -> appends_written ids txs ->
  (forall d, In d (table_files (run txs [])) -> bounds (dfile_ d) = manifest_bounds d) ->
  forall f, In f (map dfile_ (table_files (run txs []))) -> prune_safe X ids bounds es f.
Proof.
  intros ND AW Bo f I. apply in_map_iff in I. destruct I as [d [<- I]].
  unfold prune_safe. rewrite (Bo d I).
  rewrite (history_files txs (appends_clean ids txs AW)) in I.
  apply dedup_in, spec_run_in in I. destruct I as [[]|[t [I1 I2]]]. destruct (AW t d I1 I2) as [WF Q].
  destruct d as [p f lo hi]. cbn [dfile_ dpath manifest_bounds fst snd] in *. unfold written in Q. injection Q as -> ->.
  exact (stored_bounds_safe X ids es f ND WF).
Qed.
