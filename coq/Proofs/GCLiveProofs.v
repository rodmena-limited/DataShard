(* Proofs/GCLiveProofs.v -- fault-free runs: no abort on an undamaged store, and orphans ARE removed. *)
From Coq Require Import ZArith String List.
Require Import DS.Model.PyStr DS.Gen.GenNorm DS.Model.GC DS.Proofs.PyStrProofs DS.Proofs.GCNormProofs DS.Proofs.GCProofs.
Import ListNotations.
Open Scope string_scope.
Open Scope Z_scope.

Definition undamaged (snaps : list string) (st : store) : Prop :=
  (forall k, ref_list snaps k -> exists ms, list_at st k ms) /\
  (forall k, ref_manifest snaps st k -> exists es, manifest_at st k es).

Lemma nf_exists : forall g k, do_exists no_faults g k =
  (Some (is_some (lookup k (g_store g))), mkG (S (g_calls g)) (g_store g) ((KExists k, None) :: g_trace g)).
Proof. reflexivity. Qed.
Lemma nf_stat : forall g k, do_stat no_faults g k =
  (option_map mtime (lookup k (g_store g)), mkG (S (g_calls g)) (g_store g) ((KStat k, None) :: g_trace g)).
Proof. reflexivity. Qed.
Lemma nf_read : forall g k, do_read no_faults g k =
  (option_map body (lookup k (g_store g)), mkG (S (g_calls g)) (g_store g) ((KRead k, None) :: g_trace g)).
Proof. reflexivity. Qed.
Lemma nf_listdir : forall g p, do_listdir no_faults g p =
  (Some (list_dir p (g_store g)), mkG (S (g_calls g)) (g_store g) ((KListDir p, None) :: g_trace g)).
Proof. reflexivity. Qed.
Lemma nf_delete : forall g k, do_delete no_faults g k =
  (Some tt, mkG (S (g_calls g)) (remove_key k (g_store g)) ((KDelete k, None) :: g_trace g)).
Proof. reflexivity. Qed.

Lemma nf_open : forall g k, do_open no_faults g k =
  (match lookup k (g_store g) with Some ob => OContent (body ob) | None => OCaught end,
   mkG (S (g_calls g)) (g_store g) ((KOpen k, None) :: g_trace g)).
Proof. reflexivity. Qed.

Lemma read_one_nf : forall w g k xs, holds w (g_store g) k xs -> exists g', read_one w no_faults g k = (Some xs, g').
Proof.
  intros w g k xs H.
  assert (L: exists ob, lookup k (g_store g) = Some ob /\ as_w w (body ob) = Some xs) by (destruct w; exact H).
  destruct L as [ob [L B]]. unfold read_one.
  rewrite nf_exists, L. cbn [is_some]. rewrite nf_exists. cbn [g_store]. rewrite L. cbn [is_some].
  rewrite nf_open. cbn [g_store]. rewrite L.
  destruct (parse_complete w (body ob) xs B) as [A|[A J]]; rewrite A; [eauto|].
  unfold read_fallback. rewrite nf_read. cbn [g_store]. rewrite L. cbn [option_map]. rewrite J. eauto.
Qed.

Lemma read_all_nf : forall w ks g, (forall k, In k ks -> exists xs, holds w (g_store g) k xs) ->
  exists ys g', read_all w no_faults g ks = (Some ys, g').
Proof.
  intros w ks. induction ks as [|k r IH]; intros g H; simpl.
  - eauto.
  - destruct (H k (or_introl eq_refl)) as [xs Hx]. destruct (read_one_nf w g k xs Hx) as [g1 E1]. rewrite E1.
    pose proof (read_one_store _ _ _ _ _ _ E1) as S1.
    destruct (IH g1) as [ys [g2 E2]].
    { intros k2 Hk2. rewrite S1. apply H. right. exact Hk2. }
    rewrite E2. eauto.
Qed.

Lemma sweep_loop_no_abort : forall tp cutoff keep o (ks : list key) g dels,
  (forall k, In k ks -> escapes (normalize_path tp k) = false) ->
  fst (fst (sweep_loop tp cutoff keep o g ks dels)) = false.
Proof.
  intros tp cutoff keep o ks. induction ks as [|k r IH]; intros g dels H; [reflexivity|].
  assert (H': forall k0, In k0 r -> escapes (normalize_path tp k0) = false) by (intros; apply H; right; assumption).
  destruct (sweep_loop_cons tp cutoff keep o g k r dels) as [[EX _]|[[g1 [_ E]]|[g2 [ob [_ [_ [_ [_ E]]]]]]]].
  - rewrite (H k (or_introl eq_refl)) in EX. discriminate.
  - rewrite E. apply IH. exact H'.
  - rewrite E. apply IH. exact H'.
Qed.

Lemma sweep_loop_live : forall tp cutoff keep ks g dels dels' g',
  sweep_loop tp cutoff keep no_faults g ks dels = (false, dels', g') ->
  forall k ob, In k ks -> str_mem (normalize_path tp k) keep = false -> lookup k (g_store g) = Some ob -> mtime ob < cutoff ->
  In k dels'.
Proof.
  intros tp cutoff keep ks. induction ks as [|k0 r IH]; intros g dels dels' g' H k ob Hin Hm L Old; [contradiction|].
  cbn [sweep_loop] in H. cbv zeta in H. destruct (escapes (normalize_path tp k0)); [discriminate|].
  destruct (string_dec k k0) as [->|NE].
  - rewrite Hm in H. rewrite nf_stat, L in H. cbn [option_map] in H.
    assert (E: (mtime ob <? cutoff) = true) by (apply Z.ltb_lt; exact Old). rewrite E, nf_delete in H.
    (* the key is in the deleted list the rest of the loop starts from, and the loop only adds to that list *)
    destruct (sweep_loop_removes _ _ _ _ (fun _ => True) _ _ _ _ _ _ (fun _ _ => I) H) as [R [-> _]]. apply in_or_app. right. left. reflexivity.
  - destruct Hin as [E|Hin]; [congruence|].
    destruct (str_mem (normalize_path tp k0) keep); [eapply IH; eauto|].
    rewrite nf_stat in H. destruct (lookup k0 (g_store g)) as [ob0|] eqn:L0; cbn [option_map] in H.
    + destruct (mtime ob0 <? cutoff).
      * rewrite nf_delete in H. eapply IH; eauto. cbn [g_store]. rewrite lookup_remove_other by exact NE. exact L.
      * eapply IH; eauto.
    + eapply IH; eauto.
Qed.

Lemma sweep_nf : forall tp grace now keep g prefix dels,
  (forall k, startswith (prefix ++ "/") k = true -> table_relative k) ->
  exists dels' g', sweep tp grace now keep no_faults g prefix dels = (false, dels', g') /\
    forall k ob, startswith (prefix ++ "/") k = true -> ~ In k keep -> lookup k (g_store g) = Some ob -> mtime ob < now - grace -> In k dels'.
Proof.
  intros tp grace now keep g prefix dels HP. unfold sweep. rewrite nf_listdir.
  set (g1 := mkG (S (g_calls g)) (g_store g) ((KListDir prefix, None) :: g_trace g)).
  (* a listed key is its own normal form, and does not escape *)
  assert (NE: forall k, In k (list_dir prefix (g_store g)) -> escapes (normalize_path tp k) = false).
  { intros k Hk. apply in_list_dir in Hk. pose proof (HP k (proj2 Hk)) as TR.
    rewrite norm_table_relative by exact TR. apply table_relative_not_escape. exact TR. }
  pose proof (sweep_loop_no_abort tp (now - grace) keep no_faults _ g1 dels NE) as B.
  destruct (sweep_loop tp (now - grace) keep no_faults g1 (list_dir prefix (g_store g)) dels) as [[b dels'] g'] eqn:E.
  cbn [fst] in B. subst b. exists dels', g'. split; [reflexivity|].
  intros k ob Hp NK L Old. apply (sweep_loop_live _ _ _ _ _ _ _ _ E k ob); [|  |exact L|exact Old].
  - apply in_list_dir. split; [eapply lookup_In_keys; eauto|exact Hp].
  - rewrite norm_table_relative by exact (HP k Hp). apply str_mem_false. exact NK.
Qed.

(* the other inclusion, for every oracle: GCProofs.marker_targets_cover *)
Lemma marker_targets_nf : forall tp g mk ob T g', marker_targets tp no_faults g mk (basename mk) = (T, g') ->
  markers_wf (g_store g) -> lookup mk (g_store g) = Some ob -> is_marker_key mk -> forall k, In k T -> marker_denotes mk ob k.
Proof.
  intros tp g mk ob T g' ET W L M k Hk. unfold marker_targets in ET. rewrite nf_read, L in ET. cbn [option_map] in ET.
  unfold marker_denotes. rewrite <- marker_fallback_covers.
  destruct (body ob) as [| | |[t|]| | | |? ?] eqn:B; try (injection ET as <- _; exact Hk).
  destruct (nonempty t) eqn:N; injection ET as <- _; [|exact Hk].
  destruct Hk as [<-|[]]. exact (norm_candidate tp mk t (W mk ob t L M B N)).
Qed.

Lemma markers_loop_nf_prot : forall tp cutoff ms g prot prot' g',
  markers_loop tp cutoff no_faults g ms prot = (prot', g') ->
  markers_wf (g_store g) -> NoDup ms ->
  (forall mp, In mp ms -> startswith (INFLIGHT_PATH ++ "/") mp = true /\ exists ob, lookup mp (g_store g) = Some ob) ->
  forall k, In k prot' -> In k prot \/
    exists mk ob, lookup mk (g_store g) = Some ob /\ is_marker_key mk /\ cutoff <= mtime ob /\ marker_denotes mk ob k.
Proof.
  intros tp cutoff ms. induction ms as [|mp r IH]; intros g prot prot' g' H W ND HM k Hk.
  - simpl in H. inversion H; subst. auto.
  - destruct (HM mp (or_introl eq_refl)) as [Hp [ob L]]. inversion ND as [|? ? Hnotin ND']; subst.
    assert (TR: table_relative mp) by (apply listed_inflight_relative; exact Hp).
    cbn [markers_loop] in H. cbv zeta in H. rewrite norm_table_relative in H by exact TR. rewrite nf_stat, L in H. cbn [option_map] in H.
    (* the rest of the listing, run from a smaller store that still holds all of it *)
    assert (REST: forall g1 p, store_le (g_store g1) (g_store g) -> (forall mp0, In mp0 r -> lookup mp0 (g_store g1) = lookup mp0 (g_store g)) ->
              markers_loop tp cutoff no_faults g1 r p = (prot', g') ->
              In k p \/ exists mk ob', lookup mk (g_store g) = Some ob' /\ is_marker_key mk /\ cutoff <= mtime ob' /\ marker_denotes mk ob' k).
    { intros g1 p LE SAME H1. destruct (IH g1 p prot' g' H1) with (k := k) as [R|[mk [ob' [L' R]]]]; auto.
      - eapply markers_wf_le; eauto.
      - intros mp0 Hin. rewrite (SAME mp0 Hin). apply HM. right. exact Hin.
      - right. exists mk, ob'. split; [apply LE; exact L'|exact R]. }
    destruct (endswith INFLIGHT_SUFFIX (basename mp)) eqn:EE; cbn [negb] in H;
      [|(* not a marker name: skipped *) apply (REST _ prot) in H; [exact H|apply store_le_refl|reflexivity]].
    destruct (marker_targets tp no_faults _ mp (basename mp)) as [T g2] eqn:ET.
    pose proof (marker_targets_store _ _ _ _ _ _ _ ET) as S2. cbn [g_store] in S2.
    destruct (cutoff <=? mtime ob) eqn:EA.
    + apply (REST _ (T ++ prot)%list) in H; [|rewrite S2; apply store_le_refl|rewrite S2; reflexivity].
      destruct H as [R|R]; [|right; exact R]. apply in_app_or in R. destruct R as [R|R]; [right|left; exact R].
      exists mp, ob. split; [exact L|]. split; [split; assumption|]. split; [apply Z.leb_le; exact EA|].
      exact (marker_targets_nf _ _ _ _ _ _ ET W L (conj Hp EE) k R).
    + rewrite nf_delete in H. apply (REST _ prot) in H; [exact H| |]; cbn [g_store]; rewrite S2.
      * apply store_le_remove.
      * intros mp0 Hin. apply lookup_remove_other. intros ->. contradiction.
Qed.

Lemma load_protection_nf : forall tp timeout now g, exists prot g', load_protection tp timeout now no_faults g = (Some prot, g').
Proof.
  intros. unfold load_protection. rewrite nf_listdir.
  destruct (markers_loop tp (now - timeout) no_faults _ (list_dir INFLIGHT_PATH (g_store g)) []) as [p g2]. eauto.
Qed.

Lemma load_protection_nf_live : forall tp timeout now g prot g',
  load_protection tp timeout now no_faults g = (Some prot, g') -> markers_wf (g_store g) -> NoDup (map fst (g_store g)) ->
  forall k, In k prot -> live_target now timeout (g_store g) k.
Proof.
  intros tp timeout now g prot g' H W ND k Hk. unfold load_protection in H. rewrite nf_listdir in H.
  destruct (markers_loop tp (now - timeout) no_faults _ (list_dir INFLIGHT_PATH (g_store g)) []) as [p g2] eqn:EM.
  inversion H; subst p g2. eapply markers_loop_nf_prot in EM; eauto.
  - destruct EM as [[]|[mk [ob [L [M [F D]]]]]]. exists mk, ob. auto.
  - apply NoDup_filter. exact ND.
  - intros mp Hmp. apply in_list_dir in Hmp. destruct Hmp as [A B]. split; [exact B|]. apply In_keys_lookup. exact A.
Qed.

Lemma undamaged_transfer : forall now timeout snaps st st1, wf_store snaps st -> only_markers_removed now timeout st st1 ->
  undamaged snaps st -> undamaged snaps st1.
Proof.
  intros now timeout snaps st st1 WF OM [UL UM]. destruct (referenced_le snaps st1 st (proj1 OM)) as [RM _]. split.
  - intros k R. destruct (UL k R) as [ms [ob [L B]]]. exists ms, ob. split; [|exact B].
    exact (only_markers_keeps_swept _ _ _ _ _ _ OM L (referenced_swept snaps st WF k (or_introl R))).
  - intros k R. apply RM in R. destruct (UM k R) as [es [ob [L B]]]. exists es, ob. split; [|exact B].
    exact (only_markers_keeps_swept _ _ _ _ _ _ OM L (referenced_swept snaps st WF k (or_intror (or_introl R)))).
Qed.

(* for every oracle; reach_nf is the converse without faults *)
Lemma reach_ok_undamaged : forall snaps st rl rm rd, reach_ok_spec snaps st rl rm rd -> undamaged snaps st.
Proof.
  intros snaps st rl rm rd RC. split; intros k R.
  - exact (rr_lists _ _ _ _ _ RC k (proj2 (r_lists _ _ _ _ _ RC k) R)).
  - exact (rr_manifests _ _ _ _ _ RC k (proj2 (r_manifests _ _ _ _ _ RC k) R)).
Qed.

Lemma reach_nf : forall tp snaps g, wf_store snaps (g_store g) -> undamaged snaps (g_store g) ->
  exists rl rm rd g', reach tp no_faults snaps g = (ROk rl rm rd, g').
Proof.
  intros tp snaps g WF [UL UM]. unfold reach.
  destruct (read_all_nf WList (norm_set tp snaps) g) as [mp [g1 RL]].
  { intros k Hk. apply (lists_exact tp snaps (g_store g) WF) in Hk. destruct (UL k Hk) as [ms Hms]. exists ms. exact Hms. }
  rewrite RL. assert (S1: g_store g1 = g_store g) by (exact (read_all_store _ _ _ _ _ _ RL)).
  destruct (read_all_nf WManifest (norm_set tp mp) g1) as [es [g2 RM]].
  { intros k Hk. apply (manifests_exact tp snaps (g_store g) WF no_faults g g1 mp eq_refl RL) in Hk.
    destruct (UM k Hk) as [xs Hxs]. exists xs. rewrite S1. exact Hxs. }
  rewrite RM. eauto.
Qed.

Lemma sweeps_nf_done : forall tp grace now rl rm rd prot g, r_out (sweeps tp grace now no_faults rl rm rd prot g) = Done.
Proof.
  intros. unfold sweeps.
  destruct (sweep_nf tp grace now (rd ++ prot) g DATA_PREFIX [] listed_data_relative) as (d1 & g4 & -> & _).
  destruct (sweep_nf tp grace now ((rm ++ rl) ++ prot) g4 MANIFESTS_PREFIX d1 listed_manifests_relative) as (d2 & g5 & -> & _).
  reflexivity.
Qed.

Lemma sweeps_nf_live : forall tp grace now rl rm rd prot g k ob,
  lookup k (g_store g) = Some ob ->
  startswith (DATA_PREFIX ++ "/") k = true \/ startswith (MANIFESTS_PREFIX ++ "/") k = true ->
  ~ In k rd -> ~ In k rm -> ~ In k rl -> ~ In k prot -> mtime ob < now - grace ->
  In k (r_deleted (sweeps tp grace now no_faults rl rm rd prot g)).
Proof.
  intros tp grace now rl rm rd prot g k ob L Hpre ND NM NL NP Old. unfold sweeps.
  destruct (sweep_nf tp grace now (rd ++ prot) g DATA_PREFIX [] listed_data_relative) as (d1 & g4 & SW1 & LV1). rewrite SW1.
  destruct (sweep_nf tp grace now ((rm ++ rl) ++ prot) g4 MANIFESTS_PREFIX d1 listed_manifests_relative) as (d2 & g5 & SW2 & LV2). rewrite SW2.
  cbn [r_deleted].
  destruct (sweep_removes _ _ _ _ _ _ _ _ _ _ _ SW1) as [R1 [_ A]]. destruct (sweep_removes _ _ _ _ _ _ _ _ _ _ _ SW2) as [R2 [E2 _]].
  destruct Hpre as [Hp|Hp].
  - (* deleted by the data sweep; the manifest sweep only adds to the list *)
    rewrite E2. apply in_or_app. right. apply (LV1 k ob Hp); [|exact L|exact Old].
    intro Hin. apply in_app_or in Hin. tauto.
  - assert (L4: lookup k (g_store g4) = Some ob).
    { destruct (lookup k (g_store g4)) as [ob4|] eqn:E.
      - apply (removes_le _ _ _ _ A) in E. congruence.
      - (* the data sweep took keys under data/ only *)
        destruct (removes_lost _ _ _ _ A k ob L E) as [_ [[Hd| ->] _]]; [|discriminate]. exfalso.
        apply startswith_spec in Hd. destruct Hd as [r ->]. discriminate. }
    apply (LV2 k ob Hp); [|exact L4|exact Old].
    intro Hin. apply in_app_or in Hin. destruct Hin as [Hin|Hin]; [|tauto]. apply in_app_or in Hin. tauto.
Qed.

Theorem gc_no_abort_from : forall mf tp grace now timeout snaps g0,
  wf_store snaps (g_store g0) -> undamaged snaps (g_store g0) -> r_out (gc_run_from mf tp grace now timeout no_faults snaps g0) = Done.
Proof.
  intros mf tp grace now timeout snaps g0 WF U. unfold gc_run_from. destruct mf.
  - destruct (load_protection_nf tp timeout now g0) as [prot [g1 LP]]. rewrite LP.
    destruct (proj1 (load_protection_removes _ _ _ _ _ _ _ LP)) as [M R].
    pose proof (removes_wf _ _ _ _ _ WF R) as WF1.
    destruct (reach_nf tp snaps g1 WF1 (undamaged_transfer _ _ _ _ _ WF (removes_only_markers _ _ _ _ _ R) U)) as [rl [rm [rd [g2 RE]]]]. rewrite RE. apply sweeps_nf_done.
  - destruct (reach_nf tp snaps g0 WF U) as [rl [rm [rd [g1 RE]]]]. rewrite RE.
    destruct (load_protection_nf tp timeout now g1) as [prot [g2 LP]]. rewrite LP. apply sweeps_nf_done.
Qed.

Theorem gc_live_from : forall mf tp grace now timeout snaps g0,
  wf_store snaps (g_store g0) -> r_out (gc_run_from mf tp grace now timeout no_faults snaps g0) = Done ->
  forall k ob, lookup k (g_store g0) = Some ob ->
    startswith (DATA_PREFIX ++ "/") k = true \/ startswith (MANIFESTS_PREFIX ++ "/") k = true ->
    ~ referenced snaps (g_store g0) k -> ~ live_target now timeout (g_store g0) k -> mtime ob < now - grace ->
    In k (r_deleted (gc_run_from mf tp grace now timeout no_faults snaps g0)).
Proof.
  intros mf tp grace now timeout snaps g0 WF.
  pose proof (wf_markers _ _ WF : markers_wf (g_store g0)) as MW.
  destruct (gc_run_from_phases mf tp grace now timeout no_faults snaps g0) as [E|(rl & rm & rd & prot & g3 & -> & AS)].
  { intro D. destruct (se_abort E) as [A|[A|A]]; rewrite D in A; discriminate. }
  destruct (sweeps_start_of_at_sweeps _ _ _ _ _ _ _ _ _ _ _ WF AS) as [RC O3 _]. destruct (as_prot AS) as (gp & gp' & LP & Sp & S3).
  rewrite <- Sp in MW. pose proof (load_protection_nf_live _ _ _ _ _ _ LP MW) as PL. rewrite Sp in PL.
  (* what reachability found is referenced, what protection holds is live: k is in none of the keep sets *)
  intros _ k ob L Hpre NR NL Old.
  apply (sweeps_nf_live tp grace now rl rm rd prot g3 k ob (only_markers_keeps_swept _ _ _ _ _ _ O3 L Hpre) Hpre); [| | | |exact Old].
  - (* not in rd *) intro Hin. apply NR. right. right. exact (proj1 (r_data _ _ _ _ _ RC k) Hin).
  - (* not in rm *) intro Hin. apply NR. right. left. exact (proj1 (r_manifests _ _ _ _ _ RC k) Hin).
  - (* not in rl *) intro Hin. apply NR. left. exact (proj1 (r_lists _ _ _ _ _ RC k) Hin).
  - (* not in prot *) intro Hin. apply NL. apply PL; [exact (wf_nodup _ _ WF)|exact Hin].
Qed.
