(* Proofs/HintStoreProofs.v -- recovery over rendered listings, and the store machine's invariant (C10).

   On a listing of rendered names the scan is `arec`, which returns the FIRST LISTED file among those of the highest
   (version, mtime) (arec_exact, arec_first_top); everything else said about recovery follows from that.  The machine
   has one invariant, InvL, over histories in which never-published files may stay behind (outcome `FailCommitPoint
   false`: process death / KeyboardInterrupt between the metadata write and the pointer write, an ambiguous conditional
   PUT, a failed best-effort removal); resolve_safe is resolution in such a store under the hypothesis `safe_use`.
   Clean histories are those histories in which every stored file is published (reachable_clean_lv), so the theorems
   about them are instances. *)
From Coq Require Import ZArith Lia List Bool Permutation.
Require Import DS.Model.HintPrim DS.Gen.GenHint DS.Model.Hint DS.Model.HintStore.
Require Import DS.Proofs.HintProofs DS.Proofs.HintUnusableProofs.
Import ListNotations.
Open Scope N_scope.

Lemma name_eqb_refl : forall a, name_eqb a a = true.
Proof. intro a. apply codes_eqb_refl. Qed.

Lemma name_eqb_codes : forall a b, name_eqb a b = true <-> codes a = codes b.
Proof. intros. apply codes_eqb_eq. Qed.

Lemma name_eqb_sym : forall a b, name_eqb a b = name_eqb b a.
Proof. intros a b. apply eq_true_iff_eq. rewrite !name_eqb_codes. split; intro H; symmetry; exact H. Qed.

(* not used below: name_eqb reads its left argument through its codes only *)
Lemma name_eqb_trans_l : forall a b c, codes a = codes b -> name_eqb a c = name_eqb b c.
Proof. intros a b c H. unfold name_eqb. rewrite H. reflexivity. Qed.

Definition wf_file (f : mfile) : Prop := wf_id (fid f) = true /\ printable (fver f) = true.

(* _recover_version_from_files seen on files instead of paths *)
Fixpoint arec (fs : list mfile) (best : option mfile) : option mfile :=
  match fs with
  | [] => best
  | f :: r =>
    match best with
    | None => arec r (Some f)
    | Some b =>
      if fver b <? fver f then arec r (Some f)
      else if fver f =? fver b then (if (fmt b <? fmt f)%Z then arec r (Some f) else arec r best)
      else arec r best
    end
  end.

(* `res_of b`, `bm_of b`: the values of the loop's `best` and `best_mtime` when the best file so far is b (-1 with none, as
   Model/Hint.v `recover` starts) *)
Definition res_of (b : option mfile) : option (N * list cp) := option_map (fun f => (fver f, fname f)) b.
Definition bm_of (b : option mfile) : Z := match b with Some f => fmt f | None => (-1)%Z end.

Lemma recover_loop_refines : forall fs best, Forall wf_file fs ->
  recover_loop (map entry_of fs) (res_of best) (bm_of best) = RRet (res_of (arec fs best)).
Proof.
  induction fs as [|f fs IH]; intros best Hwf; [reflexivity|].
  inversion Hwf as [|? ? [Hid Hpr] Hrest]; subst.
  cbn [map recover_loop entry_of epath].
  rewrite (rsplit_render_path _ _ Hid), parent_ok_metadata, (re_match_render _ _ Hid), (py_int_digits _ Hpr).
  change (mt (entry_of f)) with (fmt f).
  cbn [arec]. destruct best as [b|]; cbn [res_of option_map bm_of].
  - destruct (fver b <? fver f).
    + apply (IH (Some f) Hrest).
    + destruct (fver f =? fver b).
      * destruct (fmt b <? fmt f)%Z; [apply (IH (Some f) Hrest)|apply (IH (Some b) Hrest)].
      * apply (IH (Some b) Hrest).
  - apply (IH (Some f) Hrest).
Qed.

Lemma recover_refines : forall fs, Forall wf_file fs ->
  recover (map entry_of fs) = RRet (res_of (arec fs None)).
Proof. intros fs H. exact (recover_loop_refines fs None H). Qed.

(* `below` and `not_above` are the strict and the weak side of the order on (version, mtime) *)
Lemma rank_total : forall f x, below f x \/ not_above x f.
Proof. intros f x. unfold below, not_above. lia. Qed.

Lemma below_not_above : forall f x, below f x -> not_above f x.
Proof. intros f x. unfold below, not_above. lia. Qed.

Lemma not_above_trans : forall f x y, not_above f x -> not_above x y -> not_above f y.
Proof. intros f x y. unfold not_above. lia. Qed.

Lemma below_antisym : forall f x, below f x -> not_above x f -> False.
Proof. intros f x. unfold below, not_above. lia. Qed.

Lemma not_above_le : forall f x, not_above f x -> fver f <= fver x.
Proof. intros f x. unfold not_above. lia. Qed.

(* The three comparisons of the loop decide `below b f`: the listed file replaces the best one so far exactly when the
   best so far ranks below it. *)

Lemma arec_replace : forall f r b, below b f -> arec (f :: r) (Some b) = arec r (Some f).
Proof.
  intros f r b [Hlt|[Heq Hmt]]; cbn [arec].
  - replace (fver b <? fver f) with true by lia. reflexivity.
  - replace (fver b <? fver f) with false by lia. replace (fver f =? fver b) with true by lia.
    replace (fmt b <? fmt f)%Z with true by lia. reflexivity.
Qed.

Lemma arec_retain : forall f r b, not_above f b -> arec (f :: r) (Some b) = arec r (Some b).
Proof.
  intros f r b [Hlt|[Heq Hmt]]; cbn [arec].
  - replace (fver b <? fver f) with false by lia. replace (fver f =? fver b) with false by lia. reflexivity.
  - replace (fver b <? fver f) with false by lia. replace (fver f =? fver b) with true by lia.
    replace (fmt b <? fmt f)%Z with false by lia. reflexivity.
Qed.

Lemma arec_keep : forall l x, (forall f, In f l -> not_above f x) -> arec l (Some x) = Some x.
Proof.
  induction l as [|f l IH]; intros x H; [reflexivity|].
  rewrite arec_retain by (apply H; left; reflexivity). apply IH. intros g Hg. apply H. right. exact Hg.
Qed.

Lemma arec_climb : forall l1 b x l2, (forall f, In f l1 -> below f x) -> below b x ->
  arec (l1 ++ x :: l2) (Some b) = arec l2 (Some x).
Proof.
  induction l1 as [|f l1 IH]; intros b x l2 H1 Hb; cbn [app]; [apply arec_replace; exact Hb|].
  assert (H1' : forall g, In g l1 -> below g x) by (intros g Hg; apply H1; right; exact Hg).
  destruct (rank_total b f) as [Hbf|Hfb].
  - rewrite (arec_replace _ _ _ Hbf). apply IH; [exact H1'|apply H1; left; reflexivity].
  - rewrite (arec_retain _ _ _ Hfb). apply IH; [exact H1'|exact Hb].
Qed.

Theorem arec_exact : forall l1 x l2,
  (forall f, In f l1 -> below f x) -> (forall f, In f l2 -> not_above f x) -> arec (l1 ++ x :: l2) None = Some x.
Proof.
  intros l1 x l2 H1 H2. destruct l1 as [|f l1]; cbn [app arec]; [apply arec_keep; exact H2|].
  rewrite arec_climb; [apply arec_keep; exact H2| |apply H1; left; reflexivity].
  intros g Hg. apply H1. right. exact Hg.
Qed.

Lemma arec_decomp : forall fs, fs <> [] ->
  exists l1 x l2, fs = l1 ++ x :: l2 /\ (forall f, In f l1 -> below f x) /\ (forall f, In f l2 -> not_above f x).
Proof.
  induction fs as [|f r IH]; intro H; [contradiction|].
  destruct r as [|g r'].
  - exists [], f, []. split; [reflexivity|]. split; intros ? [].
  - destruct IH as [l1 [x [l2 [E [H1 H2]]]]]; [discriminate|].
    destruct (rank_total f x) as [B|NB].
    + exists (f :: l1), x, l2. split; [cbn [app]; rewrite E; reflexivity|].
      split; [intros h [<-|Hh]; auto|exact H2].
    + exists [], f, (g :: r'). split; [reflexivity|]. split; [intros ? []|].
      intros h Hh. rewrite E in Hh. apply in_app_iff in Hh. destruct Hh as [Hh|[<-|Hh]].
      * exact (not_above_trans h x f (below_not_above h x (H1 h Hh)) NB).
      * exact NB.
      * exact (not_above_trans h x f (H2 h Hh) NB).
Qed.

Lemma arec_nonempty : forall fs, fs <> [] -> exists r, arec fs None = Some r.
Proof.
  intros fs H. destruct (arec_decomp fs H) as [l1 [x [l2 [-> [H1 H2]]]]]. exists x. apply arec_exact; assumption.
Qed.

Lemma arec_first_top : forall fs r, arec fs None = Some r ->
  exists l1 l2, fs = l1 ++ r :: l2 /\ (forall f, In f l1 -> below f r) /\ (forall f, In f l2 -> not_above f r).
Proof.
  intros fs r H. destruct fs as [|f fs']; [discriminate H|].
  destruct (arec_decomp (f :: fs')) as [l1 [x [l2 [E [H1 H2]]]]]; [discriminate|].
  rewrite E, (arec_exact l1 x l2 H1 H2) in H. injection H as <-. exists l1, l2. auto.
Qed.

Lemma arec_top : forall fs r, arec fs None = Some r -> In r fs /\ forall f, In f fs -> not_above f r.
Proof.
  intros fs r H. destruct (arec_first_top fs r H) as [l1 [l2 [-> [H1 H2]]]]. split; [apply in_elt|].
  intros f Hf. apply in_app_iff in Hf. destruct Hf as [Hf|[<-|Hf]].
  - exact (below_not_above f r (H1 f Hf)).
  - right. split; [reflexivity|apply Z.le_refl].
  - exact (H2 f Hf).
Qed.

Lemma mfile_eq_dec : forall a b : mfile, {a = b} + {a <> b}.
Proof.
  decide equality; try apply N.eq_dec; try apply Z.eq_dec; try apply bool_dec;
    apply (list_eq_dec N.eq_dec).
Qed.

Lemma arec_others_below : forall fs L, In L fs -> others_below fs L -> arec fs None = Some L.
Proof.
  intros fs L HL Hb. destruct (arec_nonempty fs) as [r E]; [intro; subst; contradiction|].
  destruct (arec_top fs r E) as [Hr Htop]. destruct (mfile_eq_dec r L) as [->|D]; [exact E|].
  destruct (below_antisym r L (Hb r Hr D) (Htop L HL)).
Qed.

Lemma recover_some : forall fs v name, Forall wf_file fs -> recover (map entry_of fs) = RRet (Some (v, name)) ->
  exists r, arec fs None = Some r /\ v = fver r /\ name = fname r.
Proof.
  intros fs v name Hwf H. rewrite (recover_refines fs Hwf) in H.
  destruct (arec fs None) as [r|]; [|discriminate H]. injection H as <- <-. exists r. auto.
Qed.

Lemma recover_others_below : forall fs L, Forall wf_file fs -> In L fs -> others_below fs L ->
  recover (map entry_of fs) = RRet (Some (fver L, fname L)).
Proof. intros fs L Hwf HL Hb. rewrite (recover_refines fs Hwf), (arec_others_below fs L HL Hb). reflexivity. Qed.

Lemma path_eq_name : forall v id name,
  codes_eqb (codes (render_path v id)) (meta_path_of name) = name_eqb (render_name v id) name.
Proof.
  intros. unfold render_path, meta_path_of, name_eqb.
  rewrite codes_app, codes_lit. cbn [codes map app code acp].
  rewrite codes_eqb_app_l. cbn [codes_eqb]. rewrite N.eqb_refl. reflexivity.
Qed.

Lemma exists_meta_files : forall name fs,
  exists_meta name (map entry_of fs) = true <-> exists f, In f fs /\ name_eqb (fname f) name = true.
Proof.
  intros name fs. rewrite <- existsb_exists. apply eq_iff_eq_true.
  unfold exists_meta. induction fs as [|f fs IH]; [reflexivity|].
  cbn [map existsb entry_of epath]. rewrite path_eq_name, IH. reflexivity.
Qed.

Lemma higher_version_fresh : forall fs n, Forall wf_file fs -> wf_file n -> (forall f, In f fs -> fver f < fver n) ->
  fresh_name fs n.
Proof.
  intros fs n Hwf [Hn Pn] Hlt f Hf. rewrite Forall_forall in Hwf. destruct (Hwf f Hf) as [Hid Hpr].
  destruct (name_eqb (fname f) (fname n)) eqn:E; [exfalso|reflexivity].
  apply name_eqb_codes, (render_codes_version _ _ _ _ Hid Hpr Hn Pn) in E. specialize (Hlt f Hf). lia.
Qed.

Lemma find_unique : forall fs L name, names_unique fs -> In L fs -> name_eqb (fname L) name = true ->
  find_file name fs = Some L.
Proof.
  intros fs L name U HL Hn. unfold find_file. destruct (find _ fs) as [f|] eqn:E.
  - apply find_some in E. destruct E as [Hin Hfn]. f_equal. apply U; auto.
    apply name_eqb_codes. apply name_eqb_codes in Hfn. apply name_eqb_codes in Hn. congruence.
  - pose proof (find_none _ _ E L HL) as H. cbv beta in H. rewrite Hn in H. discriminate H.
Qed.

(* What _current_version_info does on a directory of rendered files, taken apart once: the pointer parses and names a
   listed file, which is trusted as it is; or the pointer is unusable and the scan runs. *)
Inductive resolved (p : option (option (list cp))) (fs : list mfile) : rres -> Prop :=
| Res_trusted v name f : read_hint p = PRet (Some (v, name)) -> In f fs -> name_eqb (fname f) name = true ->
    resolved p fs (RRet (Some (v, name)))
| Res_scan : unusable p fs -> resolved p fs (RRet (res_of (arec fs None))).

Lemma resolve_view : forall p fs, Forall wf_file fs -> resolved p fs (resolve p (map entry_of fs)).
Proof.
  intros p fs Hwf. unfold resolve. destruct (read_hint_total p) as [[[v name]|] Hr]; rewrite Hr.
  - destruct (exists_meta name (map entry_of fs)) eqn:E.
    + apply exists_meta_files in E. destruct E as [f [Hf Hn]]. exact (Res_trusted p fs v name f Hr Hf Hn).
    + rewrite (recover_refines fs Hwf). apply Res_scan. right. eauto.
  - rewrite (recover_refines fs Hwf). apply Res_scan. left. exact Hr.
Qed.

Theorem resolves_to_listed : forall fs p v name,
  Forall wf_file fs -> resolve p (map entry_of fs) = RRet (Some (v, name)) ->
  exists f, In f fs /\ name_eqb (fname f) name = true.
Proof.
  intros fs p v name Hwf H. destruct (resolve_view p fs Hwf) as [v' name' f _ Hf Hn|_].
  - injection H as <- <-. eauto.
  - destruct (arec fs None) as [r|] eqn:E; [|discriminate H]. injection H as _ <-.
    exists r. split; [apply (arec_top fs r E)|apply name_eqb_refl].
Qed.

Lemma resolve_nil : forall p, resolve p [] = RRet None.
Proof.
  intro p. change (resolve p (map entry_of []) = RRet None).
  destruct (resolve_view p [] (Forall_nil _)) as [v name f _ []|_]. reflexivity.
Qed.

Lemma refresh_empty : forall p, refresh_of p [] = RfNone.
Proof. intro p. unfold refresh_of. cbn [map]. rewrite resolve_nil. reflexivity. Qed.

Lemma refresh_none_nil : forall fs p, Forall wf_file fs -> refresh_of p fs = RfNone -> fs = [].
Proof.
  intros fs p Hwf R. unfold refresh_of in R. destruct (resolve_view p fs Hwf) as [v name f _ _ _|_].
  - destruct (find_file name fs); discriminate R.
  - destruct fs as [|f r]; [reflexivity|]. destruct (arec_nonempty (f :: r)) as [x E]; [discriminate|].
    rewrite E in R. cbn [res_of option_map] in R. destruct (find_file _ _); discriminate R.
Qed.

Lemma create_existing : forall st id t pos uuid o,
  Forall wf_file (files st) -> files st <> [] -> step st (ECreate id t pos uuid o) = st.
Proof.
  intros st id t pos uuid o Hwf Hne. cbn [step]. destruct (refresh st) eqn:R; [reflexivity| |reflexivity].
  destruct (Hne (refresh_none_nil _ _ Hwf R)).
Qed.

Lemma unusable_names_none : forall p fs v name f,
  unusable p fs -> read_hint p = PRet (Some (v, name)) -> In f fs -> name_eqb (fname f) name = true -> False.
Proof.
  intros p fs v name f [Hp|[v' [name' [Hp He]]]] Hr Hf Hn; rewrite Hp in Hr; [discriminate Hr|].
  injection Hr as <- <-. assert (X : exists_meta name' (map entry_of fs) = true) by (apply exists_meta_files; eauto).
  rewrite X in He. discriminate He.
Qed.

Lemma unusable_not_stale : forall p st, unusable p (files st) -> ~ stale p st.
Proof. intros p st Hu [v [name [f [Hr [Hf [Hn _]]]]]]. exact (unusable_names_none p _ v name f Hu Hr Hf Hn). Qed.

Lemma not_stale_of_classified : forall p st,
  Forall wf_file (files st) -> ascii_classified p -> ~ stale p st -> not_stale p st.
Proof.
  intros p st Hwf Hcl Hns. unfold not_stale. destruct (read_hint p) as [|[[v name]|]] eqn:R; auto.
  intros f Hf Hn. split.
  - (* f is the latest published file, or the pointer is stale *)
    assert (D : {glatest st = Some f} + {glatest st <> Some f}) by (decide equality; apply mfile_eq_dec).
    destruct D as [E|D]; [exact E|]. destruct Hns. exists v, name, f. repeat split; assumption.
  - (* undecodable, or no pointer file: read_hint is PRet None *)
    destruct p as [[text|]|]; [|discriminate R|discriminate R]. cbn [read_hint] in R.
    rewrite Forall_forall in Hwf. destruct (Hwf f Hf) as [Hid Hpr]. apply name_eqb_codes in Hn.
    exact (version_of_hinted text v name _ _ Hcl Hid Hpr R Hn).
Qed.

Lemma not_stale_sound : forall p st, not_stale p st -> ~ stale p st.
Proof.
  intros p st H [v [name [f [Hr [Hf [Hn Hl]]]]]]. unfold not_stale in H. rewrite Hr in H.
  apply Hl. apply (H f Hf Hn).
Qed.

Lemma insert_at_in : forall A (x y : A) pos l, In x (insert_at pos y l) <-> x = y \/ In x l.
Proof.
  intros A x y pos l. unfold insert_at. rewrite in_app_iff. cbn [In].
  rewrite <- (firstn_skipn pos l) at 3. rewrite in_app_iff. intuition.
Qed.

Lemma insert_at_forall : forall A (P : A -> Prop) y pos l, P y -> Forall P l -> Forall P (insert_at pos y l).
Proof.
  intros A P y pos l Hy Hl. apply Forall_forall. intros x Hx. apply insert_at_in in Hx.
  destruct Hx as [->|Hx]; [exact Hy|]. rewrite Forall_forall in Hl. auto.
Qed.

Lemma perm_wf : forall (l fs : list mfile), Permutation l fs -> Forall wf_file fs -> Forall wf_file l.
Proof. intros l fs HP. apply Permutation_Forall. apply Permutation_sym. exact HP. Qed.

(* Histories may leave never-published files behind (outcome `FailCommitPoint false`), so what the invariant says of
   versions it says of the PUBLISHED files only. *)
Record InvL (st : store) : Prop := {
  (* every stored name is a rendered one: on the listing the scan is `arec` (recover_refines) *)
  il_wf : Forall wf_file (files st);
  (* reading the resolved name finds L itself (find_unique in resolve_safe); the leftover refutations of Props/C10.v *)
  il_names : names_unique (files st);
  (* nothing published yet: every stored file is a leftover, nothing is acknowledged (safe_use_none, written_create) *)
  il_none : glatest st = None -> (forall f, In f (files st) -> fcom f = false) /\ gacked st = [];
  (* L is stored and published; every other published file has a lower version, so the next version is above them all
     (written_commit) and, leftovers apart, the scan returns L (invL_others_below); L holds exactly the acknowledged
     snapshots (C10_resolve_partial, damage_commit_result) *)
  il_latest : forall L, glatest st = Some L ->
              In L (files st) /\ fcom L = true
              /\ (forall f, In f (files st) -> fcom f = true -> f = L \/ fver f < fver L)
              /\ fsnaps L = gacked st;
  (* a pointer that names a stored file names L, with L's version: the trusted branch of resolve_safe *)
  il_ptr : not_stale (ptr st) st }.

Lemma invL_empty : InvL empty_store.
Proof.
  constructor.
  - (* il_wf *) constructor.
  - (* il_names *) intros f g [].
  - (* il_none *) intros _. split; [intros f []|reflexivity].
  - (* il_latest *) intros L E. discriminate E.
  - (* il_ptr *) exact I.
Qed.

Lemma invL_others_below : forall st L, InvL st -> glatest st = Some L -> leftovers_below st -> others_below (files st) L.
Proof.
  intros st L HI EL Hlb f Hf D. destruct (il_latest _ HI L EL) as [_ [_ [Hmax _]]]. destruct (fcom f) eqn:C.
  - left. destruct (Hmax f Hf C) as [E|H]; [destruct (D E)|exact H].
  - specialize (Hlb f Hf C). rewrite EL in Hlb. exact Hlb.
Qed.

Lemma hint_names_usable : forall p fs L, In L fs -> hint_names p L -> ~ unusable p fs.
Proof.
  intros p fs L HL Hn Hu. unfold hint_names in Hn. destruct (read_hint p) as [|[[v name]|]] eqn:Hr; try contradiction.
  exact (unusable_names_none p fs v name L Hu Hr HL Hn).
Qed.

(* The pointer is trusted only if it names L; otherwise the scan runs, the pointer does not name L, and `safe_use`
   leaves: every other file ranks below L. *)
Lemma resolve_safe : forall st L p l,
  InvL st -> glatest st = Some L -> not_stale p st -> safe_use p st -> Permutation l (files st) ->
  (exists name, resolve p (map entry_of l) = RRet (Some (fver L, name)) /\ codes name = codes (fname L))
  /\ refresh_of p l = RfMeta (fver L) L.
Proof.
  intros st L p l HI EL Hns Hs HP.
  destruct (il_latest _ HI L EL) as [HLin _].
  assert (Hl : forall f, In f l -> In f (files st)) by (intro f; apply Permutation_in; exact HP).
  assert (HLl : In L l) by exact (Permutation_in L (Permutation_sym HP) HLin).
  assert (K : exists name, resolve p (map entry_of l) = RRet (Some (fver L, name)) /\ codes name = codes (fname L)).
  { destruct (resolve_view p l (perm_wf l _ HP (il_wf _ HI))) as [v name f Hp Hf Hn|Hu].
    - unfold not_stale in Hns. rewrite Hp in Hns. destruct (Hns f (Hl f Hf) Hn) as [E ->].
      rewrite EL in E. injection E as <-.
      exists name. split; [reflexivity|]. symmetry. apply name_eqb_codes. exact Hn.
    - exists (fname L). split; [|reflexivity]. rewrite (arec_others_below l L HLl); [reflexivity|].
      intros f Hf. destruct Hs as [[L' [EL' Hn]]|Hlb].
      + rewrite EL in EL'. injection EL' as <-. destruct (hint_names_usable p l L HLl Hn Hu).
      + apply (invL_others_below st L HI EL Hlb). apply Hl. exact Hf. }
  split; [exact K|]. destruct K as [name [Hr Hc]]. unfold refresh_of. rewrite Hr.
  rewrite (find_unique l L name); [reflexivity| |exact HLl|apply name_eqb_codes; symmetry; exact Hc].
  intros f g Hf Hg. apply (il_names _ HI); apply Hl; assumption.
Qed.

Lemma refresh_safe : forall st L p, InvL st -> glatest st = Some L -> not_stale p st -> safe_use p st ->
  refresh_of p (files st) = RfMeta (fver L) L.
Proof. intros st L p HI EL Hns Hs. apply (resolve_safe st L p (files st) HI EL Hns Hs (Permutation_refl _)). Qed.

Lemma safe_use_none : forall st p, InvL st -> glatest st = None -> safe_use p st -> files st = [].
Proof.
  intros st p HI EL [[L [EL' _]]|Hlb]; [rewrite EL in EL'; discriminate EL'|].
  destruct (il_none _ HI EL) as [Hun _].
  destruct (files st) as [|f r] eqn:F; [reflexivity|exfalso].
  assert (Hf : In f (files st)) by (rewrite F; left; reflexivity).
  specialize (Hlb f Hf (Hun f (or_introl eq_refl))). rewrite EL in Hlb. exact Hlb.
Qed.

Lemma names_unique_insert : forall fs n pos, names_unique fs -> fresh_name fs n -> names_unique (insert_at pos n fs).
Proof.
  intros fs n pos U Hfr f g Hf Hg Hn. apply insert_at_in in Hf. apply insert_at_in in Hg.
  destruct Hf as [->|Hf]; destruct Hg as [->|Hg].
  - (* both are n *) reflexivity.
  - (* n and a stored g: their names differ *) rewrite name_eqb_sym, (Hfr g Hg) in Hn. discriminate Hn.
  - (* a stored f and n *) rewrite (Hfr f Hf) in Hn. discriminate Hn.
  - (* both stored *) apply U; assumption.
Qed.

(* what an operation may write into st and publish with the snapshots `acked`: a well-formed, not yet published file
   whose version exceeds every PUBLISHED version *)
Definition fits (st : store) (n : mfile) (acked : list N) : Prop :=
  wf_file n /\ fcom n = false /\ (forall g, In g (files st) -> fcom g = true -> fver g < fver n) /\ fsnaps n = acked.

(* an outcome that leaves nothing behind asks nothing of the file *)
Lemma publish_invL : forall st n pos o acked,
  InvL st -> (writes o -> fits st n acked) ->
  (writes o -> fresh_name (files st) n) -> (o = FailCommitPoint false -> unnamed (ptr st) n) ->
  InvL (publish st n pos o acked).
Proof.
  intros st n pos o acked HI Hfit Hfr Hun.
  destruct o as [| |[|]]; cbn [publish].
  - (* Ok: the commit point succeeded *)
    destruct (Hfit (or_introl eq_refl)) as [[Hid Hpr] [Hc [Hmax Hsn]]]. set (n' := published n).
    assert (Hwf' : wf_file n') by (split; assumption).
    assert (Hfr' : fresh_name (files st) n') by (apply Hfr; left; reflexivity).
    constructor; cbn [files glatest gacked ptr].
    + (* il_wf *) apply insert_at_forall; [exact Hwf'|apply (il_wf _ HI)].
    + (* il_names *) apply names_unique_insert; [apply (il_names _ HI)|exact Hfr'].
    + (* il_none *) discriminate.
    + (* il_latest: n' is the latest now, above every file published before *)
      intros L E. injection E as <-.
      split; [apply insert_at_in; left; reflexivity|]. split; [reflexivity|]. split; [|exact Hsn].
      intros g Hg Cg. apply insert_at_in in Hg. destruct Hg as [->|Hg]; [left; reflexivity|right; apply Hmax; assumption].
    + (* il_ptr: the pointer holds the name of n', which parses back to it; no other file has that name *)
      unfold not_stale. cbn [read_hint files glatest]. unfold fname at 1. rewrite (parse_write _ _ Hpr Hid).
      intros g Hg Hn. apply insert_at_in in Hg. destruct Hg as [->|Hg]; [split; reflexivity|]. exfalso.
      assert (X : name_eqb (fname g) (fname n') = true) by exact Hn.
      rewrite (Hfr' g Hg) in X. discriminate X.
  - (* FailEarly: nothing written *) exact HI.
  - (* FailCommitPoint true: written and removed again *) exact HI.
  - (* FailCommitPoint false: the file stays behind, never published *)
    destruct (Hfit (or_intror eq_refl)) as [[Hid Hpr] [Hc [Hmax Hsn]]].
    assert (Hfr' : fresh_name (files st) n) by (apply Hfr; right; reflexivity).
    specialize (Hun eq_refl).
    constructor; cbn [files glatest gacked ptr].
    + (* il_wf *) apply insert_at_forall; [split; assumption|apply (il_wf _ HI)].
    + (* il_names *) apply names_unique_insert; [apply (il_names _ HI)|exact Hfr'].
    + (* il_none: n is one more leftover *)
      intro EL. destruct (il_none _ HI EL) as [Hall Hack]. split; [|exact Hack].
      intros g Hg. apply insert_at_in in Hg. destruct Hg as [->|Hg]; [exact Hc|apply Hall; exact Hg].
    + (* il_latest: unchanged, n is not published *)
      intros L EL. destruct (il_latest _ HI L EL) as [HLin [HLc [HLmax HLsn]]].
      split; [apply insert_at_in; right; exact HLin|]. split; [exact HLc|]. split; [|exact HLsn].
      intros g Hg Cg. apply insert_at_in in Hg. destruct Hg as [->|Hg]; [rewrite Hc in Cg; discriminate Cg|].
      apply HLmax; assumption.
    + (* il_ptr: the pointer is as it was and does not name n *)
      pose proof (il_ptr _ HI) as HP. unfold not_stale, unnamed in *. cbn [files glatest].
      destruct (read_hint (ptr st)) as [|[[v name]|]]; auto.
      intros g Hg Hn. apply insert_at_in in Hg. destruct Hg as [->|Hg]; [rewrite Hun in Hn; discriminate Hn|].
      apply HP; assumption.
Qed.

Lemma step_written : forall st e,
  step st e = match e with
              | ECreate _ _ pos _ o => match written st e with Some n => publish st n pos o (gacked st) | None => st end
              | ECommit _ _ pos sid o =>
                match written st e with Some n => publish st n pos o (gacked st ++ [sid]) | None => st end
              | EDamage p => {| ptr := p; files := files st; glatest := glatest st; gacked := gacked st |}
              end.
Proof.
  intros st [id t pos uuid o|id t pos sid o|p]; cbn [step written].
  - (* create *) destruct (refresh st); reflexivity.
  - (* commit: a resolved file is built on only if the next version is printable *)
    destruct (refresh st) as [| |v L]; [reflexivity|reflexivity|]. destruct (printable _); reflexivity.
  - (* damage *) reflexivity.
Qed.

(* What an operation writes before its commit point, in a store that satisfies the invariant: a create writes version 0,
   and only into the empty directory; a commit whose resolution is safe builds on the latest published file. *)
Lemma written_create : forall st id t pos uuid o n,
  InvL st -> wf_id id = true -> written st (ECreate id t pos uuid o) = Some n -> fits st n (gacked st).
Proof.
  intros st id t pos uuid o n HI Hid Hn. cbn [written] in Hn. destruct (refresh st) eqn:R; try discriminate Hn.
  injection Hn as <-. pose proof (refresh_none_nil _ _ (il_wf _ HI) R) as Hnil.
  split; [|split; [|split]].
  - (* well formed: version 0 is printable *) split; [exact Hid|reflexivity].
  - (* not yet published *) reflexivity.
  - (* above every published file: there is none, the directory is empty *) rewrite Hnil. intros g [].
  - (* its snapshots, none, are the acknowledged ones: nothing was published *)
    destruct (glatest st) as [L|] eqn:EL; [|symmetry; exact (proj2 (il_none _ HI EL))].
    destruct (il_latest _ HI L EL) as [HLin _]. rewrite Hnil in HLin. destruct HLin.
Qed.

Lemma written_commit : forall st id t pos sid o n,
  InvL st -> wf_id id = true -> safe_use (ptr st) st -> written st (ECommit id t pos sid o) = Some n ->
  exists L, glatest st = Some L
            /\ n = {| fver := fver L + 1; fid := id; fmt := t; fcom := false; fuuid := fuuid L;
                      fsnaps := fsnaps L ++ [sid] |}
            /\ fits st n (gacked st ++ [sid]).
Proof.
  intros st id t pos sid o n HI Hid Hs Hn. cbn [written] in Hn. unfold refresh in Hn. destruct (glatest st) as [L|] eqn:EL.
  - destruct (il_latest _ HI L EL) as [_ [_ [Hmax HLsn]]].
    rewrite (refresh_safe st L (ptr st) HI EL (il_ptr _ HI) Hs) in Hn.
    destruct (printable (fver L + 1)) eqn:Hp; [|discriminate Hn]. injection Hn as <-.
    exists L. split; [reflexivity|]. split; [reflexivity|].
    split; [|split; [|split]].
    + (* well formed *) split; [exact Hid|exact Hp].
    + (* not yet published *) reflexivity.
    + (* above every published file: they are L or below L *)
      intros g Hg Cg. cbn [fver]. destruct (Hmax g Hg Cg) as [->|H]; lia.
    + (* L held the acknowledged snapshots; the new one is added to both *)
      cbn [fsnaps]. rewrite HLsn. reflexivity.
  - rewrite (safe_use_none st (ptr st) HI EL Hs), refresh_empty in Hn. discriminate Hn.
Qed.

Lemma step_invL : forall st e, InvL st -> ok_event_lv st e -> InvL (step st e).
Proof.
  intros st e HI Hok. rewrite step_written.
  destruct e as [id t pos uuid o|id t pos sid o|p]; cbn [ok_event_lv] in Hok.
  - (* create *)
    destruct Hok as [Hid Hw]. destruct (written st _) as [n|] eqn:Hn; [|exact HI].
    destruct (Hw _ eq_refl) as [Hfr Hun].
    exact (publish_invL _ _ _ _ _ HI (fun _ => written_create _ _ _ _ _ _ _ HI Hid Hn) Hfr Hun).
  - (* commit *)
    destruct Hok as [Hid [Hw Hsafe]]. destruct (written st _) as [n|] eqn:Hn; [|exact HI].
    destruct (Hw _ eq_refl) as [Hfr Hun]. apply (publish_invL _ _ _ _ _ HI); [|exact Hfr|exact Hun].
    (* only an outcome that leaves the file there needs a safe resolution *)
    intro W. destruct (written_commit _ _ _ _ _ _ _ HI Hid (Hsafe W) Hn) as [L [_ [_ Hfit]]]. exact Hfit.
  - (* damage: only the pointer changes *)
    destruct Hok as [Hcl Hns]. constructor; cbn [files glatest gacked ptr].
    + (* il_wf *) apply (il_wf _ HI).
    + (* il_names *) apply (il_names _ HI).
    + (* il_none *) apply (il_none _ HI).
    + (* il_latest *) apply (il_latest _ HI).
    + (* il_ptr *) exact (not_stale_of_classified p st (il_wf _ HI) Hcl Hns).
Qed.

(* `ok_history` and `ok_history_lv` are one recursion over the event predicate -- `history ok_event` and
   `history ok_event_lv`, by conversion -- so induction along a history is done once, here. *)
Definition history (ok : store -> event -> Prop) : store -> list event -> Prop :=
  fix go st h := match h with [] => True | e :: h' => ok st e /\ go (step st e) h' end.

Lemma history_transfer : forall (ok ok' : store -> event -> Prop) (P : store -> Prop),
  (forall st e, P st -> ok st e -> ok' st e /\ P (step st e)) ->
  forall h st, P st -> history ok st h -> history ok' st h /\ P (run st h).
Proof.
  intros ok ok' P H. induction h as [|e h IH]; intros st HP Hh; [split; [exact I|exact HP]|].
  destruct Hh as [He Hh]. destruct (H st e HP He) as [He' HP']. destruct (IH _ HP' Hh) as [H1 H2].
  split; [split; assumption|exact H2].
Qed.

Lemma history_extend : forall ok st h,
  (exists h0, history ok empty_store h0 /\ st = run empty_store h0) -> history ok st h ->
  exists h0, history ok empty_store h0 /\ run st h = run empty_store h0.
Proof.
  intros ok st h [h0 [H0 ->]] Hh. exists (h0 ++ h). split; [|unfold run; rewrite fold_left_app; reflexivity].
  revert H0 Hh. generalize empty_store. induction h0 as [|e h0 IH]; intros s H0 Hh; [exact Hh|].
  destruct H0 as [He H0]. split; [exact He|apply IH; assumption].
Qed.

Lemma reachable_lv_inv : forall st, reachable_lv st -> InvL st.
Proof.
  intros st [h [Hok ->]].
  refine (proj2 (history_transfer ok_event_lv ok_event_lv InvL _ h _ invL_empty Hok)).
  intros s e HI He. exact (conj He (step_invL s e HI He)).
Qed.

Lemma reachable_lv_extend : forall st h, reachable_lv st -> ok_history_lv st h -> reachable_lv (run st h).
Proof. exact (history_extend ok_event_lv). Qed.

(* No operation of a clean history leaves a file behind, so every stored file is published; the version of the file a
   commit writes is then above every stored one, which keeps names distinct without any assumption on file ids.  So a
   clean history is a history with leftovers that has none, and the invariant carries over. *)
Definition all_published (st : store) : Prop := forall f, In f (files st) -> fcom f = true.

Lemma published_safe : forall st p, all_published st -> safe_use p st.
Proof. intros st p Hall. right. intros f Hf C. rewrite (Hall f Hf) in C. discriminate C. Qed.

Lemma clean_event_lv : forall st e, InvL st -> all_published st -> ok_event st e -> ok_event_lv st e.
Proof.
  intros st e HI Hall Hok.
  (* every stored file is published, so a file that fits has a version, hence a name, of its own *)
  assert (F : forall n acked, fits st n acked -> fresh_name (files st) n).
  { intros n acked [Hwf [_ [Hmax _]]]. apply higher_version_fresh; [apply (il_wf _ HI)|exact Hwf|].
    intros f Hf. exact (Hmax f Hf (Hall f Hf)). }
  destruct e as [id t pos uuid o|id t pos sid o|p]; cbn [ok_event ok_event_lv] in *.
  - (* create *)
    destruct Hok as [Hid Hclean]. split; [exact Hid|].
    intros n Hn. split; [intros _|intro E; destruct (Hclean E)].
    exact (F n _ (written_create _ _ _ _ _ _ _ HI Hid Hn)).
  - (* commit: its resolution is safe because nothing is left over *)
    destruct Hok as [Hid Hclean]. split; [exact Hid|]. split; [|intros _; apply published_safe; exact Hall].
    intros n Hn. split; [intros _|intro E; destruct (Hclean E)].
    destruct (written_commit _ _ _ _ _ _ _ HI Hid (published_safe st _ Hall) Hn) as [L [_ [_ Hfit]]]. exact (F n _ Hfit).
  - (* damage: the same hypothesis in both kinds of history *)
    exact Hok.
Qed.

Lemma publish_published : forall st n pos o acked,
  all_published st -> clean_outcome o -> all_published (publish st n pos o acked).
Proof.
  intros st n pos o acked Hall Hclean. destruct o as [| |[|]]; cbn [publish].
  - (* Ok: the published file joins the stored ones *)
    intros f Hf. cbn [files] in Hf. apply insert_at_in in Hf. destruct Hf as [->|Hf]; [reflexivity|apply Hall; exact Hf].
  - (* FailEarly: nothing written *) exact Hall.
  - (* FailCommitPoint true: written and removed again *) exact Hall.
  - (* FailCommitPoint false: not a clean outcome *) destruct (Hclean eq_refl).
Qed.

Lemma clean_step_published : forall st e, all_published st -> ok_event st e -> all_published (step st e).
Proof.
  intros st e Hall Hok. rewrite step_written. destruct e as [id t pos uuid o|id t pos sid o|p]; cbn [ok_event] in Hok.
  - (* create *) destruct (written st _); [apply publish_published; [exact Hall|apply Hok]|exact Hall].
  - (* commit *) destruct (written st _); [apply publish_published; [exact Hall|apply Hok]|exact Hall].
  - (* damage: the files are untouched *) exact Hall.
Qed.

Theorem reachable_clean_lv : forall st, reachable_clean st -> reachable_lv st /\ all_published st.
Proof.
  intros st [h [Hok ->]].
  assert (T : forall st e, InvL st /\ all_published st -> ok_event st e ->
              ok_event_lv st e /\ InvL (step st e) /\ all_published (step st e)).
  { intros st e [HI Hall] He. pose proof (clean_event_lv st e HI Hall He) as He'.
    split; [exact He'|split; [exact (step_invL st e HI He')|exact (clean_step_published st e Hall He)]]. }
  destruct (history_transfer ok_event ok_event_lv _ T h empty_store) as [H1 [_ H2]];
    [split; [exact invL_empty|intros f []]|exact Hok|].
  split; [exists h; split; [exact H1|reflexivity]|exact H2].
Qed.

(* not quoted in Props/C10.v: the clean-history form of C10_never_uncommitted_partial, where every stored file is published
   and neither `~ stale` nor `safe_use` is needed *)
Theorem never_uncommitted : forall st p l v name,
  reachable_clean st -> Permutation l (files st) ->
  resolve p (map entry_of l) = RRet (Some (v, name)) ->
  exists f, In f (files st) /\ name_eqb (fname f) name = true /\ fcom f = true.
Proof.
  intros st p l v name HR HP H. destruct (reachable_clean_lv st HR) as [HL Hall].
  destruct (resolves_to_listed l p v name (perm_wf l _ HP (il_wf _ (reachable_lv_inv _ HL))) H) as [f [Hf Hn]].
  apply (Permutation_in f HP) in Hf. exists f. split; [exact Hf|]. split; [exact Hn|exact (Hall f Hf)].
Qed.

(* not quoted in Props/C10.v: C10_no_reinit at the stores of clean histories, the pointer damaged just before the create *)
Theorem no_reinit_reachable : forall st p id t pos uuid o,
  reachable_clean st -> files st <> [] ->
  let st' := step (step st (EDamage p)) (ECreate id t pos uuid o) in
  files st' = files st /\ glatest st' = glatest st /\ gacked st' = gacked st /\ ptr st' = p.
Proof.
  intros st p id t pos uuid o HR Hne.
  pose proof (il_wf _ (reachable_lv_inv _ (proj1 (reachable_clean_lv st HR)))) as Hwf.
  cbv zeta. rewrite (create_existing (step st (EDamage p))); [cbn; auto|exact Hwf|exact Hne].
Qed.

Lemma reachable_clean_extend : forall st h, reachable_clean st -> ok_history st h -> reachable_clean (run st h).
Proof. exact (history_extend ok_event). Qed.

Lemma damage_commit_result : forall st L p id t pos sid,
  InvL st -> glatest st = Some L -> not_stale p st -> safe_use p st -> printable (fver L + 1) = true ->
  let st' := run st [EDamage p; ECommit id t pos sid Ok] in
  exists L', glatest st' = Some L' /\ fver L' = fver L + 1 /\ fsnaps L' = gacked st ++ [sid]
             /\ gacked st' = gacked st ++ [sid] /\ fuuid L' = fuuid L
             /\ ptr st' = Some (Some (fname L')) /\ In L' (files st') /\ fcom L' = true.
Proof.
  intros st L p id t pos sid HI EL Hns Hs Hp. destruct (il_latest _ HI L EL) as [_ [_ [_ HLsn]]].
  cbn [run fold_left step]. unfold refresh. cbn [ptr files]. rewrite (refresh_safe st L p HI EL Hns Hs), Hp.
  cbn [publish glatest gacked ptr files].
  eexists. split; [reflexivity|]. cbn [published fver fsnaps fuuid fcom fname fid].
  rewrite HLsn. repeat split; try reflexivity. apply insert_at_in. left. reflexivity.
Qed.

Lemma damage_commit_lv : forall st L p id t pos sid,
  InvL st -> glatest st = Some L -> ascii_classified p -> ~ stale p st -> safe_use p st -> wf_id id = true ->
  (forall f, In f (files st) -> name_eqb (fname f) (render_name (fver L + 1) id) = false) ->
  ok_history_lv st [EDamage p; ECommit id t pos sid Ok].
Proof.
  intros st L p id t pos sid HI EL Hcl Hns Hs Hid Hfr.
  pose proof (step_invL st (EDamage p) HI (conj Hcl Hns)) as HI'.
  (* the damaged store differs in the pointer only: `safe_use p` reads the same in it *)
  change (safe_use (ptr (step st (EDamage p))) (step st (EDamage p))) in Hs.
  cbn [ok_history_lv ok_event_lv]. split; [split; assumption|]. split; [|exact I]. split; [exact Hid|].
  split; [|intros _; exact Hs].
  intros n Hn. destruct (written_commit _ _ _ _ _ _ _ HI' Hid Hs Hn) as [L' [EL' [-> _]]].
  cbn [step glatest] in EL'. rewrite EL in EL'. injection EL' as <-. split; [intros _; exact Hfr|intro H; discriminate H].
Qed.

Lemma arec_head : forall f r x, arec (f :: r) None = Some x -> x = f \/ below f x.
Proof.
  intros f r x H. destruct (arec_first_top _ _ H) as [[|g l1] [l2 [E [H1 _]]]]; injection E as E _.
  - left. symmetry. exact E.
  - right. subst g. apply H1. left. reflexivity.
Qed.

(* so a never-published file wins (in some listing order) exactly when its version is higher than L's, or equal with an
   mtime that is not older *)
Theorem recovery_safe_iff : forall fs L, Forall wf_file fs -> names_unique fs -> In L fs ->
  ((forall l, Permutation l fs -> recover (map entry_of l) = RRet (Some (fver L, fname L))) <-> others_below fs L).
Proof.
  intros fs L Hwf U HL. split.
  - (* list f first: the scan then returns L only if f ranks below it *)
    intros H f Hf D. destruct (in_split f fs Hf) as [a [b E]].
    assert (HP : Permutation (f :: a ++ b) fs) by (rewrite E; apply Permutation_middle).
    destruct (recover_some _ _ _ (perm_wf _ _ HP Hwf) (H _ HP)) as [x [A [_ Hn]]].
    assert (x = L).
    { apply U; [exact (Permutation_in x HP (proj1 (arec_top _ _ A)))|exact HL|rewrite <- Hn; apply name_eqb_refl]. }
    subst x. destruct (arec_head f _ L A) as [E'|B]; [destruct (D (eq_sym E'))|exact B].
  - (* every other file ranks below L: recover_others_below, in each order *) intros Hb l HP.
    apply recover_others_below; [exact (perm_wf l fs HP Hwf)|exact (Permutation_in L (Permutation_sym HP) HL)|].
    intros f Hf. apply Hb. exact (Permutation_in f HP Hf).
Qed.

Theorem leftover_surfaces : forall st L U p l,
  InvL st -> glatest st = Some L -> In U (files st) -> above U L -> unusable p (files st) -> Permutation l (files st) ->
  exists r, In r (files st) /\ fcom r = false /\ above r L
            /\ resolve p (map entry_of l) = RRet (Some (fver r, fname r)).
Proof.
  intros st L U p l HI EL HU Hab Hp HP. rewrite (resolve_scan p l (unusable_perm p l _ HP Hp)).
  assert (HUl : In U l) by exact (Permutation_in U (Permutation_sym HP) HU).
  destruct (arec_nonempty l) as [r A]; [intro; subst; contradiction|].
  rewrite (recover_refines l (perm_wf l _ HP (il_wf _ HI))), A.
  destruct (arec_top l r A) as [Hr Htop]. apply (Permutation_in r HP) in Hr. specialize (Htop U HUl).
  (* r is what the scan returns: no file outranks it, U in particular *)
  exists r. split; [exact Hr|]. split; [|split; [|reflexivity]].
  - (* r was never published: a published file is L or has a lower version, and U outranks L *)
    destruct (fcom r) eqn:C; [exfalso|reflexivity].
    destruct (il_latest _ HI L EL) as [_ [_ [Hmax _]]].
    destruct (Hmax r Hr C) as [->|H]; unfold above, not_above in *; lia.
  - (* r outranks L, since U does *) unfold above, not_above in *. lia.
Qed.

(* One evaluation decides `ok_history_lv` of a history whose pointer damage is all of the unusable kind; that the ids
   are well formed and the damaged contents classified (`any_event_wf`) is left to the caller. *)
Definition fresh_nameb (fs : list mfile) (n : mfile) : bool :=
  forallb (fun f => negb (name_eqb (fname f) (fname n))) fs.
Definition unnamedb (p : option (option (list cp))) (n : mfile) : bool :=
  match read_hint p with PRet (Some (_, name)) => negb (name_eqb (fname n) name) | _ => true end.
Definition hint_namesb (p : option (option (list cp))) (L : mfile) : bool :=
  match read_hint p with PRet (Some (_, name)) => name_eqb (fname L) name | _ => false end.
Definition belowb (f L : mfile) : bool := (fver f <? fver L) || ((fver f =? fver L) && (fmt f <? fmt L)%Z).
Definition leftovers_belowb (st : store) : bool :=
  forallb (fun f => fcom f || match glatest st with Some L => belowb f L | None => false end) (files st).
Definition safe_useb (p : option (option (list cp))) (st : store) : bool :=
  match glatest st with Some L => hint_namesb p L | None => false end || leftovers_belowb st.
Definition unusableb (p : option (option (list cp))) (fs : list mfile) : bool :=
  match read_hint p with
  | PRet None => true
  | PRet (Some (_, name)) => negb (exists_meta name (map entry_of fs))
  | PRaise => false
  end.
Definition writtenb (st : store) (e : event) : bool :=
  match written st e with Some n => fresh_nameb (files st) n && unnamedb (ptr st) n | None => true end.
Definition ok_event_lvb (st : store) (e : event) : bool :=
  match e with
  | ECreate _ _ _ _ _ => writtenb st e
  | ECommit _ _ _ _ _ => writtenb st e && safe_useb (ptr st) st
  | EDamage p => unusableb p (files st)
  end.
Fixpoint ok_history_lvb (st : store) (h : list event) : bool :=
  match h with [] => true | e :: h' => ok_event_lvb st e && ok_history_lvb (step st e) h' end.

Lemma writtenb_sound : forall st e o n, writtenb st e = true -> written st e = Some n ->
  (writes o -> fresh_name (files st) n) /\ (o = FailCommitPoint false -> unnamed (ptr st) n).
Proof.
  intros st e o n H Hn. unfold writtenb in H. rewrite Hn in H. apply andb_prop in H. destruct H as [H1 H2]. split; intros _.
  - intros f Hf. unfold fresh_nameb in H1. rewrite forallb_forall in H1. apply negb_true_iff. exact (H1 f Hf).
  - unfold unnamed, unnamedb in *. destruct (read_hint (ptr st)) as [|[[v name]|]]; auto. apply negb_true_iff. exact H2.
Qed.

Lemma leftovers_belowb_sound : forall st, leftovers_belowb st = true -> leftovers_below st.
Proof.
  intros st H f Hf C. unfold leftovers_belowb in H. rewrite forallb_forall in H. specialize (H f Hf).
  rewrite C in H. destruct (glatest st) as [L|]; [|discriminate H]. unfold belowb in H. unfold below. lia.
Qed.

Lemma safe_useb_sound : forall p st, safe_useb p st = true -> safe_use p st.
Proof.
  intros p st H. apply orb_prop in H. destruct H as [H|H]; [left|right; apply leftovers_belowb_sound; exact H].
  destruct (glatest st) as [L|]; [|discriminate H]. exists L. split; [reflexivity|].
  unfold hint_names, hint_namesb in *. destruct (read_hint p) as [|[[v name]|]]; try discriminate H. exact H.
Qed.

Lemma unusableb_iff : forall p fs, unusableb p fs = true <-> unusable p fs.
Proof.
  intros p fs. unfold unusableb. split.
  - intro H. destruct (read_hint p) as [|[[v name]|]] eqn:R; [discriminate H| |left; exact R].
    right. exists v, name. split; [exact R|]. apply negb_true_iff. exact H.
  - intros [Hp|[v [name [Hp He]]]]; rewrite Hp; [|rewrite He]; reflexivity.
Qed.

(* in the shape the examples need: `listing st` and the scan's value as an equation, so that facts evaluated about a concrete
   run fit syntactically (matching them up to conversion makes the kernel evaluate the run once more) *)
Lemma unusableb_scan : forall p st r, unusableb p (files st) = true -> recover (listing st) = r ->
  unusable p (files st) /\ resolve p (listing st) = r.
Proof.
  intros p st r H R. apply unusableb_iff in H. split; [exact H|]. unfold listing in *. rewrite (resolve_scan p _ H). exact R.
Qed.

Lemma ok_history_lvb_sound : forall h st, Forall any_event_wf h -> ok_history_lvb st h = true -> ok_history_lv st h.
Proof.
  induction h as [|e h IH]; intros st Hwf H; [exact I|].
  inversion Hwf as [|? ? He Hh]; subst. cbn [ok_history_lvb] in H. apply andb_prop in H. destruct H as [H1 H2].
  split; [|exact (IH _ Hh H2)].
  destruct e as [id t pos uuid o|id t pos sid o|p]; cbn [ok_event_lv ok_event_lvb any_event_wf] in *.
  - (* create *) split; [exact He|]. intros n Hn. exact (writtenb_sound st _ o n H1 Hn).
  - (* commit *) apply andb_prop in H1. destruct H1 as [H1 H3]. split; [exact He|]. split.
    + intros n Hn. exact (writtenb_sound st _ o n H1 Hn).
    + intros _. apply safe_useb_sound. exact H3.
  - (* damage: an unusable pointer is not stale *) split; [exact He|]. apply unusable_not_stale, unusableb_iff. exact H1.
Qed.

(* the id whose eight hex digits are all n (v2-22222222) *)
Definition wid (n : N) : list N := [n; n; n; n; n; n; n; n].

(* three successful operations, then the pointer is put back to the name of version 1 *)
Definition stale_history : list event :=
  [ECreate (wid 0) 10 0 77 Ok; ECommit (wid 1) 20 0 101 Ok; ECommit (wid 2) 30 0 102 Ok].
Definition stale_pointer : option (option (list cp)) := Some (Some (render_name 1 (wid 1))).

Lemma stale_history_ok : ok_history empty_store stale_history.
Proof. cbn. repeat split; try reflexivity; discriminate. Qed.

Lemma stale_witness :
  let st := run empty_store stale_history in
  exists L, glatest st = Some L /\ fver L = 2
            /\ resolve stale_pointer (listing st) = RRet (Some (1, render_name 1 (wid 1))).
Proof. vm_compute. eexists. repeat split. Qed.

(* the first conjunct of C10_resolve_partial's conclusion over clean histories WITHOUT `~ stale`: false, a stale pointer
   is trusted (stale_witness) *)
Definition resolve_full : Prop := forall st L p l,
  reachable_clean st -> glatest st = Some L -> ascii_classified p -> Permutation l (files st) ->
  exists name, resolve p (map entry_of l) = RRet (Some (fver L, name)) /\ codes name = codes (fname L).

Theorem resolve_full_refuted : ~ resolve_full.
Proof.
  intro H. destruct stale_witness as [L [EL [Hv Hr]]].
  assert (HR : reachable_clean (run empty_store stale_history)).
  { exists stale_history. split; [exact stale_history_ok|reflexivity]. }
  destruct (H _ L stale_pointer _ HR EL (render_classified 1 (wid 1)) (Permutation_refl _)) as [name [Hn _]].
  unfold listing in Hr. rewrite Hr in Hn. inversion Hn as [[Hver Hname]]. rewrite Hv in Hver. discriminate Hver.
Qed.

(* a failed commit whose metadata file could not be removed, then the pointer is lost: the scan returns that file *)
Definition dirty_history : list event :=
  [ECreate (wid 0) 10 0 77 Ok; ECommit (wid 1) 20 0 101 Ok; ECommit (wid 2) 30 0 102 (FailCommitPoint false)].

Lemma dirty_history_wf : Forall any_event_wf dirty_history.
Proof. repeat constructor. Qed.

Lemma dirty_witness :
  let st := run empty_store dirty_history in
  reachable_lv st /\ (exists L, glatest st = Some L)
  /\ exists f, In f (files st) /\ fcom f = false /\ resolve None (listing st) = RRet (Some (fver f, fname f)).
Proof.
  split; [|split].
  - (* reachable *) exists dirty_history. split; [|reflexivity].
    apply (ok_history_lvb_sound _ _ dirty_history_wf). vm_compute. reflexivity.
  - (* a version is published *) vm_compute. eexists. reflexivity.
  - (* the leftover v2-22222222 *)
    exists {| fver := 2; fid := wid 2; fmt := 30; fcom := false; fuuid := 77; fsnaps := [101; 102] |}.
    split; [vm_compute; tauto|]. split; [reflexivity|]. vm_compute. reflexivity.
Qed.

(* not quoted in Props/C10.v: what the witness of C10_never_uncommitted_full_refuted shows, said of histories with no
   restriction but well-formed ids and classified pointers (any_event_wf) *)
Theorem unremoved_orphan_surfaces :
  exists h, Forall any_event_wf h /\
    let st := run empty_store h in
    exists f, In f (files st) /\ fcom f = false /\ resolve None (listing st) = RRet (Some (fver f, fname f)).
Proof. exists dirty_history. split; [exact dirty_history_wf|]. apply dirty_witness. Qed.

(* with an equal mtime the first one listed wins, so `others_below` asks for a strictly older one *)
Lemma tiebreak_equal_mtime_first_listed :
  let a := {| fver := 1; fid := wid 1; fmt := 5; fcom := true; fuuid := 7; fsnaps := [1] |} in
  let o := {| fver := 1; fid := wid 2; fmt := 5; fcom := false; fuuid := 7; fsnaps := [1; 2] |} in
  resolve None (map entry_of [o; a]) = RRet (Some (1, fname o)) /\ resolve None (map entry_of [a; o]) = RRet (Some (1, fname a)).
Proof. vm_compute. split; reflexivity. Qed.

(* as decimal strings "9" sorts after "10" *)
Lemma recover_nine_ten :
  let f9 := {| fver := 9; fid := wid 9; fmt := 50; fcom := true; fuuid := 7; fsnaps := [] |} in
  let f10 := {| fver := 10; fid := wid 1; fmt := 5; fcom := true; fuuid := 7; fsnaps := [] |} in
  resolve None (map entry_of [f9; f10]) = RRet (Some (10, fname f10))
  /\ resolve None (map entry_of [f10; f9]) = RRet (Some (10, fname f10)).
Proof. vm_compute. split; reflexivity. Qed.
