(* Proofs/FlipFaultProofs.v -- the commit machine with failing commit-point writes (Model/FlipFault.v).

   1. what the regenerated tables say about a failed commit-point write on conditional-write storage
      (flip_error_raises / flip_refusal_retries: case analysis over the generated definitions, re-checked on every run);
   2. every step of the prompt machine is at most one step of the commit machine (xstep_world), so the world it carries
      stays Linear (CommitProofs.v) for every schedule of protocol steps AND failing pointer writes, applied or not,
      landing anywhere except between an applied-and-refused write and its read-back (the prompt machine; all lemmas assume
      cas c = true).  Stepwise from an arbitrary state: xstep_all; from the initial state, to reuse a theorem about `run`:
      xreach_run;
   3. an actor whose commit-point write raised is never acknowledged (XJ);
   4. the read-back of a refused-although-applied write: at most one is pending and it finds its own file name (XK), so an
      attempt is past its commit point exactly when the store applied its write (acknowledged_iff_applied_prompt); without
      the prompt restriction superseded_witness refutes it, and the restriction touches no schedule without such writes
      (prompt_irrelevant_without_pending). *)
From Coq Require Import ZArith List Bool.
Require Import DS.Model.CommitBase DS.Gen.GenCommit DS.Model.Commit DS.Model.FlipFault DS.Proofs.CommitProofs.
Require DS.Proofs.ListFacts.
Import ListNotations.

Lemma flip_error_raises atomic last : flip_reaction true atomic FEError last = RRaise true.
Proof. destruct atomic, last; reflexivity. Qed.

Lemma flip_refusal_retries atomic :
  flip_reaction true atomic FEPrecondition false = RRetry /\ flip_reaction true atomic FEPrecondition true = RRaise false.
Proof. destruct atomic; split; reflexivity. Qed.

Lemma flip_error_plain last :
  flip_reaction false true FEError last = RRaise false /\ flip_reaction false false FEError last = RRaise true.
Proof. destruct last; split; reflexivity. Qed.

(* re-checked on every run against the definitions read off the source: this and write_landed_spec fail on a source that
   calls a refused write a conflict without looking *)
Lemma refused_reads_back : gen_refused_reads_back = true.
Proof. reflexivity. Qed.
Lemma write_landed_spec n : gen_write_landed n = n.
Proof. reflexivity. Qed.

(* prompt machine: at most one read-back is pending; its actor has flipped, the pointer still names its file, no exception
   is propagating in it *)
Definition XK (X : xworld) : Prop :=
  (x_npending X = 0%nat /\ forall a, x_rb X a = false)
  \/ (x_npending X = 1%nat /\ exists a, x_rb X a = true /\ (forall b, x_rb X b = true -> b = a)
        /\ a_pc (w_actors (xw X) a) = PFlipped /\ w_ptr (xw X) = a_new (w_actors (xw X) a) /\ x_err X a = None).

Lemma set_rb_same a v f : set_rb a v f a = v.
Proof. unfold set_rb. rewrite Nat.eqb_refl. reflexivity. Qed.
Lemma set_rb_other a b v f : b <> a -> set_rb a v f b = f b.
Proof. intro NE. unfold set_rb. destruct (Nat.eqb_spec b a); [contradiction|reflexivity]. Qed.
Lemma set_err_same a v f : set_err a v f a = v.
Proof. unfold set_err. rewrite Nat.eqb_refl. reflexivity. Qed.
Lemma set_err_other a b v f : b <> a -> set_err a v f b = f b.
Proof. intro NE. unfold set_err. destruct (Nat.eqb_spec b a); [contradiction|reflexivity]. Qed.

Lemma XK_pending X a : XK X -> x_rb X a = true ->
  x_npending X = 1%nat /\ (forall b, x_rb X b = true -> b = a) /\ a_pc (w_actors (xw X) a) = PFlipped
  /\ w_ptr (xw X) = a_new (w_actors (xw X) a) /\ x_err X a = None.
Proof.
  intros [[_ F]|[N [a' [RB [U [P [W E]]]]]]] R; [rewrite F in R; discriminate|].
  assert (a = a') by (apply U; exact R). subst a'. auto.
Qed.

Lemma readback_lands X a : XK X -> x_rb X a = true ->
  gen_refused_reads_back && gen_write_landed (names_ours (xw X) (w_actors (xw X) a)) = true.
Proof.
  intros K RB. destruct (XK_pending X a K RB) as [_ [_ [_ [W _]]]]. rewrite refused_reads_back, write_landed_spec. simpl.
  unfold names_ours. apply Nat.eqb_eq. exact W.
Qed.

Lemma may_land_prompt X : may_land true X = true -> x_npending X = 0%nat.
Proof. apply Nat.eqb_eq. Qed.

(* the prompt machine on conditional-write storage, event by event: what was enabled, and the state that results.  An
   exception of the commit-point write leaves commit() as EAbort (flip_error_raises); a read-back finds the pointer naming
   the committer's own file (XK), so it is never told "conflict". *)
Inductive XStep (c : cfg) (X : xworld) : xevent -> xworld -> Prop :=
| XsStep (e : event) (w' : world) (EE : x_err X (e_actor e) = None) (RB : x_rb X (e_actor e) = false)
    (NP : is_flip_true (e_kind e) = true -> x_npending X = 0%nat) (St : step c (xw X) e = Some w') :
    XStep c X (XE e) (Build_xworld w' (x_err X) (x_failed X) (x_rb X) (x_npending X) (x_misreported X))
| XsErr (a : aid) (applied : bool) (w' : world) (EE : x_err X a = None) (RB : x_rb X a = false) (PC : a_pc (w_actors (xw X) a) = PFenced)
    (Ap : if applied then x_npending X = 0%nat /\ step c (xw X) (ev a (EFlip true)) = Some w' else w' = xw X) :
    XStep c X (XFlipErr a applied)
      (Build_xworld w' (set_err a (Some applied) (x_err X)) (a :: x_failed X) (x_rb X) (x_npending X) (x_misreported X))
| XsUnwind (a : aid) (applied : bool) (w' : world) (EE : x_err X a = Some applied) (St : step c (xw X) (ev a EAbort) = Some w') :
    XStep c X (XUnwind a) (Build_xworld w' (set_err a None (x_err X)) (x_failed X) (x_rb X) (x_npending X) (x_misreported X))
| XsResent (a : aid) (w' : world) (EE : x_err X a = None) (RB : x_rb X a = false) (PC : a_pc (w_actors (xw X) a) = PFenced)
    (NP : x_npending X = 0%nat) (St : step c (xw X) (ev a (EFlip true)) = Some w') :
    XStep c X (XFlipResent a)
      (Build_xworld w' (x_err X) (x_failed X) (set_rb a true (x_rb X)) (S (x_npending X)) (x_misreported X))
| XsReadBack (a : aid) (RB : x_rb X a = true) :
    XStep c X (XReadBack a)
      (Build_xworld (xw X) (x_err X) (x_failed X) (set_rb a false (x_rb X)) (pred (x_npending X)) (x_misreported X)).

Lemma xstep_cases c atomic X x X' : cas c = true -> XK X -> xstep_p true c atomic X x = Some X' -> XStep c X x X'.
Proof.
  (* not `simpl in H`: it would unfold `step c (xw X) (ev a (EFlip true))` into its match *)
  intros CAS K H. destruct x as [e|a applied|a|a|a]; unfold xstep_p in H; cbv beta iota zeta in H.
  - (* XE *)
    destruct (x_err X (e_actor e)) eqn:EE; [discriminate|]. destruct (x_rb X (e_actor e)) eqn:RB; [discriminate|].
    destruct (negb (is_flip_true (e_kind e)) || may_land true X) eqn:G; [|discriminate].
    destruct (step c (xw X) e) as [w'|] eqn:St; [|discriminate]. injection H as <-.
    apply XsStep; try assumption. intro F. rewrite F in G. apply may_land_prompt. exact G.
  - (* XFlipErr *)
    destruct (x_err X a) eqn:EE; [discriminate|]. destruct (x_rb X a) eqn:RB; [discriminate|].
    destruct (a_pc (w_actors (xw X) a)) eqn:PC; try discriminate. destruct applied.
    + rewrite CAS in H. simpl in H. destruct (may_land true X) eqn:G; [|discriminate]. simpl in H.
      destruct (step c (xw X) (ev a (EFlip true))) as [w'|] eqn:St; [|discriminate]. injection H as <-.
      apply XsErr; try assumption. split; [apply may_land_prompt; exact G | exact St].
    + injection H as <-. apply XsErr; try assumption. reflexivity.
  - (* XUnwind *)
    destruct (x_err X a) as [applied|] eqn:EE; [|discriminate]. rewrite CAS, flip_error_raises in H.
    destruct (step c (xw X) (ev a EAbort)) as [w'|] eqn:St; [|discriminate]. injection H as <-.
    exact (XsUnwind c X a applied w' EE St).
  - (* XFlipResent *)
    destruct (x_err X a) eqn:EE; [discriminate|]. destruct (x_rb X a) eqn:RB; [discriminate|].
    destruct (a_pc (w_actors (xw X) a)) eqn:PC; try discriminate.
    rewrite CAS in H. simpl in H. destruct (may_land true X) eqn:G; [|discriminate].
    destruct (step c (xw X) (ev a (EFlip true))) as [w'|] eqn:St; [|discriminate]. injection H as <-.
    apply XsResent; try assumption. apply may_land_prompt. exact G.
  - (* XReadBack *)
    destruct (x_rb X a) eqn:RB; [|discriminate]. rewrite (readback_lands X a K RB) in H. injection H as <-.
    apply XsReadBack. exact RB.
Qed.

Lemma xstep_world c atomic X x X' : cas c = true -> XK X -> xstep_p true c atomic X x = Some X' ->
  xw X' = xw X \/ exists e, step c (xw X) e = Some (xw X').
Proof.
  intros CAS K H.
  destruct (xstep_cases _ _ _ _ _ CAS K H)
    as [e w' EE RB NP St | a applied w' EE RB PC Ap | a applied w' EE St | a w' EE RB PC NP St | a RB]; cbn [xw].
  - (* XsStep *) right. exists e. exact St.
  - (* XsErr: applied, the flip; not applied, nothing *)
    destruct applied; [right; eexists; exact (proj2 Ap) | left; exact Ap].
  - (* XsUnwind *) right. eexists. exact St.
  - (* XsResent *) right. eexists. exact St.
  - (* XsReadBack *) left. reflexivity.
Qed.

Lemma xstep_pdone_stable c atomic X x X' a o : cas c = true -> XK X -> xstep_p true c atomic X x = Some X' ->
  a_pc (w_actors (xw X) a) = PDone o -> a_pc (w_actors (xw X') a) = PDone o.
Proof.
  intros CAS K H PC. destruct (xstep_world _ _ _ _ _ CAS K H) as [E|[e St]].
  - rewrite E. exact PC.
  - eapply step_pdone_stable; eauto.
Qed.

Lemma pending_frame c w e w' a : step c w e = Some w' -> e_actor e <> a -> is_flip_true (e_kind e) = false ->
  w_actors w' a = w_actors w a /\ w_ptr w' = w_ptr w.
Proof.
  intros St NE NF. destruct (step_frame _ _ _ _ St) as [Oth [_ Ptr]]. cbv zeta in *. split.
  - apply Oth. intro E. apply NE. symmetry. exact E.
  - apply Ptr. intro E. rewrite E in NF. discriminate.
Qed.

(* XK looks only at the read-back bookkeeping and at the pending committer: a step that leaves these alone keeps it *)
Lemma XK_frame X X' : XK X -> x_rb X' = x_rb X -> x_npending X' = x_npending X ->
  (forall a, x_rb X a = true -> x_npending X = 1%nat -> x_err X a = None ->
     w_actors (xw X') a = w_actors (xw X) a /\ w_ptr (xw X') = w_ptr (xw X) /\ x_err X' a = x_err X a) ->
  XK X'.
Proof.
  intros K RB NP Fr. destruct K as [[N F]|[N [a [Ra [U [P [W E]]]]]]]; [left | right]; rewrite RB, NP.
  - split; assumption.
  - split; [exact N|]. exists a. destruct (Fr a Ra N E) as [SA [SP SE]]. rewrite SA, SP, SE. auto.
Qed.

Lemma xstep_XK c atomic X x X' : cas c = true -> XK X -> xstep_p true c atomic X x = Some X' -> XK X'.
Proof.
  intros CAS K H.
  destruct (xstep_cases _ _ _ _ _ CAS K H)
    as [e w' EE RB NP St | a applied w' EE RB PC Ap | a applied w' EE St | a w' EE RB PC NP St | a RB].
  - (* XsStep, a machine step: not the pending actor's, and no pointer write while a read-back is pending *)
    apply (XK_frame X _ K); try reflexivity. simpl. intros a Ra N _.
    assert (NE : e_actor e <> a) by (intro; subst; congruence).
    assert (NoFlip : is_flip_true (e_kind e) = false)
      by (destruct (is_flip_true (e_kind e)); [rewrite (NP eq_refl) in N; discriminate | reflexivity]).
    destruct (pending_frame _ _ _ _ a St NE NoFlip) as [SA SP]. auto.
  - (* XsErr: a failing write is not applied while a read-back is pending *)
    apply (XK_frame X _ K); try reflexivity. simpl. intros b Rb N _.
    destruct applied; [destruct Ap as [N0 _]; congruence | subst w'].
    rewrite set_err_other by (intro; subst; congruence). auto.
  - (* XsUnwind: no exception is propagating in the pending actor *)
    apply (XK_frame X _ K); try reflexivity. simpl. intros b Rb _ Eb.
    assert (NE : a <> b) by (intro; subst; congruence).
    destruct (pending_frame _ _ _ _ b St NE eq_refl) as [SA SP]. rewrite set_err_other by (intro; apply NE; congruence). auto.
  - (* XsResent, the applied-and-refused write: its committer becomes the one pending read-back *)
    destruct (step_flip_true _ _ _ _ St) as [_ [_ [P [New Ptr]]]].
    destruct K as [[_ F]|[N1 _]]; [|congruence].
    right; simpl. split; [rewrite NP; reflexivity|]. exists a. split; [apply set_rb_same|]. split.
    + intros b Rb. destruct (Nat.eq_dec b a) as [->|NE]; [reflexivity|].
      rewrite set_rb_other in Rb by exact NE. rewrite F in Rb. discriminate.
    + split; [exact P|]. split; [rewrite New; exact Ptr | exact EE].
  - (* XsReadBack *) destruct (XK_pending X a K RB) as [N [U _]]. left; simpl. split; [rewrite N; reflexivity|].
    intro b. destruct (Nat.eq_dec b a) as [->|NE]; [apply set_rb_same|]. rewrite set_rb_other by exact NE.
    destruct (x_rb X b) eqn:RBb; [exfalso; apply NE; apply U; exact RBb | reflexivity].
Qed.

Lemma xrun_refines c atomic X xs : cas c = true -> XK X ->
  XK (xrun_p true c atomic X xs) /\ exists l, xw (xrun_p true c atomic X xs) = run c (xw X) l.
Proof.
  intros CAS K. apply (ListFacts.run_skip_refines _ _ _ _ (xstep_p true c atomic) (step c) xw XK); [|exact K].
  intros Y y Y' KY H. split; [exact (xstep_XK _ _ _ _ _ CAS KY H)|].
  destruct (xstep_world _ _ _ _ _ CAS KY H) as [->|[e St]]; [left; reflexivity|].
  right. exists e. unfold ListFacts.skip. rewrite St. reflexivity.
Qed.

Lemma xreach_run c m0 atomic kind mr xs : cas c = true ->
  exists l, xw (xrun_p true c atomic (xinit (init_world m0 kind mr)) xs) = run c (init_world m0 kind mr) l.
Proof. intro CAS. apply (xrun_refines c atomic (xinit (init_world m0 kind mr)) xs CAS). left. split; reflexivity. Qed.

Lemma xrun_inv c atomic X xs : cas c = true -> XK X -> Inv c (xw X) -> repl_ok (xw X) ->
  XK (xrun_p true c atomic X xs) /\ Inv c (xw (xrun_p true c atomic X xs)) /\ repl_ok (xw (xrun_p true c atomic X xs)).
Proof.
  intros CAS K I R. destruct (xrun_refines c atomic X xs CAS K) as [K' [l ->]]. split; [exact K'|].
  assert (L : Linear c (nthf (w_files (xw X)) 0%nat) (xw X)) by (constructor; [exact I | exact R | reflexivity]).
  destruct (run_linear c _ _ l (or_introl CAS) L) as [I' R' _]. split; assumption.
Qed.

Definition failed_pc (p : pc) : Prop := p = PDone Aborted \/ p = PDone AbortedPost.

(* XJ, per committer: while the exception of its failed pointer write is propagating (x_err = Some applied) it stands where
   the write left it -- PFenced if the store did not apply it, PFlipped if it did -- and is recorded in x_failed; once the
   exception has been handled (x_err = None) a committer recorded in x_failed has ended as Aborted / AbortedPost and never
   reported success. *)
Definition XJa (X : xworld) (a : aid) : Prop :=
  match x_err X a with
  | Some applied => a_pc (w_actors (xw X) a) = (if applied then PFlipped else PFenced) /\ In a (x_failed X)
  | None => In a (x_failed X) -> failed_pc (a_pc (w_actors (xw X) a))
  end.
Definition XJ (X : xworld) : Prop := forall a, XJa X a.

(* XJ speaks of each actor by itself: a step that touches only actor a's entries, and at most adds a to x_failed, keeps it
   for everybody else *)
Lemma XJ_frame X X' a : XJ X ->
  (forall b, b <> a -> x_err X' b = x_err X b /\ w_actors (xw X') b = w_actors (xw X) b
                      /\ (In b (x_failed X') <-> In b (x_failed X))) ->
  XJa X' a -> XJ X'.
Proof.
  intros J Oth Ha b. destruct (Nat.eq_dec b a) as [->|NE]; [exact Ha|].
  destruct (Oth b NE) as [E [W F]]. specialize (J b). unfold XJa in *. rewrite E, W.
  destruct (x_err X b); [destruct J as [P Fb]; split; [exact P | apply F; exact Fb] | intro Fb; apply J, F, Fb].
Qed.

Lemma xstep_XJ c atomic X x X' : cas c = true -> XK X -> XJ X -> xstep_p true c atomic X x = Some X' -> XJ X'.
Proof.
  intros CAS K J H.
  destruct (xstep_cases _ _ _ _ _ CAS K H)
    as [e w' EE RB NP St | a applied w' EE RB PC Ap | a applied w' EE St | a w' EE RB PC NP St | a RB].
  - (* XsStep, by an actor no exception is propagating in: if its write has failed, it is finished and stays so *)
    apply (XJ_frame X _ (e_actor e) J); simpl.
    + intros b NE. split; [reflexivity|]. split; [exact (step_others _ _ _ _ St b NE) | reflexivity].
    + pose proof (J (e_actor e)) as Ja. unfold XJa in *. simpl. rewrite EE in *. intro F.
      destruct (Ja F) as [P|P]; [left|right]; eapply step_pdone_stable; eauto.
  - (* XsErr, the write raises: the committer is at PFenced, or -- the store having applied it -- at PFlipped *)
    apply (XJ_frame X _ a J); simpl.
    + intros b NE. split; [apply set_err_other; exact NE | split].
      * (* w_actors *) destruct applied; [exact (step_others _ _ _ _ (proj2 Ap) b NE) | subst w'; reflexivity].
      * (* x_failed *) split; [intros [E|F]; [congruence | exact F] | right; assumption].
    + unfold XJa; simpl. rewrite set_err_same. split; [|left; reflexivity].
      destruct applied; [destruct Ap as [_ St]; apply (step_flip_true _ _ _ _ St) | subst w'; exact PC].
  - (* XsUnwind, the exception leaves commit(): Aborted if the write had not been applied, AbortedPost if it had *)
    destruct (step_abort _ _ _ _ St) as [A1 A2]. apply (XJ_frame X _ a J); simpl.
    + intros b NE. split; [apply set_err_other; exact NE|]. split; [exact (step_others _ _ _ _ St b NE) | reflexivity].
    + pose proof (J a) as Ja. unfold XJa in *. simpl. rewrite set_err_same. rewrite EE in Ja. destruct Ja as [P _]. intros _.
      destruct applied; [right; apply A2; exact P | left; apply A1; exact P].
  - (* XsResent, applied and refused: no exception; the committer cannot have failed before, it was at PFenced *)
    apply (XJ_frame X _ a J); simpl.
    + intros b NE. split; [reflexivity|]. split; [exact (step_others _ _ _ _ St b NE) | reflexivity].
    + pose proof (J a) as Ja. unfold XJa in *. simpl. rewrite EE in *. intro F.
      destruct (Ja F) as [P|P]; rewrite PC in P; discriminate.
  - (* XsReadBack *) exact J.
Qed.

(* nobody's applied write is reported to them as a conflict *)
Lemma xstep_mis c atomic X x X' : cas c = true -> XK X -> xstep_p true c atomic X x = Some X' -> x_misreported X' = x_misreported X.
Proof.
  intros CAS K H. destruct (xstep_cases _ _ _ _ _ CAS K H); reflexivity.
Qed.

Record XAll (c : cfg) (m0 : meta) (X : xworld) : Prop := {
  XA_k : XK X; XA_j : XJ X; XA_lin : Linear c m0 (xw X); XA_mis : x_misreported X = [] }.

Lemma xstep_all c m0 atomic X x X' : cas c = true -> XAll c m0 X -> xstep_p true c atomic X x = Some X' -> XAll c m0 X'.
Proof.
  intros CAS [K J L M] H. constructor.
  - exact (xstep_XK _ _ _ _ _ CAS K H).
  - exact (xstep_XJ _ _ _ _ _ CAS K J H).
  - (* XA_lin *) destruct (xstep_world _ _ _ _ _ CAS K H) as [->|[e St]]; [exact L | exact (linear_step c m0 _ e _ (or_introl CAS) L St)].
  - rewrite (xstep_mis _ _ _ _ _ CAS K H). exact M.
Qed.

Lemma xinit_all c m0 kind mr : XAll c m0 (xinit (init_world m0 kind mr)).
Proof.
  constructor; [left; split; reflexivity | | apply linear_init | reflexivity].
  intro a. unfold XJa. simpl. intros [].
Qed.

Lemma xreach_all c m0 atomic kind mr xs : cas c = true -> XAll c m0 (xrun_p true c atomic (xinit (init_world m0 kind mr)) xs).
Proof.
  intro CAS. apply (ListFacts.run_skip_preserves _ _ (xstep_p true c atomic) (XAll c m0)).
  - intros X x X'. apply xstep_all. exact CAS.
  - apply xinit_all.
Qed.

Lemma XJ_not_success X a : XJ X -> In a (x_failed X) -> a_pc (w_actors (xw X) a) <> PDone Success.
Proof.
  intros J F. specialize (J a). unfold XJa in J. destruct (x_err X a) as [applied|].
  - destruct J as [P _]. rewrite P. destruct applied; discriminate.
  - destruct (J F) as [P|P]; rewrite P; discriminate.
Qed.

(* the ambiguity is real: either outcome occurs, according to whether the store had applied the write *)
Lemma failed_outcome c m0 X a : XAll c m0 X -> In a (x_failed X) -> x_err X a = None ->
  (a_pc (w_actors (xw X) a) = PDone Aborted /\ ~ In a (map snd (w_hist (xw X))))
  \/ (a_pc (w_actors (xw X) a) = PDone AbortedPost /\ In a (map snd (w_hist (xw X)))).
Proof.
  intros [_ J L _] F E. pose proof (Inv_acked c (xw X) a (Lin_inv c m0 _ L)) as AK.
  specialize (J a). unfold XJa in J. rewrite E in J. destruct (J F) as [P|P]; [left|right]; (split; [exact P|]).
  - intro HI. apply AK in HI. rewrite P in HI. discriminate.
  - apply AK. rewrite P. reflexivity.
Qed.

(* An attempt is at / past its commit point exactly when the store applied its pointer write -- also when the store's answer
   to the committer was a REFUSAL (the re-sent copy of an applied request): the pointer is read back, the committer is not
   told "conflict" (x_misreported stays empty: nobody discards the file the pointer names, nobody commits twice), and
   while the read-back is pending the committer sits at PFlipped.  `flipped` = PFlipped (lock not yet released), PDone Success,
   or PDone AbortedPost (an error / interrupt reached the caller AFTER the write was applied: x_failed, EAbort, ECrash).
   prompt = true: no pointer write lands between an applied-and-refused write and its read-back (the read-back compares
   the pointer's content with the committer's own file name; a successor's name tells it nothing). *)
Definition acked_iff_applied_for (prompt : bool) : Prop :=
  forall c atomic m0 kind mr xs, cas c = true ->
  let X := xrun_p prompt c atomic (xinit (init_world m0 kind mr)) xs in
  (forall a, In a (map snd (w_hist (xw X))) <-> flipped (a_pc (w_actors (xw X) a)) = true)
  /\ NoDup (map snd (w_hist (xw X)))
  /\ x_misreported X = []
  /\ (forall a, x_rb X a = true -> a_pc (w_actors (xw X) a) = PFlipped)
  /\ (forall a, a_pc (w_actors (xw X) a) = PDone Success -> In a (map snd (w_hist (xw X))))
  /\ (forall a, In a (map snd (w_hist (xw X))) -> ~ In a (x_failed X) ->
        a_pc (w_actors (xw X) a) = PFlipped \/ a_pc (w_actors (xw X) a) = PDone Success \/ a_pc (w_actors (xw X) a) = PDone AbortedPost).

Lemma acknowledged_iff_applied_prompt : acked_iff_applied_for true.
Proof.
  intros c atomic m0 kind mr xs CAS X. destruct (xreach_all c m0 atomic kind mr xs CAS) as [K _ L M]. fold X in K, L, M.
  pose proof (fun a => Inv_acked c (xw X) a (Lin_inv c m0 _ L)) as AK.
  destruct (linear_no_lost_update c m0 (xw X) L) as [_ [ND [SU _]]].
  split; [intro a; split; apply AK|]. split; [exact ND|]. split; [exact M|].
  split; [intros a RB; apply (XK_pending X a K RB)|]. split; [exact SU|].
  intros a HI _. apply flipped_cases, AK, HI.
Qed.

(* the witness against the unrestricted statement: both actors validated version 0 under a lock that excludes nobody; actor
   0's write is applied and its re-sent copy refused; actor 1 is refused, retries, validates actor 0's version and commits
   on top of it BEFORE actor 0 reads the pointer back: actor 0 sees actor 1's file name, is told "conflict" although the store
   applied its write (x_misreported = [0]), releases and starts over *)
Definition xev a k := XE {| e_actor := a; e_kind := k |}.
Definition superseded_witness : list xevent :=
  [ xev 0 (EBegin 0); xev 1 (EBegin 0); xev 0 (ELockTry true); xev 1 (ELockTry true);
    xev 0 (EValidate 0 true); xev 1 (EValidate 0 true); xev 0 (EMetaW 100); xev 1 (EMetaW 100);
    xev 0 (EFence true); xev 1 (EFence true);
    XFlipResent 0; xev 1 (EFlip false); xev 1 ERelease;
    xev 1 (EBegin 1); xev 1 (ELockTry true); xev 1 (EValidate 1 true); xev 1 (EMetaW 100); xev 1 (EFence true);
    xev 1 (EFlip true); xev 1 ERelease;
    XReadBack 0; xev 0 ERelease ]%nat.

(* the restriction does not touch schedules without refused-although-applied writes *)
Lemma prompt_irrelevant_without_pending c atomic X x : x_npending X = 0%nat -> xstep_p true c atomic X x = xstep_p false c atomic X x.
Proof.
  intro N. destruct x as [e|a applied|a|a|a]; simpl; unfold may_land; rewrite N; simpl; rewrite ?orb_true_r; reflexivity.
Qed.
