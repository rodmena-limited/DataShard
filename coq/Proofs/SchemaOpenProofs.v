(* Proofs/SchemaOpenProofs.v -- handle provenance (Model/SchemaOpen.v over the regenerated Gen/GenOpen.v):
   however the handles of a history were obtained -- load_table, create_table with ANY schema argument on the
   existing table, Table(...) --, re-bound or kept alive side by side, the table evolves exactly as if no
   handle had ever been configured, and every theorem about append histories carries over. *)
From Coq Require Import List Bool.
Require Import DS.Model.Schema.
Require Import DS.Model.OpenBase DS.Model.SchemaOpen.
Require Import DS.Proofs.SchemaProofs DS.Proofs.SchemaTxProofs.
Import ListNotations.
Open Scope Z_scope.

(* An opening action is safe when it derives no Arrow layout from the caller's UNVALIDATED schema argument. *)
Fixpoint safe_action (a : oaction) : bool :=
  match a with
  | OADerive SrcArg => false
  | OADerive SrcPersisted => true
  | OAWhenArg b | OAMaybe b => safe_action b
  | OARefresh | OAInitIfAbsent | OAReadSchema => true
  end.

(* ... and that is what the source does, for every way of obtaining a handle (a computation over the
   REGENERATED definitions: it fails when create_table / load_table / Table.__init__ start doing otherwise). *)
Lemma open_actions_safe o : forallb safe_action (actions_of o) = true.
Proof. destruct o; reflexivity. Qed.

(* a safe opening yields a cache that only knows the table's layout *)
Section OpenInv.
  Variable conv : catype -> pyval -> option pyval.
  Variable ts : ischema.

  Lemma act_cache_ok arg a : forall c, safe_action a = true -> cache_ok ts c -> cache_ok ts (act_cache (Some ts) arg a c).
  Proof.
    induction a as [| | |s|b IH|b IH]; simpl; intros c Sa C; auto.
    - destruct s; [discriminate|].
      destruct (create_ok ts c ts C eq_refl) as [c' [-> C']]. exact C'.
    - destruct arg; auto.
  Qed.

  Lemma fold_cache_ok arg acts : forall c, forallb safe_action acts = true -> cache_ok ts c ->
    cache_ok ts (fold_left (fun c a => act_cache (Some ts) arg a c) acts c).
  Proof.
    induction acts as [|a acts IH]; simpl; intros c Sa C; [exact C|].
    apply andb_true_iff in Sa. destruct Sa as [S1 S2]. apply IH; [exact S2|]. apply act_cache_ok; assumption.
  Qed.

  Lemma open_with_inv P acts w h arg : forallb safe_action acts = true -> Inv ts P w -> Inv ts P (open_with acts w h arg).
  Proof.
    intros Sa Iv. unfold open_with, open_cache. rewrite (inv_schema ts P w Iv).
    apply inv_set_cache; [exact Iv|]. apply fold_cache_ok; [exact Sa | intros k a []].
  Qed.

  Lemma open_inv P w h o : Inv ts P w -> Inv ts P (open_handle w h o).
  Proof. apply open_with_inv. apply open_actions_safe. Qed.

  Lemma step_table P w1 w2 e : Inv ts P w1 -> Inv ts P w2 -> table_of w1 = table_of w2 ->
    table_of (fst (step conv w1 e)) = table_of (fst (step conv w2 e))
    /\ snd (step conv w1 e) = snd (step conv w2 e).
  Proof.
    intros I1 I2 T. destruct (step_append ts P conv w1 e I1) as [c1 [_ ->]]. destruct (step_append ts P conv w2 e I2) as [c2 [_ ->]].
    (* the two worlds differ in their caches only, and append_with does not look at those *)
    destruct w1 as [s1 n1 st1 x1 cs1], w2 as [s2 n2 st2 x2 cs2]. injection T as <- <- <- <-.
    unfold append_with. destruct (resolve (Some ts) (e_arg e)); [|auto].
    destruct (forallb (validate_record (sfields ts)) (e_recs e)); [|auto].
    destruct (convert conv (arrow_of (sfields ts)) (e_recs e)) as [rows|]; [|auto].
    destruct (bounds_for (sfields ts) (arrow_of (sfields ts)) rows) as [lo hi].
    destruct (e_commit_ok e); auto.
  Qed.

  Lemma hrun_erase xs : forall w1 w2, Inv ts any_dfile w1 -> Inv ts any_dfile w2 -> table_of w1 = table_of w2 ->
    table_of (hrun conv w1 xs) = table_of (run conv w2 (appends xs))
    /\ houtcomes conv w1 xs = run_outcomes conv w2 (appends xs).
  Proof.
    induction xs as [|x xs IH]; simpl; intros w1 w2 I1 I2 T; [split; [exact T | reflexivity]|].
    destruct x as [h o|e]; simpl.
    - apply IH; [apply open_inv; exact I1 | exact I2 | exact T].
    - destruct (step_table _ w1 w2 e I1 I2 T) as [T' Os].
      destruct (IH _ _ (step_inv ts _ conv (any_records ts conv) w1 e I1) (step_inv ts _ conv (any_records ts conv) w2 e I2) T') as [T2 O2].
      split; [exact T2 | rewrite Os, O2; reflexivity].
  Qed.

  Lemma thrun_layout xs : forall w, Inv ts any_dfile w -> Inv ts any_dfile (thrun conv w xs).
  Proof.
    induction xs as [|x xs IH]; simpl; intros w Iv; [exact Iv|].
    apply IH. destruct x as [h o|t]; simpl; [apply open_inv; exact Iv | apply run_tx_layout; exact Iv].
  Qed.
End OpenInv.
