(* Proofs/ReadProofs.v -- lemmas about Model/Read.v (property C14).
   A stage of the pipeline is characterised twice: what a returned value proves about the store (the value is
   what the specification side reads off the store, and no file was transiently failing at a call site the stage
   exercised), and that a store without transient faults is read as the specification side says.  The property
   theorems follow from these; the storage-locality of the whole pipeline (C14_untouched) is a separate,
   purely structural argument.  Four small blocks serve C14's remaining theorems: a data stage over a store that
   changes during the call (data_stage_t_ok, data_stage_t_trace), the write side a checksum travels through
   (history_entries), the manifest-list decoder (get_all_list_decoder, read_current_list_decoder), and row groups
   handed out as prefixes (prefixes_full). *)
From Coq Require Import ZArith List Bool Lia.
Require Import DS.Gen.GenRead DS.Model.Read.
Require DS.Proofs.ListFacts.
Import ListNotations.
Open Scope list_scope.
Open Scope Z_scope.

Lemma fst_bind {A B} (m : M A) (f : A -> M B) :
  fst (bind m f) = match fst m with Ok a => fst (f a) | Err e => Err e end.
Proof. unfold bind. destruct (fst m); reflexivity. Qed.

Lemma bind_ok {A B} {m : M A} {f : A -> M B} {b} :
  fst (bind m f) = Ok b -> exists a, fst m = Ok a /\ fst (f a) = Ok b.
Proof. rewrite fst_bind. destruct (fst m) as [a|e]; [eauto|discriminate]. Qed.

Lemma bind_fst_ok {A B} {m : M A} {f : A -> M B} {a} : fst m = Ok a -> fst (bind m f) = fst (f a).
Proof. intro H. rewrite fst_bind, H. reflexivity. Qed.

Lemma bind_fst_err {A B} {m : M A} {f : A -> M B} {e} : fst m = Err e -> fst (bind m f) = Err e.
Proof. intro H. rewrite fst_bind, H. reflexivity. Qed.

Lemma bind_snd_ok {A B} {m : M A} {f : A -> M B} {a} : fst m = Ok a -> snd (bind m f) = snd m ++ snd (f a).
Proof. intro H. unfold bind. rewrite H. reflexivity. Qed.

Lemma bind_snd_err : forall A B (m : M A) (f : A -> M B) e, fst m = Err e -> snd (bind m f) = snd m.
Proof. intros A B m f e H. unfold bind. rewrite H. reflexivity. Qed.

Lemma bind_ext : forall A B (m : M A) (f g : A -> M B), (forall a, f a = g a) -> bind m f = bind m g.
Proof. intros A B m f g H. unfold bind. destruct (fst m) as [a|e]; [rewrite H|]; reflexivity. Qed.

Lemma mapM_ok {A B} (f : A -> M B) l ys :
  fst (mapM f l) = Ok ys <-> Forall2 (fun x y => fst (f x) = Ok y) l ys.
Proof.
  split.
  - revert ys. induction l as [|x tl IH]; intros ys H; simpl in H.
    + inversion H. constructor.
    + apply bind_ok in H as [y [Hy H]]. apply bind_ok in H as [ys' [Hys H]]. inversion H. constructor; auto.
  - induction 1 as [|x y tl ys' Hxy _ IH]; [reflexivity|].
    simpl. rewrite (bind_fst_ok Hxy), (bind_fst_ok IH). reflexivity.
Qed.

Lemma mapM_err {A B} (f : A -> M B) l x e : In x l -> fst (f x) = Err e -> exists e', fst (mapM f l) = Err e'.
Proof.
  intros Hin Hx. destruct (fst (mapM f l)) as [ys|e'] eqn:H; [exfalso|eauto].
  apply mapM_ok in H. destruct (ListFacts.Forall2_in_l _ _ _ _ _ _ H Hin) as [y [_ Hy]]. congruence.
Qed.

Lemma mapM_err_inv {A B} (f : A -> M B) l e : fst (mapM f l) = Err e -> exists x, In x l /\ fst (f x) = Err e.
Proof.
  induction l as [|h tl IH]; simpl; [discriminate|]. rewrite fst_bind. destruct (fst (f h)) as [y|e0] eqn:Hh.
  - rewrite fst_bind. destruct (fst (mapM f tl)); [discriminate|]. intro H.
    destruct (IH H) as [x [Hx Hfx]]. exists x. split; [right; exact Hx|exact Hfx].
  - intro H. exists h. split; [left; reflexivity|congruence].
Qed.

Lemma par_map_fst {A B} (f : A -> M B) l : fst (par_map f l) = fst (mapM f l).
Proof.
  unfold par_map. simpl. induction l as [|x tl IH]; [reflexivity|].
  simpl. rewrite !fst_bind, IH. destruct (fst (f x)); [|reflexivity].
  rewrite fst_bind. destruct (fst (mapM f tl)); reflexivity.
Qed.

Lemma op_eqb_eq : forall a b, op_eqb a b = true <-> a = b.
Proof. intros [] []; simpl; split; intro H; try reflexivity; discriminate. Qed.

Lemma site_eqb_eq : forall a b, site_eqb a b = true <-> a = b.
Proof.
  intros [o n] [o' n']. unfold site_eqb. simpl. rewrite andb_true_iff, op_eqb_eq, Nat.eqb_eq.
  split; [intros [-> ->]; reflexivity|intro H; inversion H; auto].
Qed.

Lemma site_eqb_refl : forall s, site_eqb s s = true.
Proof. intro s. apply site_eqb_eq. reflexivity. Qed.

Definition quiet (st : store) (k : key) (s : site) : Prop :=
  match st k with Flaky s' _ => site_eqb s s' = false | _ => True end.
Definition quiet_sites (st : store) (k : key) (sites : list site) : Prop := forall s, In s sites -> quiet st k s.

Definition noflaky (st : store) : Prop := forall k s b, st k <> Flaky s b.

Lemma noflaky_quiet : forall st k s, noflaky st -> quiet st k s.
Proof. intros st k s Hn. unfold quiet. destruct (st k) as [| |s' b] eqn:Hc; auto. destruct (Hn k s' b Hc). Qed.

Lemma flaky_not_quiet {st k s b} : st k = Flaky s b -> ~ quiet st k s.
Proof. intros Hc Hq. unfold quiet in Hq. rewrite Hc, site_eqb_refl in Hq. discriminate. Qed.

Lemma st_exists_ok : forall st k s ex, fst (st_exists st k s) = Ok ex <-> ex = present st k /\ quiet st k s.
Proof.
  intros st k s ex. unfold st_exists, present, quiet. destruct (st k) as [| |s' b]; [| |destruct (site_eqb s s')]; simpl;
    (split; [intro H; inversion H; auto|intros [-> H]; try discriminate H; reflexivity]).
Qed.

Lemma st_get_ok : forall st k s b, fst (st_get st k s) = Ok b <-> cur_bytes st k = Some b /\ quiet st k s.
Proof.
  intros st k s b. unfold st_get, cur_bytes, quiet. destruct (st k) as [| |s' b0]; [| |destruct (site_eqb s s')]; simpl;
    (split; [intro H; inversion H; auto|intros [H Hq]; try discriminate; inversion H; reflexivity]).
Qed.

Lemma st_list_ok : forall E st r x, fst (st_list E st r) = Ok x <-> x = recovered E /\ quiet st METADIR (OpList, r).
Proof.
  intros E st r x. unfold st_list, quiet. destruct (st METADIR) as [| |s b]; [| |destruct (site_eqb (OpList, r) s)]; simpl;
    (split; [intro H; inversion H; auto|intros [-> H]; try discriminate H; reflexivity]).
Qed.

Lemma st_get_err : forall st k s e, fst (st_get st k s) = Err e ->
  (e = ENotFound /\ st k = Absent) \/ (e = EIO /\ exists b, st k = Flaky s b).
Proof.
  intros st k s e H. unfold st_get in H. destruct (st k) as [|b0|s' b0]; simpl in H.
  - inversion H. auto.
  - discriminate.
  - destruct (site_eqb s s') eqn:Hs; simpl in H; [|discriminate]. apply site_eqb_eq in Hs. inversion H. subst. eauto.
Qed.

Lemma st_exists_trace : forall st k s, snd (st_exists st k s) = [(k, s)].
Proof. intros st k s. unfold st_exists. destruct (st k); [| |destruct (site_eqb _ _)]; reflexivity. Qed.

Lemma st_get_trace : forall st k s, snd (st_get st k s) = [(k, s)].
Proof. intros st k s. unfold st_get. destruct (st k); [| |destruct (site_eqb _ _)]; reflexivity. Qed.

Lemma st_list_trace : forall E st r, snd (st_list E st r) = [(METADIR, (OpList, r))].
Proof. intros E st r. unfold st_list. destruct (st METADIR); [| |destruct (site_eqb _ _)]; reflexivity. Qed.

Lemma exists_noflaky {st k s} : noflaky st -> fst (st_exists st k s) = Ok (present st k).
Proof. intro Hn. apply st_exists_ok. split; [reflexivity|apply noflaky_quiet; exact Hn]. Qed.

Lemma get_noflaky {st k s b} : noflaky st -> cur_bytes st k = Some b -> fst (st_get st k s) = Ok b.
Proof. intros Hn Hb. apply st_get_ok. split; [exact Hb|apply noflaky_quiet; exact Hn]. Qed.

Lemma present_cur : forall st k, present st k = true <-> exists b, cur_bytes st k = Some b.
Proof.
  intros st k. unfold present, cur_bytes. destruct (st k) as [|b|s b].
  - split; [discriminate|intros [b H]; discriminate].
  - split; [exists b|]; reflexivity.
  - split; [exists b|]; reflexivity.
Qed.

Lemma present_false : forall st k, present st k = false <-> st k = Absent.
Proof. intros st k. unfold present. destruct (st k); split; intro H; try reflexivity; discriminate. Qed.

Lemma served_meta_inv : forall E st md, served_meta E st = Some md ->
  exists mk b, resolved E st = Some mk /\ cur_bytes st mk = Some b /\ parse_meta E b = Some md.
Proof.
  intros E st md H. unfold served_meta, obind in H. destruct (resolved E st) as [mk|]; [|discriminate].
  destruct (cur_bytes st mk) as [b|] eqn:Hb; [|discriminate]. eauto.
Qed.

(* the sites of refresh number r on the two metadata files it settles on *)
Definition meta_quiet (E : env) (st : store) (r : nat) : Prop :=
  (forall mk, resolved E st = Some mk -> quiet st mk (OpRead, r)) /\
  (forall mk, hinted E st = Some mk -> quiet st mk (OpExists, r)).

Lemma resolve_ok : forall E st r x, fst (resolve E st r) = Ok x ->
  x = served_meta E st /\ meta_quiet E st r /\ (x = None -> resolved E st = None).
Proof.
  intros E st r x H. unfold resolve in H.
  apply bind_ok in H as [ex [Hex H]]. apply st_exists_ok in Hex as [Hex _].
  apply bind_ok in H as [hn [Hhn H]].
  assert (Hh : hn = hinted E st).
  { unfold hinted. destruct ex.
    - apply bind_ok in Hhn as [b [Hb Hhn]]. apply st_get_ok in Hb as [-> _]. inversion Hhn. reflexivity.
    - symmetry in Hex. apply present_false in Hex. unfold cur_bytes. rewrite Hex. inversion Hhn. reflexivity. }
  subst hn. apply bind_ok in H as [tg [Htg H]].
  assert (Ht : tg = resolved E st /\ forall mk, hinted E st = Some mk -> quiet st mk (OpExists, r)).
  { unfold resolved. destruct (hinted E st) as [mk|].
    - apply bind_ok in Htg as [ex2 [Hex2 Htg]]. apply st_exists_ok in Hex2 as [<- Hq].
      split; [|intros mk' Heq; inversion Heq; subst; exact Hq].
      destruct ex2; [inversion Htg; reflexivity|]. apply st_list_ok in Htg. apply Htg.
    - apply st_list_ok in Htg. split; [apply Htg|discriminate]. }
  destruct Ht as [-> Hq2]. unfold served_meta, meta_quiet. destruct (resolved E st) as [mk|]; simpl.
  - apply bind_ok in H as [b [Hb H]]. apply st_get_ok in Hb as [-> Hq]. simpl.
    destruct (parse_meta E b) as [md|]; inversion H.
    repeat split; [intros mk' Heq; inversion Heq; subst; exact Hq|exact Hq2|discriminate].
  - inversion H. repeat split; [discriminate|exact Hq2].
Qed.

Lemma read_hint_quiet : forall E st r, (forall s, quiet st HINT s) ->
  fst (if present st HINT then b <- st_get st HINT (OpRead, r) ;; ret (parse_hint E b) else ret None) = Ok (hinted E st).
Proof.
  intros E st r Hq. unfold hinted. destruct (present st HINT) eqn:Hph.
  - apply present_cur in Hph as [hb Hhb]. rewrite Hhb, (bind_fst_ok (proj2 (st_get_ok _ _ _ _) (conj Hhb (Hq _)))). reflexivity.
  - apply present_false in Hph. unfold cur_bytes. rewrite Hph. reflexivity.
Qed.

Lemma resolve_complete : forall E st r md, noflaky st -> served_meta E st = Some md -> fst (resolve E st r) = Ok (Some md).
Proof.
  intros E st r md Hn Hm. apply served_meta_inv in Hm as [mk [b [Hres [Hb Hp]]]]. unfold resolve.
  assert (Hlist : fst (st_list E st r) = Ok (recovered E)).
  { apply st_list_ok. split; [reflexivity|apply noflaky_quiet; exact Hn]. }
  rewrite (bind_fst_ok (exists_noflaky Hn)), (bind_fst_ok (read_hint_quiet E st r (fun s => noflaky_quiet st HINT s Hn))).
  rewrite (bind_fst_ok (a := Some mk)); [rewrite (bind_fst_ok (get_noflaky Hn Hb)), Hp; reflexivity|].
  unfold resolved in Hres. destruct (hinted E st) as [mk0|]; [|rewrite Hlist; congruence].
  rewrite (bind_fst_ok (exists_noflaky Hn)). destruct (present st mk0); [exact (f_equal Ok Hres)|rewrite Hlist; congruence].
Qed.

Lemma resolve_listing_fails : forall E st r b,
  (forall s b', st HINT <> Flaky s b') ->
  (hinted E st = None \/ exists mk, hinted E st = Some mk /\ st mk = Absent) ->
  st METADIR = Flaky (OpList, r) b ->
  fst (resolve E st r) = Err EIO.
Proof.
  intros E st r b Hh Hhint Hl. unfold resolve.
  assert (Hlist : fst (st_list E st r) = Err EIO).
  { unfold st_list. rewrite Hl, site_eqb_refl. reflexivity. }
  assert (Hq : forall s, quiet st HINT s).
  { intro s. unfold quiet. destruct (st HINT) as [| |s' b'] eqn:Hc; auto. destruct (Hh s' b' eq_refl). }
  rewrite (bind_fst_ok (proj2 (st_exists_ok _ _ _ _) (conj eq_refl (Hq _)))), (bind_fst_ok (read_hint_quiet E st r Hq)).
  apply bind_fst_err. destruct Hhint as [-> | [mk [-> Habs]]]; [exact Hlist|].
  rewrite (bind_fst_ok (a := false)); [exact Hlist|]. unfold st_exists. rewrite Habs. reflexivity.
Qed.

Lemma caught_eio_cases : forall classes, caught classes (mro_of EIO) = true \/ caught classes (mro_of EIO) = false.
Proof. intro c. destruct (caught c (mro_of EIO)); auto. Qed.

Lemma avro_stage_opened {A st k} {parse : bytes -> avro A} {classes b} :
  fst (st_get st k (OpOpen, 0%nat)) = Ok b ->
  fst (avro_stage st k parse classes)
  = match parse b with AvOk a => Ok (Some a) | AvRaise mro => if caught classes mro then Ok None else Err EParse end.
Proof.
  intro H. unfold avro_stage. cbv zeta. rewrite H.
  destruct (parse b) as [a|mro]; [|destruct (caught classes mro)]; reflexivity.
Qed.

(* The reader, called after the caller's own exists() (site OpExists 0).  A transient failure of the open is itself
   caught by the fallback classes: the JSON attempt then re-reads the file, and for bytes JSON accepts the Avro
   attempt would have fallen back anyway (json_not_avro), so the value is the file's content all the same. *)
Lemma two_stage_ok {A st k} {av : bytes -> avro A} {js : bytes -> option A} {classes x} :
  (forall b x, js b = Some x -> falls_back av classes b = true) ->
  quiet st k (OpExists, 0%nat) ->
  fst (two_stage st k av js classes) = Ok x ->
  exists b, cur_bytes st k = Some b /\ content av js classes b = Some x /\ quiet_sites st k (reader_sites av js classes b).
Proof.
  intros Hwf Hq0 H. unfold two_stage in H.
  apply bind_ok in H as [ex [Hex H]]. apply st_exists_ok in Hex as [Hex Hq1].
  destruct ex; [|discriminate]. symmetry in Hex. apply present_cur in Hex as [b Hb]. exists b. split; [exact Hb|].
  apply bind_ok in H as [a [Ha H]].
  (* what is left to show once the two conditional sites (the open, the re-read) are settled *)
  assert (Hsites : (open_fatal js classes b = true -> quiet st k (OpOpen, 0%nat)) ->
                   (falls_back av classes b = true -> quiet st k (OpRead, 0%nat)) ->
                   quiet_sites st k (reader_sites av js classes b)).
  { intros Hq2 Hq3 s Hs. unfold reader_sites in Hs. simpl in Hs. destruct Hs as [<-|[<-|Hs]]; [exact Hq0|exact Hq1|].
    apply in_app_or in Hs as [Hs|Hs].
    - destruct (open_fatal js classes b); [destruct Hs as [<-|[]]; auto|contradiction].
    - destruct (falls_back av classes b); [destruct Hs as [<-|[]]; auto|contradiction]. }
  (* the JSON attempt, when the Avro stage has fallen through *)
  assert (Hjson : a = None -> js b = Some x /\ quiet st k (OpRead, 0%nat)).
  { intros ->. apply bind_ok in H as [b2 [Hb2 H]]. apply st_get_ok in Hb2 as [Hb2 Hq3].
    rewrite Hb in Hb2. injection Hb2 as <-. destruct (js b); inversion H. auto. }
  unfold content, falls_back in *. destruct (fst (st_get st k (OpOpen, 0%nat))) as [b1|e1] eqn:Hopen.
  - rewrite (avro_stage_opened Hopen) in Ha. apply st_get_ok in Hopen as [Hb1 Hq2].
    rewrite Hb in Hb1. injection Hb1 as <-. destruct (av b) as [a0|mro].
    + injection Ha as <-. inversion H. split; [reflexivity|]. apply Hsites; [auto|discriminate].
    + destruct (caught classes mro); inversion Ha; subst a. destruct (Hjson eq_refl) as [Hjs Hq3]. split; [exact Hjs|auto].
  - unfold avro_stage in Ha. cbv zeta in Ha. rewrite Hopen in Ha.
    apply st_get_err in Hopen as [[_ Habs]|[-> [b' Hfl]]]; [unfold cur_bytes in Hb; rewrite Habs in Hb; discriminate|].
    destruct (caught classes (mro_of EIO)) eqn:Hc; inversion Ha; subst a. destruct (Hjson eq_refl) as [Hjs Hq3].
    pose proof (Hwf b x Hjs) as Hfb. destruct (av b) as [a0|mro]; [discriminate|]. rewrite Hfb. split; [exact Hjs|].
    apply Hsites; [|auto]. unfold open_fatal. rewrite Hc, Hjs. discriminate.
Qed.

Lemma two_stage_complete {A st k} {av : bytes -> avro A} {js classes b x} :
  noflaky st -> cur_bytes st k = Some b -> content av js classes b = Some x -> fst (two_stage st k av js classes) = Ok x.
Proof.
  intros Hn Hb Hc. unfold two_stage.
  rewrite (bind_fst_ok (exists_noflaky Hn)), (proj2 (present_cur st k)) by eauto. simpl.
  rewrite fst_bind, (avro_stage_opened (get_noflaky Hn Hb)). unfold content in Hc.
  destruct (av b) as [a|mro]; [inversion Hc; reflexivity|]. destruct (caught classes mro); [|discriminate].
  rewrite (bind_fst_ok (get_noflaky Hn Hb)), Hc. reflexivity.
Qed.

Lemma seen_in : forall p seen, existsb (N.eqb p) seen = true <-> In p seen.
Proof. exact (ListFacts.existsb_eqb_In _ N.eqb N.eqb_eq). Qed.

Lemma dedupe_aux_in : forall l seen d, In d (dedupe_aux seen l) -> In d l /\ ~ In (dpath d) seen.
Proof.
  induction l as [|x tl IH]; intros seen d H; simpl in H; [contradiction|].
  destruct (existsb (N.eqb (dpath x)) seen) eqn:Hs.
  - apply IH in H as [H1 H2]. split; [right; exact H1|exact H2].
  - destruct H as [<-|H].
    + split; [left; reflexivity|]. rewrite <- seen_in, Hs. discriminate.
    + apply IH in H as [H1 H2]. split; [right; exact H1|]. intro Hin. apply H2. right. exact Hin.
Qed.

Lemma dedupe_aux_nodup : forall l seen, NoDup (map dpath (dedupe_aux seen l)).
Proof.
  induction l as [|x tl IH]; intro seen; simpl; [constructor|].
  destruct (existsb (N.eqb (dpath x)) seen); [apply IH|].
  simpl. constructor; [|apply IH]. intro Hin. apply in_map_iff in Hin as [d [Hd Hin]].
  apply dedupe_aux_in in Hin as [_ Hn]. apply Hn. left. symmetry. exact Hd.
Qed.

Lemma selected_dedupe_aux : forall l seen k,
  selected (dedupe_aux seen l) k = if existsb (N.eqb k) seen then None else selected l k.
Proof.
  unfold selected. induction l as [|x tl IH]; intros seen k; simpl; [destruct (existsb (N.eqb k) seen); reflexivity|].
  destruct (existsb (N.eqb (dpath x)) seen) eqn:Hs; simpl; rewrite IH; simpl.
  - destruct (existsb (N.eqb k) seen) eqn:Hk; [reflexivity|]. destruct (N.eqb (dpath x) k) eqn:He; [|reflexivity].
    apply N.eqb_eq in He. congruence.
  - rewrite (N.eqb_sym k). destruct (N.eqb (dpath x) k) eqn:He; [|reflexivity].
    apply N.eqb_eq in He. rewrite <- He, Hs. reflexivity.
Qed.

Lemma selected_dedupe : forall l k, selected (dedupe l) k = selected l k.
Proof. intros l k. apply selected_dedupe_aux. Qed.

Lemma selected_some : forall l d, In d l -> exists d', selected l (dpath d) = Some d'.
Proof.
  intros l d H. unfold selected. destruct (find _ l) as [d'|] eqn:Hf; [eauto|].
  apply (find_none _ _ Hf) in H. rewrite N.eqb_refl in H. discriminate.
Qed.

Lemma selected_in : forall l k d, selected l k = Some d -> In d l /\ dpath d = k.
Proof. intros l k d H. apply find_some in H as [Hin He]. apply N.eqb_eq in He. auto. Qed.

Lemma selected_nodup : forall l d, NoDup (map dpath l) -> In d l -> selected l (dpath d) = Some d.
Proof.
  intros l d Hnd Hin. destruct (selected_some l d Hin) as [d' Hs]. rewrite Hs. f_equal.
  apply selected_in in Hs as [Hin' Hp]. exact (ListFacts.NoDup_map_inj_in _ _ dpath l d' d Hnd Hin' Hin Hp).
Qed.

Lemma dedupe_covers : forall l d, In d l -> exists d', In d' (dedupe l) /\ dpath d' = dpath d.
Proof.
  intros l d H. destruct (selected_some l d H) as [d' Hs]. rewrite <- selected_dedupe in Hs.
  exists d'. exact (selected_in _ _ _ Hs).
Qed.

Lemma dedupe_nodup : forall l, NoDup (map dpath (dedupe l)).
Proof. intro l. apply dedupe_aux_nodup. Qed.

Lemma dedupe_in : forall l d, In d (dedupe l) -> In d l.
Proof. intros l d H. apply dedupe_aux_in in H. apply H. Qed.

Lemma all_some_ok : forall A B (f : A -> option B) l ys,
  all_some (map f l) = Some ys <-> Forall2 (fun x y => f x = Some y) l ys.
Proof.
  intros A B f l ys. split.
  - revert ys. induction l as [|x tl IH]; intros ys H; simpl in H; [inversion H; constructor|].
    destruct (f x) as [y|] eqn:Hx; [|discriminate]. destruct (all_some (map f tl)) as [r|]; inversion H. constructor; auto.
  - induction 1 as [|x y tl ys' Hxy _ IH]; [reflexivity|]. simpl. rewrite Hxy, IH. reflexivity.
Qed.

Definition manifest_read (E : env) (st : store) (mref : option key) (dfs : list dfile) : Prop :=
  match mref with
  | None => dfs = []
  | Some m => exists b, cur_bytes st m = Some b /\ man_content E b = Some dfs
                        /\ quiet_sites st m (reader_sites (avro_man E) (json_man E) manifest_fallback b)
  end.

(* the two halves of json_not_avro *)
Definition wf_list (E : env) := forall b x, json_list E b = Some x -> falls_back (avro_list E) list_fallback b = true.
Definition wf_man (E : env) := forall b x, json_man E b = Some x -> falls_back (avro_man E) manifest_fallback b = true.

Lemma mk_env_no_json : forall shas hints rec metas alists amans pqs,
  json_not_avro (mk_env shas hints rec metas alists [] amans [] pqs).
Proof. split; intros b x H; discriminate H. Qed.

Lemma manifest_step_ok : forall E st mref dfs, wf_man E ->
  fst (manifest_step E st mref) = Ok dfs -> manifest_read E st mref dfs.
Proof.
  intros E st [m|] dfs Hwf H; simpl.
  - apply bind_ok in H as [ex [Hex H]]. apply st_exists_ok in Hex as [_ Hq]. destruct ex; [|discriminate].
    exact (two_stage_ok Hwf Hq H).
  - inversion H. reflexivity.
Qed.

Lemma manifest_read_spec : forall E st mref dfs, manifest_read E st mref dfs -> spec_manifest E st mref = Some dfs.
Proof.
  intros E st [m|] dfs H; simpl in *; [|subst; reflexivity].
  destruct H as [b [Hb [Hc _]]]. rewrite Hb. exact Hc.
Qed.

Lemma manifest_step_complete : forall E st mref dfs, noflaky st ->
  spec_manifest E st mref = Some dfs -> fst (manifest_step E st mref) = Ok dfs.
Proof.
  intros E st [m|] dfs Hn H; simpl in H; [|inversion H; reflexivity].
  destruct (cur_bytes st m) as [b|] eqn:Hb; [|discriminate].
  simpl. rewrite (bind_fst_ok (exists_noflaky Hn)), (proj2 (present_cur st m)) by eauto.
  exact (two_stage_complete Hn Hb H).
Qed.

Definition snap_read (E : env) (st : store) (s : snap) (dfs : list dfile) : Prop :=
  exists lb ms dfss,
    cur_bytes st (slist s) = Some lb /\ list_content E lb = Some ms
    /\ quiet_sites st (slist s) (reader_sites (avro_list E) (json_list E) list_fallback lb)
    /\ Forall2 (manifest_read E st) ms dfss /\ dfs = dedupe (List.concat dfss).

Lemma snap_read_spec {E st s dfs} : snap_read E st s dfs -> spec_dfiles E st s = Some dfs.
Proof.
  intros [lb [ms [dfss [Hlb [Hlc [_ [Hf ->]]]]]]]. unfold spec_dfiles. rewrite Hlb. simpl. rewrite Hlc. simpl.
  rewrite (proj2 (all_some_ok _ _ (spec_manifest E st) ms dfss)); [reflexivity|].
  eapply ListFacts.Forall2_impl_in; [|exact Hf]. intros x y _. apply manifest_read_spec.
Qed.

(* the data files of the version with metadata md, on the specification side: those of its current snapshot; none
   when it has no current snapshot (current_snapshot_id absent or -1); undefined when the id dangles *)
Definition spec_files (E : env) (st : store) (md : meta) : option (list dfile) :=
  match find_snap md with
  | Some s => spec_dfiles E st s
  | None => match mcur md with Some id => if id =? -1 then Some [] else None | None => Some [] end
  end.

(* the specification side of run_eq *)
Lemma spec_answer_files : forall E st a md,
  spec_answer E st a md
  = obind (spec_files E st md) (fun dfs =>
      if reads_data a then obind (spec_rows E st dfs) (fun rows => Some (ARows rows))
      else Some (ACount (fold_right Z.add 0 (map dcount dfs)))).
Proof.
  intros E st a md. unfold spec_answer, spec_files. destruct (find_snap md); [reflexivity|].
  destruct (mcur md) as [id|]; [destruct (id =? -1)|]; destruct (reads_data a); reflexivity.
Qed.

Lemma get_all_ok : forall E st dfs, json_not_avro E -> fst (get_all_data_files E st) = Ok dfs ->
  meta_quiet E st 0 /\
  match served_meta E st with
  | Some md => spec_files E st md = Some dfs /\ forall s, find_snap md = Some s -> snap_read E st s dfs
  | None => resolved E st = None /\ dfs = []     (* nothing resolves: the code reports no files *)
  end.
Proof.
  intros E st dfs [Hwl Hwm] H. unfold get_all_data_files in H.
  apply bind_ok in H as [r0 [Hr0 H]]. apply resolve_ok in Hr0 as [-> [Hq Hnone]]. split; [exact Hq|].
  unfold spec_files. destruct (served_meta E st) as [md|]; [|inversion H; auto].
  destruct (find_snap md) as [s|].
  - apply bind_ok in H as [ex [Hex H]]. apply st_exists_ok in Hex as [_ Hq0]. destruct ex; [|discriminate].
    apply bind_ok in H as [ms [Hms H]].
    apply two_stage_ok in Hms as [lb [Hlb [Hlc Hlq]]]; [|exact Hwl|exact Hq0].
    apply bind_ok in H as [dfss [Hdfss H]]. injection H as <-.
    assert (Hs : snap_read E st s (dedupe (List.concat dfss))).
    { exists lb, ms, dfss. repeat split; try assumption. apply mapM_ok in Hdfss.
      eapply ListFacts.Forall2_impl_in; [|exact Hdfss]. intros mref d _. apply manifest_step_ok. exact Hwm. }
    split; [apply snap_read_spec; exact Hs|]. intros s' Heq. injection Heq as <-. exact Hs.
  - split; [|discriminate]. destruct (mcur md) as [id|]; [destruct (id =? -1)|]; inversion H; reflexivity.
Qed.

Lemma get_all_complete : forall E st md dfs, noflaky st -> served_meta E st = Some md ->
  spec_files E st md = Some dfs -> fst (get_all_data_files E st) = Ok dfs.
Proof.
  intros E st md dfs Hn Hm Hd. unfold get_all_data_files. rewrite (bind_fst_ok (resolve_complete E st 0 md Hn Hm)).
  unfold spec_files in Hd. destruct (find_snap md) as [s|].
  - unfold spec_dfiles, obind in Hd.
    destruct (cur_bytes st (slist s)) as [lb|] eqn:Hlb; [|discriminate].
    destruct (list_content E lb) as [ms|] eqn:Hlc; [|discriminate].
    destruct (all_some (map (spec_manifest E st) ms)) as [dfss|] eqn:Hall; inversion Hd.
    rewrite (bind_fst_ok (exists_noflaky Hn)), (proj2 (present_cur st (slist s))) by eauto. simpl.
    rewrite (bind_fst_ok (two_stage_complete Hn Hlb Hlc)).
    rewrite (bind_fst_ok (a := dfss)); [reflexivity|]. apply mapM_ok. apply all_some_ok in Hall.
    eapply ListFacts.Forall2_impl_in; [|exact Hall]. intros x y _. apply manifest_step_complete. exact Hn.
  - destruct (mcur md) as [id|]; [destruct (id =? -1)|]; inversion Hd; reflexivity.
Qed.

Lemma read_data_ok : forall E st v df rows, fst (read_data E st v df) = Ok rows <->
  exists b, cur_bytes st (dpath df) = Some b /\ parquet E b = PqOk rows
    /\ quiet st (dpath df) (data_site v df)
    /\ (v = true -> forall d, dsum df = Some d -> sha E b = d).
Proof.
  intros E st v df rows. unfold read_data. rewrite fst_bind. split.
  - destruct (fst (st_get st (dpath df) (data_site v df))) as [b|] eqn:Hb; [|discriminate].
    apply st_get_ok in Hb as [Hb Hq]. intro H. exists b.
    assert (Hp : fst (match parquet E b with PqOk r => ret r | PqFail _ => fail EParse end) = Ok rows -> parquet E b = PqOk rows)
      by (destruct (parquet E b); simpl; congruence).
    destruct v; [destruct (dsum df) as [d|]|].
    + (* verified, a checksum is recorded: it was compared *)
      destruct (N.eqb (sha E b) d) eqn:Hs; [|discriminate].
      apply Hp in H. repeat split; auto. intros _ d' Hd'. injection Hd' as <-. apply N.eqb_eq. exact Hs.
    + (* verified, no checksum recorded *) apply Hp in H. repeat split; auto. discriminate.
    + (* not verified *) apply Hp in H. repeat split; auto. discriminate.
  - intros [b [Hb [Hp [Hq Hs]]]]. rewrite (proj2 (st_get_ok _ _ _ _) (conj Hb Hq)).
    destruct v; [destruct (dsum df) as [d|]|]; rewrite ?(Hs eq_refl _ eq_refl), ?N.eqb_refl, Hp; reflexivity.
Qed.

Lemma read_data_corrupt : forall E st df b d,
  st (dpath df) = Present b -> dsum df = Some d -> sha E b <> d -> fst (read_data E st true df) = Err ECorrupt.
Proof.
  intros E st df b d Hp Hd Hs. unfold read_data, data_site, st_get. rewrite fst_bind, Hd, Hp. simpl.
  apply N.eqb_neq in Hs. rewrite Hs. reflexivity.
Qed.

Lemma read_data_trace : forall E st v df, snd (read_data E st v df) = [(dpath df, data_site v df)].
Proof.
  intros E st v df. unfold read_data, bind. rewrite st_get_trace.
  destruct (fst (st_get st (dpath df) (data_site v df))) as [b|e]; [|reflexivity].
  destruct v; [destruct (dsum df); [destruct (N.eqb _ _)|]|]; try destruct (parquet E b); reflexivity.
Qed.

Lemma data_stage_fst : forall E st a v dfs,
  fst (data_stage E st a v dfs) = fst (tabs <- mapM (read_data E st v) dfs ;; ret (List.concat tabs)).
Proof. intros E st a v dfs. destruct a; try reflexivity. unfold data_stage. rewrite !fst_bind, par_map_fst. reflexivity. Qed.

Lemma data_stage_t_ok : forall E ts v dfs t tabs, fst (data_stage_t E ts t v dfs) = Ok tabs ->
  forall i df tab, nth_error dfs i = Some df -> nth_error tabs i = Some tab ->
  fst (read_data E (ts (t + i)%nat) v df) = Ok tab.
Proof.
  intros E ts v dfs. induction dfs as [|df0 tl IH]; intros t tabs H i df tab Hdf Htab; [destruct i; discriminate|].
  simpl in H. apply bind_ok in H as [y [Hy H]]. apply bind_ok in H as [ys [Hys H]]. injection H as <-.
  destruct i as [|i]; simpl in Hdf, Htab.
  - injection Hdf as <-. injection Htab as <-. rewrite Nat.add_0_r. exact Hy.
  - rewrite Nat.add_succ_r. exact (IH (S t) ys Hys i df tab Hdf Htab).
Qed.

Lemma data_stage_t_trace : forall E ts v dfs t tabs, fst (data_stage_t E ts t v dfs) = Ok tabs ->
  snd (data_stage_t E ts t v dfs) = map (fun df => (dpath df, data_site v df)) dfs.
Proof.
  intros E ts v dfs. induction dfs as [|df tl IH]; intros t tabs H; simpl in *; [reflexivity|].
  apply bind_ok in H as [y [Hy H]]. apply bind_ok in H as [ys [Hys _]].
  rewrite (bind_snd_ok Hy), (bind_snd_ok Hys), read_data_trace, (IH _ _ Hys). simpl. rewrite app_nil_r. reflexivity.
Qed.

Lemma run_eq : forall E st a o,
  run E st a o
  = (dfs <- get_all_data_files E st ;;
     if reads_data a then rows <- data_stage E st a (verify o) dfs ;; ret (ARows rows)
     else ret (ACount (fold_right Z.add 0 (map dcount dfs)))).
Proof. intros E st a o. destruct a; reflexivity. Qed.

Lemma run_ok : forall E st a o ans, fst (run E st a o) = Ok ans ->
  exists dfs, fst (get_all_data_files E st) = Ok dfs /\
    if reads_data a
    then exists tabs, Forall2 (fun df t => fst (read_data E st (verify o) df) = Ok t) dfs tabs /\ ans = ARows (List.concat tabs)
    else ans = ACount (fold_right Z.add 0 (map dcount dfs)).
Proof.
  intros E st a o ans H. rewrite run_eq in H. apply bind_ok in H as [dfs [Hd H]]. exists dfs. split; [exact Hd|].
  destruct (reads_data a); [|inversion H; reflexivity].
  apply bind_ok in H as [rows [Hr H]]. rewrite data_stage_fst in Hr. apply bind_ok in Hr as [tabs [Ht Hr]].
  apply mapM_ok in Ht. inversion H. inversion Hr. eauto.
Qed.

Lemma run_meta_err : forall E st a o e, fst (get_all_data_files E st) = Err e -> out (read_current E st a o) = Err e.
Proof. intros E st a o e H. exact (bind_fst_err H). Qed.

Lemma run_data_err : forall E st a o dfs e,
  reads_data a = true -> fst (get_all_data_files E st) = Ok dfs ->
  fst (mapM (read_data E st (verify o)) dfs) = Err e -> fst (run E st a o) = Err e.
Proof.
  intros E st a o dfs e Hr Hg Hm. rewrite run_eq, (bind_fst_ok Hg), Hr. apply bind_fst_err.
  rewrite data_stage_fst. exact (bind_fst_err Hm).
Qed.

Lemma data_rows_spec {E st v dfs tabs} :
  Forall2 (fun df t => fst (read_data E st v df) = Ok t) dfs tabs -> spec_rows E st dfs = Some (List.concat tabs).
Proof.
  intro H. unfold spec_rows.
  rewrite (proj2 (all_some_ok _ _ (spec_file_rows E st) dfs tabs)); [reflexivity|].
  eapply ListFacts.Forall2_impl_in; [|exact H]. intros df t _ Hd. apply read_data_ok in Hd as [b [Hb [Hp _]]].
  unfold spec_file_rows. rewrite Hb. simpl. rewrite Hp. reflexivity.
Qed.

Theorem never_partial : forall E st a o ans md,
  json_not_avro E ->
  out (read_current E st a o) = Ok ans ->
  served_meta E st = Some md ->
  spec_answer E st a md = Some ans
  /\ yielded (read_current E st a o) = match ans with ARows rows => rows | ACount _ => [] end.
Proof.
  intros E st a o ans md Hwf H Hm. unfold read_current in *. simpl in *. split; [|rewrite H; destruct ans; reflexivity].
  apply run_ok in H as [dfs [Hg Hd]]. apply get_all_ok in Hg as [_ Hg]; [|exact Hwf]. rewrite Hm in Hg.
  rewrite spec_answer_files, (proj1 Hg). simpl. destruct (reads_data a); [|subst ans; reflexivity].
  destruct Hd as [tabs [Ht ->]]. rewrite (data_rows_spec Ht). reflexivity.
Qed.

Lemma spec_meta_served : forall E st md, spec_meta E st = Some md -> served_meta E st = Some md.
Proof.
  intros E st md H. unfold spec_meta, obind in H. destruct (hinted E st) as [mk|] eqn:Hh; [|discriminate].
  destruct (cur_bytes st mk) as [b|] eqn:Hb; [|discriminate].
  assert (Hp : present st mk = true) by (apply present_cur; eauto).
  unfold served_meta, resolved, obind. rewrite Hh, Hp, Hb. exact H.
Qed.

(* [sites] takes the bytes, and the last hypothesis speaks of the bytes b' of the Flaky cell, because that is how
   [touched] names the sites: through the cell's own bytes, which the proof then identifies with b. *)
Lemma healthy_not_damaged : forall E st r k b (sites : bytes -> list site),
  cur_bytes st k = Some b -> ~ unparseable E r b -> quiet_sites st k (sites b) ->
  (forall s b', st k = Flaky s b' -> In s (sites b')) ->
  damaged E st r k -> False.
Proof.
  intros E st r k b sites Hb Hp Hq Hs [Ha|b' Hpres Hu|s b' Hf]; unfold cur_bytes in Hb.
  - rewrite Ha in Hb. discriminate.
  - rewrite Hpres in Hb. injection Hb as <-. contradiction.
  - pose proof (Hs s b' Hf) as Hin. rewrite Hf in Hb. injection Hb as <-. exact (flaky_not_quiet Hf (Hq s Hin)).
Qed.

Lemma meta_sites_quiet : forall E st k b, meta_quiet E st 0 -> resolved E st = Some k -> quiet_sites st k (sites_of E st RMeta k b).
Proof.
  intros E st k b [Hq1 Hq2] Hres s Hs. simpl in Hs. apply in_app_or in Hs as [Hs|[<-|[]]]; [|apply Hq1; exact Hres].
  destruct (hinted E st) as [mk|]; [|contradiction]. destruct (N.eqb mk k) eqn:He; [|contradiction].
  apply N.eqb_eq in He. subst mk. destruct Hs as [<-|[]]. apply Hq2. reflexivity.
Qed.

Definition covered (dfs : list dfile) (k : key) : Prop := exists df, selected dfs k = Some df.

Definition served_files (E : env) (st : store) (dfs : list dfile) : Prop :=
  exists md s, served_meta E st = Some md /\ find_snap md = Some s /\ spec_dfiles E st s = Some dfs.

(* What a metadata stage that returned dfs has established about a file reachable in role r: a data file is among
   dfs; any other was there, parsed, and was quiet at every site the pipeline exercises on it -- and has handed
   on to the files it names what [reach] needs to descend one level. *)
Definition read_well (E : env) (st : store) (dfs : list dfile) (r : role) (k : key) : Prop :=
  match r with
  | RData => served_files E st dfs /\ covered dfs k
  | _ => exists b, cur_bytes st k = Some b /\ ~ unparseable E r b /\ quiet_sites st k (sites_of E st r k b)
         /\ match r with
            | RList => served_files E st dfs /\ forall ms, list_content E b = Some ms ->
                         exists dfss, Forall2 (manifest_read E st) ms dfss /\ dfs = dedupe (List.concat dfss)
            | RManifest => served_files E st dfs /\
                           forall dfs0 df, man_content E b = Some dfs0 -> In df dfs0 -> covered dfs (dpath df)
            | _ => True
            end
  end.

(* The excluded case: [reach_hinted] names the pointer's file also when it is gone, and that file the resolution never
   reads (the recovery scan serves another one). *)
Lemma reach_read_well : forall E st dfs r k,
  json_not_avro E -> fst (get_all_data_files E st) = Ok dfs -> reach E st r k ->
  ~ (r = RMeta /\ hinted E st = Some k /\ st k = Absent) ->
  read_well E st dfs r k.
Proof.
  intros E st dfs r k Hwf Hg Hreach. apply get_all_ok in Hg as [Hq Hg]; [|exact Hwf].
  assert (Hmeta : forall mk, resolved E st = Some mk -> read_well E st dfs RMeta mk).
  { intros mk Hres. destruct (served_meta E st) as [md|] eqn:Hm; [|destruct Hg; congruence].
    apply served_meta_inv in Hm as [mk' [b [Hres' [Hb Hp]]]]. assert (mk' = mk) by congruence. subst mk'.
    exists b. repeat split; [exact Hb|simpl; congruence|apply meta_sites_quiet; assumption]. }
  induction Hreach as [mk Hh|mk Hr|md s Hm Hs|l b ms m Hl IH Hb Hc Hin|m b dfs0 df Hm IH Hb Hc Hin]; intro Hexcl.
  - apply Hmeta. unfold resolved. rewrite Hh. destruct (present st mk) eqn:Hp; [reflexivity|].
    apply present_false in Hp. destruct Hexcl. auto.
  - apply Hmeta. exact Hr.
  - rewrite Hm in Hg. pose proof (proj2 Hg s Hs) as Hsnap. pose proof (snap_read_spec Hsnap) as Hspec.
    destruct Hsnap as [lb [ms [dfss [Hlb [Hlc [Hlq [Hf Hd]]]]]]].
    exists lb. repeat split; [exact Hlb|simpl; congruence|exact Hlq|exists md, s; auto|].
    intros ms' Hc'. rewrite Hlc in Hc'. injection Hc' as <-. eauto.
  - destruct IH as [b' [Hb' [_ [_ [Hserved Hnext]]]]]; [intros [Hx _]; discriminate|].
    rewrite Hb in Hb'. injection Hb' as <-. destruct (Hnext ms Hc) as [dfss [Hf Hd]].
    destruct (ListFacts.Forall2_in_l _ _ _ _ _ _ Hf Hin) as [dfs1 [Hin1 [mb [Hmb [Hmc Hmq]]]]].
    exists mb. repeat split; [exact Hmb|simpl; congruence|exact Hmq|exact Hserved|].
    intros dfs0 df Hc0 Hdf. rewrite Hmc in Hc0. injection Hc0 as <-.
    subst dfs. unfold covered. rewrite selected_dedupe. apply selected_some, in_concat. eauto.
  - destruct IH as [b' [Hb' [_ [_ [Hserved Hnext]]]]]; [intros [Hx _]; discriminate|].
    rewrite Hb in Hb'. injection Hb' as <-. exact (conj Hserved (Hnext dfs0 df Hc Hin)).
Qed.

Theorem fail_closed : forall E st a o r k,
  json_not_avro E ->
  reach E st r k -> damaged E st r k -> touched E st a o r k ->
  ~ (r = RMeta /\ hinted E st = Some k /\ st k = Absent) ->
  exists e, out (read_current E st a o) = Err e.
Proof.
  intros E st a o r k Hwf Hreach Hdmg Htouch Hexcl. unfold read_current. simpl.
  destruct (fst (run E st a o)) as [ans|e] eqn:Hok; [exfalso|eauto].
  apply run_ok in Hok as [dfs [Hg Hdata]].
  pose proof (reach_read_well _ _ _ _ _ Hwf Hg Hreach Hexcl) as Hw.
  (* a metadata role: read_well gives a healthy file (healthy_not_damaged), [touched] supplies the Flaky cell's site *)
  assert (Hmeta : r <> RData -> False).
  { assert (Hsite : r <> RData -> forall s b', st k = Flaky s b' -> In s (sites_of E st r k b')).
    { intros Hr s b' Hf. destruct r; [| | |congruence]; unfold touched in Htouch; rewrite Hf in Htouch; exact Htouch. }
    intro Hr. destruct r; [| | |congruence]; destruct Hw as [b [Hb [Hp [Hq _]]]];
      exact (healthy_not_damaged E st _ k b (sites_of E st _ k) Hb Hp Hq (Hsite Hr) Hdmg). }
  destruct r; try (apply Hmeta; discriminate). clear Hmeta.
  (* a data file: the entry the de-duplicated list selects for its path is the one [touched] names *)
  destruct Hw as [[md [s [Hm [Hs Hspec]]]] [df' Hsel]]. destruct (selected_in _ _ _ Hsel) as [Hdf' <-].
  destruct Htouch as [Hreads Hsite]. rewrite Hreads in Hdata. destruct Hdata as [tabs [Ht _]].
  destruct (ListFacts.Forall2_in_l _ _ _ _ _ _ Ht Hdf') as [t [_ Hrd]]. apply read_data_ok in Hrd as [db [Hdb [Hpq [Hq _]]]].
  apply (healthy_not_damaged E st RData (dpath df') db (fun _ => [data_site (verify o) df']) Hdb); try exact Hdmg.
  - intros [p Hpf]. congruence.
  - intros s0 [<-|[]]. exact Hq.
  - intros s0 b' Hfl. rewrite Hfl in Hsite. left. symmetry. exact (Hsite md s dfs df' Hm Hs Hspec Hsel).
Qed.

Lemma garbage_fails_closed : forall E st a o r k b,
  json_not_avro E -> reach E st r k -> st k = Present b -> unparseable E r b -> (r = RData -> reads_data a = true) ->
  exists e, out (read_current E st a o) = Err e.
Proof.
  intros E st a o r k b Hwf Hr Hk Hu Ha. apply (fail_closed E st a o r k Hwf Hr (dmg_garbage _ _ _ _ b Hk Hu)).
  - unfold touched. destruct r; rewrite Hk; auto.
  - intros [_ [_ Habs]]. congruence.
Qed.

Lemma broken_no_files : forall E st md, broken_snapshot E st md -> spec_files E st md = None.
Proof.
  unfold broken_snapshot, spec_files.
  intros E st md [[-> [id [-> Hne]]]|[[s [-> Ha]]|[s [b [ms [m [-> [Hb [Hc [Hin Ha]]]]]]]]]].
  - (* a dangling id *) destruct (id =? -1) eqn:He; [apply Z.eqb_eq in He; contradiction|reflexivity].
  - (* the snapshot's manifest list is absent *) unfold spec_dfiles, cur_bytes. rewrite Ha. reflexivity.
  - (* a manifest the list names is absent *) unfold spec_dfiles. rewrite Hb. simpl. rewrite Hc. simpl.
    destruct (all_some (map (spec_manifest E st) ms)) as [dfss|] eqn:Hall; [exfalso|reflexivity].
    apply all_some_ok in Hall. destruct (ListFacts.Forall2_in_l _ _ _ _ _ _ Hall Hin) as [dfs [_ Hm]].
    simpl in Hm. unfold cur_bytes in Hm. rewrite Ha in Hm. discriminate.
Qed.

Theorem not_empty : forall E st a o md,
  json_not_avro E -> served_meta E st = Some md -> broken_snapshot E st md ->
  exists e, out (read_current E st a o) = Err e.
Proof.
  intros E st a o md Hwf Hm Hb. destruct (out (read_current E st a o)) as [ans|e] eqn:Hok; [exfalso|eauto].
  apply (never_partial E st a o ans md Hwf) in Hok as [Hs _]; [|exact Hm].
  rewrite spec_answer_files, (broken_no_files E st md Hb) in Hs. discriminate.
Qed.

Lemma dfile_eq_dec : forall x y : dfile, {x = y} + {x <> y}.
Proof. decide equality; [decide equality; apply N.eq_dec|apply Z.eq_dec|apply N.eq_dec]. Qed.

Theorem data_error_raises : forall E st a o dfs df e,
  reads_data a = true -> fst (get_all_data_files E st) = Ok dfs -> In df dfs ->
  fst (read_data E st (verify o) df) = Err e ->
  (exists e', out (read_current E st a o) = Err e')
  /\ ((forall df', In df' dfs -> df' <> df -> exists t, fst (read_data E st (verify o) df') = Ok t) ->
      out (read_current E st a o) = Err e).
Proof.
  intros E st a o dfs df e Hr Hg Hin He. unfold read_current. simpl.
  destruct (mapM_err (read_data E st (verify o)) dfs df e Hin He) as [e' He'].
  rewrite (run_data_err E st a o dfs e' Hr Hg He'). split; [eauto|]. intro Hothers.
  apply mapM_err_inv in He' as [y [Hy Hfy]]. destruct (dfile_eq_dec y df) as [->|Hne]; [congruence|].
  destruct (Hothers y Hy Hne) as [t Ht]. congruence.
Qed.

Definition local {A} (p : store -> M A) : Prop :=
  forall st st', (forall k, In k (map fst (snd (p st))) -> st' k = st k) -> p st' = p st.

Lemma local_const : forall A (m : M A), local (fun _ => m).
Proof. intros A m st st' _. reflexivity. Qed.

Lemma local_exists : forall k s, local (fun st => st_exists st k s).
Proof.
  intros k s st st' H. unfold st_exists. rewrite (H k); [reflexivity|].
  rewrite st_exists_trace. left. reflexivity.
Qed.

Lemma local_get : forall k s, local (fun st => st_get st k s).
Proof.
  intros k s st st' H. unfold st_get. rewrite (H k); [reflexivity|].
  rewrite st_get_trace. left. reflexivity.
Qed.

Lemma local_list : forall E r, local (fun st => st_list E st r).
Proof.
  intros E r st st' H. unfold st_list. rewrite (H METADIR); [reflexivity|].
  rewrite st_list_trace. left. reflexivity.
Qed.

Lemma local_bind : forall A B (m : store -> M A) (f : A -> store -> M B),
  local m -> (forall a, local (f a)) -> local (fun st => bind (m st) (fun a => f a st)).
Proof.
  intros A B m f Hm Hf st st' H. unfold bind in *. destruct (fst (m st)) as [a|e] eqn:Hfst; simpl in H.
  - rewrite map_app in H. rewrite (Hm st st'), Hfst, (Hf a st st'); [reflexivity| |]; intros k Hk; apply H, in_or_app; auto.
  - rewrite (Hm st st' H), Hfst. reflexivity.
Qed.

Lemma local_mapM : forall A B (f : store -> A -> M B) l, (forall x, local (fun st => f st x)) -> local (fun st => mapM (f st) l).
Proof.
  intros A B f l Hf. induction l as [|x tl IH]; simpl; [apply local_const|].
  apply local_bind; [apply Hf|]. intro y. apply local_bind; [exact IH|]. intro ys. apply local_const.
Qed.

Lemma local_par_map : forall A B (f : store -> A -> M B) l, (forall x, local (fun st => f st x)) -> local (fun st => par_map (f st) l).
Proof.
  intros A B f l Hf st st' H. unfold par_map in *. simpl in H.
  assert (Hall : forall x, In x l -> f st' x = f st x).
  { intros x Hx. apply Hf. intros k Hk. apply H. rewrite concat_map. apply in_concat.
    exists (map fst (snd (f st x))). split; [|exact Hk]. rewrite map_map. apply in_map_iff. exists x. auto. }
  f_equal; f_equal; apply map_ext_in; intros x Hx; rewrite (Hall x Hx); reflexivity.
Qed.

Lemma local_ext : forall A (p q : store -> M A), (forall st, p st = q st) -> local p -> local q.
Proof. intros A p q Heq Hp st st' H. rewrite <- !Heq. apply Hp. intros k Hk. apply H. rewrite <- Heq. exact Hk. Qed.

Lemma local_avro_stage : forall A k (parse : bytes -> avro A) classes, local (fun st => avro_stage st k parse classes).
Proof.
  intros A k parse classes st st' H. unfold avro_stage in *. cbv zeta in *. rewrite (local_get k (OpOpen, 0%nat) st st'); [reflexivity|].
  intros k0 Hk0. apply H. destruct (fst (st_get st k (OpOpen, 0%nat))) as [b|e].
  - destruct (parse b) as [a|mro]; [exact Hk0|]. destruct (caught classes mro); exact Hk0.
  - destruct (caught classes (mro_of e)); exact Hk0.
Qed.

Lemma local_two_stage : forall A k (av : bytes -> avro A) js classes, local (fun st => two_stage st k av js classes).
Proof.
  intros A k av js classes. unfold two_stage.
  apply local_bind; [apply local_exists|]. intros [|]; simpl; [|apply local_const].
  apply local_bind; [apply local_avro_stage|]. intros [x|]; [apply local_const|].
  apply local_bind; [apply local_get|]. intro b. apply local_const.
Qed.

Lemma local_resolve : forall E r, local (fun st => resolve E st r).
Proof.
  intros E r. unfold resolve. apply local_bind; [apply local_exists|]. intro ex. apply local_bind.
  - destruct ex; [|apply local_const]. apply local_bind; [apply local_get|]. intro b. apply local_const.
  - intro hn. apply local_bind.
    + destruct hn as [mk|]; [|apply local_list].
      apply local_bind; [apply local_exists|]. intros [|]; [apply local_const|apply local_list].
    + intros [mk|]; [|apply local_const]. apply local_bind; [apply local_get|]. intro b. apply local_const.
Qed.

Lemma local_manifest_step : forall E mref, local (fun st => manifest_step E st mref).
Proof.
  intros E [m|]; simpl; [|apply local_const].
  apply local_bind; [apply local_exists|]. intros [|]; simpl; [|apply local_const]. apply local_two_stage.
Qed.

Lemma local_get_all : forall E, local (fun st => get_all_data_files E st).
Proof.
  intro E. unfold get_all_data_files. apply local_bind; [apply local_resolve|]. intro r0.
  destruct (match r0 with Some md => find_snap md | None => None end) as [s|]; [|apply local_const].
  apply local_bind; [apply local_exists|]. intros [|]; simpl; [|apply local_const].
  apply local_bind; [apply local_two_stage|]. intro ms.
  apply local_bind; [|intro dfss; apply local_const]. apply local_mapM. intro x. apply local_manifest_step.
Qed.

Lemma local_read_data : forall E v df, local (fun st => read_data E st v df).
Proof. intros E v df. unfold read_data. apply local_bind; [apply local_get|]. intro b. apply local_const. Qed.

Lemma local_data_stage : forall E a v dfs, local (fun st => data_stage E st a v dfs).
Proof.
  intros E a v dfs. unfold data_stage.
  destruct a; (apply local_bind; [|intro tabs; apply local_const]);
    first [apply local_mapM | apply local_par_map]; intro df; apply local_read_data.
Qed.

Lemma local_run : forall E a o, local (fun st => run E st a o).
Proof.
  intros E a o. unfold run. apply local_bind; [apply local_get_all|]. intro dfs.
  destruct a; try apply local_const; (apply local_bind; [apply local_data_stage|intro rows; apply local_const]).
Qed.

Theorem untouched : forall E st st' a o,
  (forall k, In k (map fst (trace (read_current E st a o))) -> st' k = st k) ->
  out (read_current E st' a o) = out (read_current E st a o)
  /\ trace (read_current E st' a o) = trace (read_current E st a o).
Proof.
  intros E st st' a o H. unfold read_current in *. simpl in *.
  rewrite (local_run E a o st st' H). split; reflexivity.
Qed.

Definition sums_ok (E : env) (st : store) (dfs : list dfile) : Prop :=
  forall df b d, In df dfs -> cur_bytes st (dpath df) = Some b -> dsum df = Some d -> sha E b = d.

Lemma read_data_complete : forall E st v df rows, noflaky st ->
  spec_file_rows E st df = Some rows ->
  (forall b d, cur_bytes st (dpath df) = Some b -> dsum df = Some d -> sha E b = d) ->
  fst (read_data E st v df) = Ok rows.
Proof.
  intros E st v df rows Hn Hr Hsum. unfold spec_file_rows, obind in Hr.
  destruct (cur_bytes st (dpath df)) as [b|] eqn:Hb; [|discriminate].
  destruct (parquet E b) as [rs|p] eqn:Hp; inversion Hr; subst rs.
  apply read_data_ok. exists b. repeat split; [exact Hb|exact Hp|apply noflaky_quiet; exact Hn|intros _ d; apply Hsum; reflexivity].
Qed.

Lemma spec_files_snap : forall E st md dfs, spec_files E st md = Some dfs ->
  (exists s, find_snap md = Some s /\ spec_dfiles E st s = Some dfs) \/ dfs = [].
Proof.
  intros E st md dfs H. unfold spec_files in H. destruct (find_snap md) as [s|]; [eauto|right].
  destruct (mcur md) as [id|]; [destruct (id =? -1)|]; inversion H; reflexivity.
Qed.

Theorem run_complete : forall E st a o md ans,
  noflaky st -> served_meta E st = Some md -> spec_answer E st a md = Some ans ->
  (forall dfs, spec_files E st md = Some dfs -> sums_ok E st dfs) ->
  fst (run E st a o) = Ok ans.
Proof.
  intros E st a o md ans Hn Hm Hans Hsums. rewrite run_eq. rewrite spec_answer_files in Hans.
  destruct (spec_files E st md) as [dfs|] eqn:Hd; [|discriminate]. simpl in Hans.
  rewrite (bind_fst_ok (get_all_complete E st md dfs Hn Hm Hd)). destruct (reads_data a); [|inversion Hans; reflexivity].
  unfold spec_rows in Hans. destruct (all_some (map (spec_file_rows E st) dfs)) as [tabs|] eqn:Hall; inversion Hans.
  rewrite (bind_fst_ok (a := List.concat tabs)); [reflexivity|]. rewrite data_stage_fst, (bind_fst_ok (a := tabs)); [reflexivity|].
  apply mapM_ok. apply all_some_ok in Hall.
  eapply ListFacts.Forall2_impl_in; [|exact Hall]. intros df t Hin Hdf. apply read_data_complete; [exact Hn|exact Hdf|].
  intros b d. exact (Hsums dfs eq_refl df b d Hin).
Qed.

Lemma written_entry_id : forall added d, written_entry added d = d.
Proof. intros [|] [p c s]; reflexivity. Qed.

Lemma create_manifest_app : forall added existing, create_manifest added existing = added ++ existing.
Proof.
  intros added existing. unfold create_manifest.
  rewrite (map_ext _ id (written_entry_id true)), (map_ext _ id (written_entry_id false)), !map_id. reflexivity.
Qed.

Lemma rewrite_step_in : forall del dfs m d, In m (rewrite_step del dfs) -> In d m -> In d dfs.
Proof.
  intros del dfs m d Hm Hd. unfold rewrite_step in Hm.
  destruct (Nat.eqb (List.length (survivors del dfs)) (List.length dfs)); [destruct Hm as [<-|[]]; exact Hd|].
  destruct (survivors del dfs) as [|x tl] eqn:Hs; [contradiction|]. destruct Hm as [<-|[]].
  rewrite create_manifest_app, <- Hs in Hd. apply filter_In in Hd. apply Hd.
Qed.

Lemma apply_commit_in : forall ms c m d, In m (apply_commit ms c) -> In d m ->
  (exists m0, In m0 ms /\ In d m0) \/ In d (c_appended c).
Proof.
  intros ms c m d Hm Hd. unfold apply_commit in Hm. apply in_app_or in Hm as [Hm|Hm].
  - left. destruct (c_deleted c) as [|k del]; [eauto|].
    apply in_flat_map in Hm as [m0 [Hm0 Hm]]. exists m0. split; [exact Hm0|]. exact (rewrite_step_in _ _ _ _ Hm Hd).
  - right. destruct (c_appended c) as [|x app]; [contradiction|]. destruct Hm as [<-|[]].
    rewrite create_manifest_app, app_nil_r in Hd. exact Hd.
Qed.

(* the writer copies path, count and checksum unchanged, whether it adds an entry or carries it over (written_entry_id) *)
Theorem history_entries : forall h ms m d, In m (fold_left apply_commit h ms) -> In d m ->
  (exists m0, In m0 ms /\ In d m0) \/ exists c, In c h /\ In d (c_appended c).
Proof.
  induction h as [|c h IH]; intros ms m d Hm Hd; simpl in Hm; [left; eauto|].
  destruct (IH _ _ _ Hm Hd) as [[m0 [Hm0 Hd0]]|[c' [Hc' Hd']]]; [|right; exists c'; simpl; auto].
  destruct (apply_commit_in _ _ _ _ Hm0 Hd0) as [H|H]; [left; exact H|right; exists c; simpl; auto].
Qed.

Lemma two_stage_ext : forall A st k (p p' : bytes -> avro A) js classes,
  (forall b, p b = p' b) -> two_stage st k p js classes = two_stage st k p' js classes.
Proof.
  intros A st k p p' js classes H. unfold two_stage. apply bind_ext. intro ex. destruct (negb ex); [reflexivity|].
  unfold avro_stage. destruct (fst (st_get st k (OpOpen, 0%nat))) as [b|e]; [rewrite H|]; reflexivity.
Qed.

Lemma get_all_list_decoder : forall E dec dec' st,
  (forall b, project_list (dec b) = project_list (dec' b)) ->
  get_all_data_files (with_list_decoder E dec) st = get_all_data_files (with_list_decoder E dec') st.
Proof.
  intros E dec dec' st H. unfold get_all_data_files.
  change (resolve (with_list_decoder E dec) st) with (resolve (with_list_decoder E dec') st).
  apply bind_ext. intro r0. destruct (match r0 with Some md => find_snap md | None => None end) as [s|]; [|reflexivity].
  apply bind_ext. intro ex. destruct (negb ex); [reflexivity|].
  unfold read_list. rewrite (two_stage_ext _ st (slist s) _ _ _ _ H). reflexivity.
Qed.

Lemma data_stage_decoder : forall E dec, data_stage (with_list_decoder E dec) = data_stage E.
Proof. reflexivity. Qed.

Lemma yielded_of_decoder : forall E dec st v dfs, yielded_of (with_list_decoder E dec) st v dfs = yielded_of E st v dfs.
Proof.
  intros E dec st v dfs. induction dfs as [|df tl IH]; [reflexivity|]. simpl. rewrite IH. reflexivity.
Qed.

Lemma read_current_list_decoder : forall E dec dec' st a o,
  get_all_data_files (with_list_decoder E dec) st = get_all_data_files (with_list_decoder E dec') st ->
  read_current (with_list_decoder E dec) st a o = read_current (with_list_decoder E dec') st a o.
Proof.
  intros E dec dec' st a o H.
  assert (Hr : run (with_list_decoder E dec) st a o = run (with_list_decoder E dec') st a o).
  { unfold run. rewrite H, !data_stage_decoder. reflexivity. }
  unfold read_current. rewrite Hr, H.
  destruct (fst (run (with_list_decoder E dec') st a o)) as [ans|e]; [reflexivity|].
  destruct (is_generator a); [|reflexivity].
  destruct (fst (get_all_data_files (with_list_decoder E dec') st)) as [dfs|e']; [|reflexivity].
  rewrite !yielded_of_decoder. reflexivity.
Qed.

Lemma prefixes_shorter : forall handed groups, Forall2 prefix_of handed groups ->
  (List.length (List.concat handed) <= List.length (List.concat groups))%nat.
Proof.
  intros handed groups H. induction H as [|a b hs gs [c ->] _ IH]; simpl; [lia|]. rewrite !app_length. lia.
Qed.

Lemma prefixes_full : forall handed groups, Forall2 prefix_of handed groups ->
  List.length (List.concat handed) = List.length (List.concat groups) -> handed = groups.
Proof.
  intros handed groups H. induction H as [|a b hs gs [c ->] Hrest IH]; intro He; [reflexivity|]. simpl in He.
  pose proof (prefixes_shorter _ _ Hrest) as Hle. rewrite !app_length in He.
  destruct c; [|simpl in He; lia]. rewrite app_nil_r in *. f_equal. apply IH. lia.
Qed.
