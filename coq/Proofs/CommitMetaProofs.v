(* Proofs/CommitMetaProofs.v -- every committed version, not only the newest, holds a prefix of the flips: version k of the
   chain holds the first k flips (the hypothesis k <= length h is not used: beyond the length firstn k h is h). *)
From Coq Require Import ZArith List.
Require Import DS.Model.Commit DS.Proofs.CommitProofs.
Import ListNotations.

Lemma chain_prefix_ops F p h : chain_ok F p h ->
  forall k, (k <= length h)%nat -> m_ops (nthf F (lastv p (firstn k h))) = m_ops (nthf F p) ++ map snd (firstn k h).
Proof. intros C k _. apply chain_ops, chain_ok_firstn, C. Qed.
