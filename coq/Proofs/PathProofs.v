(* Proofs/PathProofs.v -- lemmas about Model/Path.v (C17).

   The notion everything turns on is `contained t rb q`: q is a sequence of names, no prefix of it is a symlink in t, and it
   lies under the canonical root rb.  Every guard answers only with contained locations (guard_result_ok), every location an
   entry point hands to the OS is such an answer or its parent (run_entry_ok), and the kernel's own walk of a contained
   location ends on it (kwalk_linkfree). *)
From Coq Require Import ZArith List Bool Lia.
Require Import DS.Model.Path DS.Gen.GenPath DS.Proofs.ListFacts.
Import ListNotations.
Open Scope Z_scope.

Lemma leqb_eq : forall a b, leqb a b = true <-> a = b.
Proof. exact (eqbl_eq Z.eqb Z.eqb_eq). Qed.

Lemma leqb_refl : forall a, leqb a a = true.
Proof. intro a. apply leqb_eq. reflexivity. Qed.

Lemma leqb_neq : forall a b, leqb a b = false <-> a <> b.
Proof. intros a b. rewrite <- leqb_eq. destruct (leqb a b); split; congruence. Qed.

Lemma is_prefix_spec : forall a b, is_prefix a b = true <-> exists s, b = a ++ s.
Proof. exact (prefixb_spec Z.eqb Z.eqb_eq). Qed.

Lemma is_prefix_refl : forall a, is_prefix a a = true.
Proof. intro a. apply is_prefix_spec. exists []. rewrite app_nil_r. reflexivity. Qed.

Lemma is_prefix_app : forall a s, is_prefix a (a ++ s) = true.
Proof. intros a s. apply is_prefix_spec. exists s. reflexivity. Qed.

Lemma is_prefix_trans : forall a b c, is_prefix a b = true -> is_prefix b c = true -> is_prefix a c = true.
Proof.
  intros a b c H1 H2. apply is_prefix_spec in H1. apply is_prefix_spec in H2.
  destruct H1 as [s1 ->]. destruct H2 as [s2 ->]. apply is_prefix_spec. exists (s1 ++ s2). rewrite app_assoc. reflexivity.
Qed.

Lemma lcp_prefix_iff : forall a b, lcp a b = a <-> is_prefix a b = true.
Proof.
  induction a as [|x a IH]; intros b; simpl.
  - split; reflexivity.
  - destruct b as [|y b]; [split; discriminate|].
    destruct (Z.eqb_spec x y) as [->|Hxy]; simpl.
    + rewrite <- IH. split; [intro H; inversion H as [H1]; rewrite H1; exact H1 | intro H; rewrite H; reflexivity].
    + split; discriminate.
Qed.

Lemma lcp_is_prefix_l : forall a b, is_prefix (lcp a b) a = true.
Proof.
  induction a as [|x a IH]; intros b; simpl; [reflexivity|].
  destruct b as [|y b]; [reflexivity|]. destruct (Z.eqb_spec x y); simpl; [|reflexivity].
  rewrite Z.eqb_refl. apply IH.
Qed.

Lemma is_prefix_removelast : forall a b, is_prefix a b = true -> b <> a -> is_prefix a (removelast b) = true.
Proof.
  intros a b H Hne. apply is_prefix_spec in H. destruct H as [s ->].
  destruct s as [|x s] using rev_ind; [rewrite app_nil_r in Hne; contradiction Hne; reflexivity|].
  rewrite app_assoc, removelast_last. apply is_prefix_app.
Qed.

Lemma is_prefix_removelast_self : forall a, is_prefix (removelast a) a = true.
Proof.
  intro a. destruct a as [|x a] using rev_ind; [reflexivity|]. rewrite removelast_last. apply is_prefix_app.
Qed.

Definition names (l : list comp) : Prop := forallb is_name l = true.

Lemma names_nil : names []. Proof. reflexivity. Qed.

Lemma names_app : forall a b, names (a ++ b) <-> names a /\ names b.
Proof. intros a b. unfold names. rewrite forallb_app, andb_true_iff. reflexivity. Qed.

Lemma names_cons : forall c l, names (c :: l) <-> is_name c = true /\ names l.
Proof. intros c l. unfold names. simpl. apply andb_true_iff. Qed.

Lemma names_snoc : forall p c, names p -> is_name c = true -> names (p ++ [c]).
Proof. intros p c H1 H2. apply names_app. split; [exact H1|]. apply names_cons. split; [exact H2|exact names_nil]. Qed.

Lemma names_removelast : forall p, names p -> names (removelast p).
Proof.
  intros p H. destruct p as [|x p] using rev_ind; [exact H|]. rewrite removelast_last. apply names_app in H. apply H.
Qed.

Lemma names_skipn : forall n p, names p -> names (skipn n p).
Proof. intros n p H. rewrite <- (firstn_skipn n p) in H. apply names_app in H. apply H. Qed.

Lemma names_prefix : forall a b, names b -> is_prefix a b = true -> names a.
Proof. intros a b H P. apply is_prefix_spec in P. destruct P as [s ->]. apply names_app in H. apply H. Qed.

Lemma is_name_spec : forall c, is_name c = true <-> is_skip c = false /\ is_up c = false.
Proof. intro c. unfold is_name. rewrite andb_true_iff, !negb_true_iff. reflexivity. Qed.

Lemma is_name_nonzero : forall c, is_name c = true -> (c =? 0) = false.
Proof. intros c H. apply is_name_spec in H. destruct H as [H _]. unfold is_skip in H. apply orb_false_iff in H. apply H. Qed.

Lemma names_cp_filter : forall l, names l -> cp_filter l = l.
Proof.
  induction l as [|c l IH]; intros H; [reflexivity|]. apply names_cons in H. destruct H as [H1 H2].
  unfold cp_filter. simpl. apply is_name_spec in H1. destruct H1 as [-> _]. simpl. f_equal. apply IH. exact H2.
Qed.

Lemma is_abs_abs_str : forall l, is_abs (abs_str l) = true.
Proof. destruct l as [|c l]; reflexivity. Qed.

Lemma cp_filter_abs_str : forall l, cp_filter (abs_str l) = cp_filter l.
Proof. destruct l as [|c l]; reflexivity. Qed.

Lemma commonpath2_abs : forall b f,
  commonpath2 (abs_str b) (abs_str f) = Some (abs_str (lcp (cp_filter b) (cp_filter f))).
Proof. intros b f. unfold commonpath2. rewrite !is_abs_abs_str, !cp_filter_abs_str. reflexivity. Qed.

Lemma abs_str_inj_names : forall a b, names a -> names b -> abs_str a = abs_str b -> a = b.
Proof.
  intros a b Ha Hb E. destruct a as [|x a]; destruct b as [|y b]; simpl in E; try reflexivity.
  - inversion E; subst. unfold names in Hb. simpl in Hb. discriminate.
  - inversion E; subst. unfold names in Ha. simpl in Ha. discriminate.
  - inversion E; subst. reflexivity.
Qed.

Lemma commonpath_prefix : forall b f, names b -> names f ->
  (commonpath2 (abs_str b) (abs_str f) = Some (abs_str b) <-> is_prefix b f = true).
Proof.
  intros b f Hb Hf. rewrite commonpath2_abs, (names_cp_filter b Hb), (names_cp_filter f Hf). split.
  - intro H. inversion H as [E]. apply lcp_prefix_iff. apply abs_str_inj_names; [|exact Hb|exact E].
    apply (names_prefix _ b Hb). apply lcp_is_prefix_l.
  - intro H. apply lcp_prefix_iff in H. rewrite H. reflexivity.
Qed.

Lemma inside_iff : forall rb full, names rb -> names full -> (inside rb full = true <-> is_prefix rb full = true).
Proof.
  intros rb full Hb Hf. unfold inside. rewrite <- (commonpath_prefix rb full Hb Hf).
  rewrite commonpath2_abs. split.
  - intro H. apply leqb_eq in H. rewrite H. reflexivity.
  - intro H. inversion H as [E]. rewrite E. apply leqb_refl.
Qed.

Lemma lstrip_not_abs : forall s : pstr, is_abs (lstrip s) = false.
Proof.
  intro s. unfold lstrip. induction s as [|c s IH]; simpl; [reflexivity|].
  destruct (c =? 0) eqn:E; [exact IH|]. simpl. destruct s; [reflexivity|exact E].
Qed.

Lemma names_not_abs : forall r, names r -> is_abs r = false.
Proof. intros [|c [|c' r]] Hn; try reflexivity. apply names_cons in Hn. simpl. apply is_name_nonzero, Hn. Qed.

Lemma join_for_resolve_abs : forall base p : pstr, is_abs p = true -> join_for_resolve base p = os_join base (lstrip p).
Proof. intros base p H. unfold join_for_resolve. rewrite H. reflexivity. Qed.

Lemma join_for_resolve_rel : forall base p : pstr, is_abs p = false -> join_for_resolve base p = os_join base p.
Proof. intros base p H. unfold join_for_resolve. rewrite H. reflexivity. Qed.

Lemma os_join_canonical_base : forall (b : loc) (s : pstr), names b -> b <> [] -> is_abs s = false ->
  os_join (abs_str b) s = abs_str b ++ s.
Proof.
  intros b s Hn Hne Hs. unfold os_join. rewrite Hs.
  destruct (exists_last Hne) as [b0 [x ->]]. apply names_app in Hn. destruct Hn as [_ Hx]. apply names_cons in Hx.
  replace (abs_str (b0 ++ [x])) with ((0 :: b0) ++ [x]) by (destruct b0; reflexivity).
  rewrite rev_unit, (is_name_nonzero x (proj1 Hx)). reflexivity.
Qed.

Lemma jrp_nil : forall d t path seen, jrp d t path [] seen = RPOk path.
Proof. destruct d; reflexivity. Qed.

Lemma norm_step_name : forall p c, is_name c = true -> norm_step p c = p ++ [c].
Proof. intros p c H. apply is_name_spec in H. destruct H as [Hs Hu]. unfold norm_step. rewrite Hs, Hu. reflexivity. Qed.

(* What a walk asks the file system about a component: is it a name under which a link stands (then: its target)?
   Every other component moves the position as in normpath -- "", "." and ".." lexically, a name by appending itself. *)
Definition expands (t : tree) (cur : loc) (c : comp) : option pstr :=
  if is_name c then match lstat t (cur ++ [c]) with Some (Link tg) => Some tg | _ => None end else None.

Lemma expands_some : forall t cur c tg, expands t cur c = Some tg -> is_name c = true /\ lstat t (cur ++ [c]) = Some (Link tg).
Proof.
  intros t cur c tg H. unfold expands in H. destruct (is_name c); [|discriminate].
  destruct (lstat t (cur ++ [c])) as [[| |tg0]|]; inversion H; subst. split; reflexivity.
Qed.

Lemma jrp_cons : forall d t path c rest seen,
  jrp d t path (c :: rest) seen =
  match expands t path c with
  | Some tg =>
    if mem (path ++ [c]) seen then RPJunk (junk_join (abs_str (path ++ [c])) rest)
    else match d with
         | O => RPFuel
         | S d' => match jrp d' t (link_start path tg) (link_rest tg) ((path ++ [c]) :: seen) with
                   | RPOk p' => jrp d t p' rest seen
                   | RPJunk j => RPJunk (junk_join j rest)
                   | RPFuel => RPFuel
                   end
         end
  | None => jrp d t (norm_step path c) rest seen
  end.
Proof.
  (* `simpl jrp at 1`: the calls on the right would each unfold to the whole inner loop *)
  intros. unfold expands, is_name, norm_step. destruct d; simpl jrp at 1;
    (case (is_skip c); [reflexivity|case (is_up c); [reflexivity|]]); cbn [negb andb];
    destruct (lstat t (path ++ [c])) as [[| |tg]|]; reflexivity.
Qed.

(* induction on the fuel for the expansion of a link, inside it on the remaining components *)
Lemma jrp_ok_invariant : forall (P : loc -> Prop) t,
  P [] -> (forall p c, P p -> P (norm_step p c)) ->
  forall d rest path seen p', P path -> jrp d t path rest seen = RPOk p' -> P p'.
Proof.
  intros P t H0 Hstep d. induction d as [d IHd] using lt_wf_ind.
  induction rest as [|c rest IH]; intros path seen p' HP H.
  - rewrite jrp_nil in H. inversion H; subst. exact HP.
  - rewrite jrp_cons in H. destruct (expands t path c) as [tg|]; [|exact (IH _ _ _ (Hstep path c HP) H)].
    destruct (mem (path ++ [c]) seen); [discriminate|]. destruct d as [|d]; [discriminate|].
    destruct (jrp d t (link_start path tg) (link_rest tg) ((path ++ [c]) :: seen)) as [p1|j|] eqn:E1; try discriminate.
    eapply IH; [|exact H]. eapply (IHd d); [apply Nat.lt_succ_diag_r| |exact E1].
    unfold link_start. destruct (is_abs tg); assumption.
Qed.

Lemma norm_step_names : forall acc c, names acc -> names (norm_step acc c).
Proof.
  intros acc c H. unfold norm_step.
  destruct (is_skip c) eqn:Es; [exact H|]. destruct (is_up c) eqn:Eu; [apply names_removelast; exact H|].
  apply names_snoc; [exact H|]. apply is_name_spec. split; assumption.
Qed.

Lemma normpath_names : forall s, names (normpath s).
Proof. intro s. unfold normpath. apply fold_left_preserves; [exact norm_step_names|exact names_nil]. Qed.

Lemma realpath_names : forall d t cwd s q, realpath d t cwd s = Ok q -> names q.
Proof.
  intros d t cwd s q H. unfold realpath in H.
  destruct (jrp d t [] (tl (absolutize cwd s)) []) as [p|j|] eqn:E; inversion H; subst.
  - exact (jrp_ok_invariant names t names_nil norm_step_names _ _ _ _ _ names_nil E).
  - apply normpath_names.
Qed.

Lemma canonical_ok : forall d t cwd s q, canonical d t cwd s = Ok q ->
  realpath d t cwd s = Ok q /\ no_link_prefix t q = true.
Proof.
  intros d t cwd s q H. unfold canonical in H. destruct (realpath d t cwd s) as [q'|e]; [|discriminate].
  destruct (no_link_prefix t q') eqn:E; inversion H; subst. split; [reflexivity|exact E].
Qed.

(* A link-free location under the canonical root.  resolve_ok and arrow_path_ok below, like the theorems of Props/C17.v
   that they prove, spell the three conjuncts out; everything after them is stated through `contained`. *)
Definition contained (t : tree) (rb q : loc) : Prop := names q /\ no_link_prefix t q = true /\ is_prefix rb q = true.

(* the boundary check shared by _resolve_path and the absolute branch of _get_arrow_path *)
Lemma canonical_inside_ok : forall d t cwd base s full rb,
  canonical d t cwd s = Ok full -> realpath d t cwd base = Ok rb -> inside rb full = true ->
  realpath d t cwd s = Ok full /\ contained t rb full /\ names rb.
Proof.
  intros d t cwd base s full rb Ec Eb Ei. apply canonical_ok in Ec. destruct Ec as [Er En].
  pose proof (realpath_names _ _ _ _ _ Er) as Nq. pose proof (realpath_names _ _ _ _ _ Eb) as Nb.
  repeat split; try assumption. apply inside_iff; assumption.
Qed.

Lemma resolve_ok : forall d t cwd base p q, resolve d t cwd base p = Ok q ->
  exists rb, realpath d t cwd base = Ok rb
          /\ realpath d t cwd (join_for_resolve base p) = Ok q
          /\ is_prefix rb q = true /\ no_link_prefix t q = true /\ names q /\ names rb.
Proof.
  intros d t cwd base p q H. unfold resolve in H.
  destruct (canonical d t cwd (join_for_resolve base p)) as [full|e] eqn:Ec; [|discriminate].
  destruct (realpath d t cwd base) as [rb|e] eqn:Eb; [|discriminate].
  destruct (inside rb full) eqn:Ei; inversion H; subst.
  destruct (canonical_inside_ok _ _ _ _ _ _ _ Ec Eb Ei) as [Er [[Nq [Hn Hp]] Nb]].
  exists rb. repeat split; assumption.
Qed.

Lemma resolve_contained : forall d t cwd base p q rb, realpath d t cwd base = Ok rb -> resolve d t cwd base p = Ok q ->
  contained t rb q.
Proof.
  intros d t cwd base p q rb Hb Hr. apply resolve_ok in Hr. destruct Hr as [rb' [Eb' [_ [Hp [Hn [Nq _]]]]]].
  rewrite Hb in Eb'. inversion Eb'; subst. repeat split; assumption.
Qed.

Lemma resolve_reject : forall d t cwd base p full rb,
  realpath d t cwd (join_for_resolve base p) = Ok full -> realpath d t cwd base = Ok rb ->
  is_prefix rb full = false -> resolve d t cwd base p = Err Security.
Proof.
  intros d t cwd base p full rb Hf Hb Hn. unfold resolve, canonical. rewrite Hf.
  destruct (no_link_prefix t full); [|reflexivity]. rewrite Hb.
  destruct (inside rb full) eqn:Ei; [|reflexivity].
  apply inside_iff in Ei; [congruence|eapply realpath_names; eauto|eapply realpath_names; eauto].
Qed.

Lemma arrow_path_ok : forall d t cwd dirs base p q, arrow_path d t cwd dirs base p = Ok q ->
  exists rb, realpath d t cwd base = Ok rb /\ is_prefix rb q = true /\ no_link_prefix t q = true /\ names q /\ names rb
          /\ (realpath d t cwd (join_for_resolve base p) = Ok q \/ (is_abs p = true /\ realpath d t cwd p = Ok q)).
Proof.
  intros d t cwd dirs base p q H. unfold arrow_path in H.
  destruct (realpath d t cwd base) as [rb|e] eqn:Eb; [|discriminate].
  destruct (negb (is_abs p) || existsb (Z.eqb (first_component p)) dirs) eqn:Ebr.
  - apply resolve_ok in H. destruct H as [rb' [Eb' [Er [Hp [Hn [Nq Nb]]]]]]. rewrite Eb in Eb'. inversion Eb'; subst.
    exists rb'. repeat split; try assumption. left. exact Er.
  - apply orb_false_iff in Ebr. destruct Ebr as [Ea _]. apply negb_false_iff in Ea.
    destruct (canonical d t cwd p) as [full|e] eqn:Ec; [|discriminate].
    destruct (inside rb full) eqn:Ei; inversion H; subst.
    destruct (canonical_inside_ok _ _ _ _ _ _ _ Ec Eb Ei) as [Er [[Nq [Hn Hp]] Nb]].
    exists rb. repeat split; try assumption. right. split; assumption.
Qed.

Lemma prefixes_from_app : forall a b pre, prefixes_from pre (a ++ b) = prefixes_from pre a ++ prefixes_from (pre ++ a) b.
Proof.
  induction a as [|x a IH]; intros b pre; simpl; [rewrite app_nil_r; reflexivity|].
  rewrite IH. rewrite <- app_assoc. reflexivity.
Qed.

Lemma no_link_prefix_of_prefix : forall t a b, is_prefix a b = true -> no_link_prefix t b = true -> no_link_prefix t a = true.
Proof.
  intros t a b P H. apply is_prefix_spec in P. destruct P as [s ->].
  unfold no_link_prefix in *. rewrite prefixes_from_app, forallb_app in H. apply andb_true_iff in H. apply H.
Qed.

(* what a successful step of the kernel's walk is, its existence and is-a-directory checks forgotten *)
Lemma kwalk_step : forall f t cur c rest l, kwalk (S f) t cur (c :: rest) = Ok l ->
  match expands t cur c with
  | Some tg => kwalk f t (link_start cur tg) (link_rest tg ++ rest) = Ok l
  | None => kwalk f t (norm_step cur c) rest = Ok l
  end.
Proof.
  intros f t cur c rest l H. simpl in H. unfold expands, is_name, norm_step, is_skip.
  destruct (c =? 0); [exact H|]. destruct (lstat t cur) as [[| |tg0]|]; try discriminate.
  destruct (c =? 1); [exact H|]. destruct (is_up c); [exact H|]. simpl.
  destruct (lstat t (cur ++ [c])) as [[| |tg]|]; try discriminate; exact H.
Qed.

Lemma kwalk_linkfree : forall t rest pre fuel l, names rest ->
  forallb (fun p => negb (is_link (lstat t p))) (prefixes_from pre rest) = true ->
  kwalk fuel t pre rest = Ok l -> l = pre ++ rest.
Proof.
  intros t. induction rest as [|c rest IH]; intros pre fuel l Hn Hl Hk; (destruct fuel as [|f]; [discriminate|]).
  - inversion Hk. rewrite app_nil_r. reflexivity.
  - apply kwalk_step in Hk. apply names_cons in Hn. destruct Hn as [Hc Hn].
    unfold expands in Hk. rewrite Hc, (norm_step_name _ _ Hc) in Hk.
    simpl in Hl. apply andb_true_iff in Hl. destruct Hl as [Hl1 Hl2].
    (* a link at pre ++ [c] contradicts link-freeness (Hl1); in the other three cases the walk goes on from there *)
    destruct (lstat t (pre ++ [c])) as [[| |tg]|]; [| |discriminate Hl1|];
      (apply IH in Hk; [|assumption|assumption]; rewrite Hk, <- app_assoc; reflexivity).
Qed.

Lemma map_res_in : forall A B (f : A -> res B) l bs b, map_res f l = Ok bs -> In b bs -> exists a, In a l /\ f a = Ok b.
Proof.
  induction l as [|a l IH]; intros bs b H Hin; simpl in H.
  - inversion H; subst. contradiction.
  - destruct (f a) as [b0|e] eqn:Ef; [|discriminate]. destruct (map_res f l) as [bs0|e] eqn:Em; [|discriminate].
    inversion H; subst. destruct Hin as [->|Hin].
    + exists a. split; [left; reflexivity|exact Ef].
    + destruct (IH bs0 b eq_refl Hin) as [a' [Ha' Hf']]. exists a'. split; [right; exact Ha'|exact Hf'].
Qed.

Lemma lcp_app_l : forall a s, lcp a (a ++ s) = a.
Proof. intros a s. apply lcp_prefix_iff. apply is_prefix_app. Qed.

Lemma relativise_under : forall rb s, names s -> s <> [] -> relativise rb (rb ++ s) = Ok s.
Proof.
  intros rb s Hn Hne. unfold relativise.
  rewrite lcp_app_l, Nat.sub_diag, skipn_app, skipn_all, Nat.sub_diag. simpl.
  destruct s as [|c s]; [contradiction|]. apply names_cons in Hn. destruct Hn as [Hc _].
  apply is_name_spec in Hc. destruct Hc as [_ Hu]. rewrite Hu. reflexivity.
Qed.

Lemma walk_files_in : forall kf t q e, In e (walk_files kf t q) ->
  is_prefix q e = true /\ e <> q /\ names e /\ walk_is_file kf t e = true.
Proof.
  intros kf t q e H. unfold walk_files in H. apply filter_In in H. destruct H as [_ Hc].
  apply andb_true_iff in Hc. destruct Hc as [Hc Hw]. apply andb_true_iff in Hc. destruct Hc as [Hsp Hne].
  unfold strict_prefix in Hsp. apply andb_true_iff in Hsp. destruct Hsp as [Hqe Hneq]. apply negb_true_iff, leqb_neq, not_eq_sym in Hneq.
  repeat split; assumption.
Qed.

Lemma walk_dirs_in : forall t q e, In e (walk_dirs t q) -> is_prefix q e = true /\ names e /\ lstat t e = Some Dir.
Proof.
  intros t q e H. unfold walk_dirs in H. apply filter_In in H. destruct H as [_ Hc].
  apply andb_true_iff in Hc. destruct Hc as [Hc Hd]. apply andb_true_iff in Hc. destruct Hc as [Hq Hn].
  destruct (lstat t e) as [[| |tg]|]; try discriminate. repeat split; assumption.
Qed.

Lemma lstat_at_snoc : forall t a c pre,
  lstat_at t pre (a ++ [c]) = match lstat_at t pre a with Some Dir => look t (pre ++ a ++ [c]) | _ => None end.
Proof.
  intros t. induction a as [|x a IH]; intros c pre; simpl; [reflexivity|].
  destruct (look t pre) as [[| |tg]|]; try reflexivity. rewrite IH, <- app_assoc. reflexivity.
Qed.

(* lstat answers Dir only when every proper prefix is a directory *)
Lemma lstat_dir_no_link : forall t d, lstat t d = Some Dir -> no_link_prefix t d = true.
Proof.
  intros t d. induction d as [|c d IH] using rev_ind; intro H; [reflexivity|].
  unfold no_link_prefix. rewrite prefixes_from_app, forallb_app. simpl. rewrite H. simpl. rewrite andb_true_r.
  apply IH. unfold lstat in *. rewrite lstat_at_snoc in H.
  destruct (lstat_at t [] d) as [[| |tg]|]; try discriminate. reflexivity.
Qed.

Lemma list_files_ok : forall d kf t cwd base prefix rs r,
  list_files d kf t cwd base prefix = Ok rs -> In r rs ->
  exists rb q, realpath d t cwd base = Ok rb /\ resolve d t cwd base prefix = Ok q
    /\ names r /\ r <> []
    /\ is_prefix q (rb ++ r) = true /\ (rb ++ r) <> q
    /\ In (rb ++ r) (walk_files kf t q)
    /\ walk_is_file kf t (rb ++ r) = true.
Proof.
  intros d kf t cwd base prefix rs r H Hin. unfold list_files in H.
  destruct (resolve d t cwd base prefix) as [q|e] eqn:Er; [|discriminate].
  destruct (negb (exists_loc t q)); [inversion H; subst; contradiction|].
  destruct (realpath d t cwd base) as [rb|e] eqn:Eb; [|discriminate].
  destruct (map_res_in _ _ _ _ _ _ H Hin) as [e [He Hf]].
  destruct (resolve_contained _ _ _ _ _ _ _ Eb Er) as [_ [_ Hp]].
  destruct (walk_files_in _ _ _ _ He) as [Hqe [Hneq [Hne Hw]]].
  (* q = rb ++ u and the entry is q ++ v with v <> []: it is rb ++ s for s = u ++ v, and s is what relpath returns *)
  destruct (proj1 (is_prefix_spec _ _) Hp) as [u Eu]. destruct (proj1 (is_prefix_spec _ _) Hqe) as [v Ev].
  assert (Hs : u ++ v <> []).
  { intro E. apply app_eq_nil in E. destruct E as [_ ->]. rewrite app_nil_r in Ev. exact (Hneq Ev). }
  rewrite Eu, <- app_assoc in Ev. subst e. set (s := u ++ v) in *.
  assert (Ns : names s) by (apply names_app in Hne; apply Hne).
  assert (Er2 : Ok r = Ok s) by (rewrite <- Hf; apply relativise_under; assumption). inversion Er2; subst r.
  exists rb, q. repeat split; assumption.
Qed.

(* what an access may reach: a contained location; os.makedirs(exist_ok) may
   in addition name an ancestor of the root (it creates missing directories only) *)
Definition touch_ok (t : tree) (rb : loc) (a : access) : Prop :=
  names (snd a) /\ no_link_prefix t (snd a) = true /\
  (is_prefix rb (snd a) = true \/ (fst a = AMkdirs /\ is_prefix (snd a) rb = true)).

Definition guard_result (d : nat) (t : tree) (cwd : loc) (dirs : list comp) (base : pstr) (rb : loc) (g : guard) (p : pstr) : res loc :=
  match g with
  | GResolve => resolve d t cwd base p
  | GFileTarget => file_target rb (resolve d t cwd base p)
  | GArrow => arrow_path d t cwd dirs base p
  | GArrowWrite => file_target rb (arrow_path d t cwd dirs base p)
  end.

Lemma contained_touch : forall t rb k q, contained t rb q -> touch_ok t rb (k, q).
Proof. intros t rb k q [Nq [Hn Hp]]. unfold touch_ok. simpl. auto. Qed.

Lemma parent_linkfree : forall t q, names q -> no_link_prefix t q = true -> names (parent q) /\ no_link_prefix t (parent q) = true.
Proof.
  intros t q Nq Hn. split; [apply names_removelast; exact Nq|].
  eapply no_link_prefix_of_prefix; [apply is_prefix_removelast_self|exact Hn].
Qed.

Lemma contained_parent : forall t rb q, contained t rb q -> q <> rb -> contained t rb (parent q).
Proof.
  intros t rb q [Nq [Hn Hp]] Hne. destruct (parent_linkfree t q Nq Hn) as [Np Hnp].
  split; [exact Np|]. split; [exact Hnp|]. apply is_prefix_removelast; assumption.
Qed.

(* makedirs of the parent: when q is the root itself this names the root's own parent, an ancestor *)
Lemma mkdirs_parent_ok : forall t rb q, contained t rb q -> touch_ok t rb (AMkdirs, parent q).
Proof.
  intros t rb q Hc. destruct (loc_eq_dec q rb) as [->|Hne]; [|apply contained_touch, contained_parent; assumption].
  destruct Hc as [Nq [Hn _]]. destruct (parent_linkfree t rb Nq Hn) as [Np Hnp].
  split; [exact Np|]. split; [exact Hnp|]. right. split; [reflexivity|apply is_prefix_removelast_self].
Qed.

Lemma arrow_contained : forall d t cwd dirs base p q rb, realpath d t cwd base = Ok rb -> arrow_path d t cwd dirs base p = Ok q ->
  contained t rb q.
Proof.
  intros d t cwd dirs base p q rb Hb Hr. apply arrow_path_ok in Hr. destruct Hr as [rb' [Eb' [Hp [Hn [Nq _]]]]].
  rewrite Hb in Eb'. inversion Eb'; subst. repeat split; assumption.
Qed.

(* _resolve_file_target / _get_arrow_write_path refuse the root itself *)
Definition file_guard (g : guard) : bool := match g with GFileTarget | GArrowWrite => true | _ => false end.

Lemma file_target_ok : forall rb r q, file_target rb r = Ok q -> r = Ok q /\ q <> rb.
Proof.
  intros rb [q0|e] q H; simpl in H; [|discriminate]. destruct (leqb q0 rb) eqn:El; inversion H; subst.
  split; [reflexivity|apply leqb_neq; exact El].
Qed.

Lemma guard_result_ok : forall d t cwd dirs base rb g p q,
  realpath d t cwd base = Ok rb -> guard_result d t cwd dirs base rb g p = Ok q ->
  contained t rb q /\ (file_guard g = true -> q <> rb).
Proof.
  intros d t cwd dirs base rb g p q Hb H. destruct g; simpl in H.
  - split; [eapply resolve_contained; eassumption|discriminate].
  - apply file_target_ok in H. destruct H as [H Hne]. split; [eapply resolve_contained; eassumption|intros _; exact Hne].
  - split; [eapply arrow_contained; eassumption|discriminate].
  - apply file_target_ok in H. destruct H as [H Hne]. split; [eapply arrow_contained; eassumption|intros _; exact Hne].
Qed.

(* run_entry as data: the guard an entry point sends its string through, and the accesses it then makes, each at the
   guard's result (false) or at the parent directory of the result (true) *)
Definition entry_guard (ep : entry) : guard :=
  match ep with
  | EpWrite | EpWriteJson => GFileTarget
  | EpParquetSource | EpReadDataFile => GArrow
  | EpWriteDataFile => GArrowWrite
  | _ => GResolve
  end.

Definition entry_touches (ep : entry) : list (akind * bool) :=
  match ep with
  | EpRead | EpOpen | EpOpenSeekable | EpParquetSource | EpReadDataFile => [(ARead, false)]
  | EpWrite | EpWriteJson => [(AMkdirs, true); (ACreateIn, true); (AReplace, false)]
  | EpExists | EpSize | EpMtime => [(AStat, false)]
  | EpList => [(AStat, false); (AList, false)]
  | EpDelete => [(AStat, false); (ARemove, false)]
  | EpMakedirs => [(AMkdirs, false)]
  | EpLock => [(AMkdirs, true); (ALock, false)]
  | EpWriteDataFile => [(AMkdirs, true); (ACreateIn, true); (AReplace, false); (AStat, false); (ARead, false)]
  end.

Definition place (q : loc) (kb : akind * bool) : access := (fst kb, if snd kb then parent q else q).

Lemma run_entry_eq : forall d t cwd dirs base ep p rb, realpath d t cwd base = Ok rb ->
  run_entry d t cwd dirs base ep p =
  match guard_result d t cwd dirs base rb (entry_guard ep) p with
  | Ok q => Ok (map (place q) (entry_touches ep))
  | Err e => Err e
  end.
Proof. intros d t cwd dirs base ep p rb Hb. unfold run_entry. rewrite Hb. destruct ep; reflexivity. Qed.

Lemma gen_guards_agree : forall ep g, In (ep, g) gen_entry_guards -> g = entry_guard ep.
Proof.
  assert (T : Forall (fun eg => snd eg = entry_guard (fst eg)) gen_entry_guards) by (repeat constructor).
  intros ep g H. exact (proj1 (Forall_forall _ _) T (ep, g) H).
Qed.

(* an access at the parent directory is a makedirs, or follows a guard that has excluded the root *)
Definition parent_allowed (g : guard) (kb : akind * bool) : bool :=
  negb (snd kb) || file_guard g || match fst kb with AMkdirs => true | _ => false end.

Lemma entry_touches_allowed : forall ep, forallb (parent_allowed (entry_guard ep)) (entry_touches ep) = true.
Proof. destruct ep; reflexivity. Qed.

Lemma place_ok : forall t rb g q kb, contained t rb q -> (file_guard g = true -> q <> rb) -> parent_allowed g kb = true ->
  (snd (place q kb) = q \/ snd (place q kb) = parent q) /\ touch_ok t rb (place q kb).
Proof.
  intros t rb g q [k [|]] Hc Hne Ha; unfold place; simpl.
  - split; [right; reflexivity|]. unfold parent_allowed in Ha. simpl in Ha. destruct (file_guard g).
    + apply contained_touch, contained_parent; [exact Hc|apply Hne; reflexivity].
    + destruct k; try discriminate. apply mkdirs_parent_ok. exact Hc.
  - split; [left; reflexivity|apply contained_touch; exact Hc].
Qed.

Lemma run_entry_ok : forall d t cwd dirs base ep g p accs,
  In (ep, g) gen_entry_guards ->
  run_entry d t cwd dirs base ep p = Ok accs ->
  exists rb q, realpath d t cwd base = Ok rb
    /\ guard_result d t cwd dirs base rb g p = Ok q
    /\ Forall (fun a => (snd a = q \/ snd a = parent q) /\ touch_ok t rb a) accs.
Proof.
  intros d t cwd dirs base ep g p accs Hin H. apply gen_guards_agree in Hin. subst g.
  destruct (realpath d t cwd base) as [rb|e] eqn:Eb; [|unfold run_entry in H; rewrite Eb in H; discriminate].
  rewrite (run_entry_eq _ _ _ _ _ _ _ _ Eb) in H.
  destruct (guard_result d t cwd dirs base rb (entry_guard ep) p) as [q|e] eqn:Eg; inversion H; subst accs.
  exists rb, q. split; [reflexivity|]. split; [exact Eg|].
  destruct (guard_result_ok _ _ _ _ _ _ _ _ _ Eb Eg) as [Hc Hne].
  apply Forall_map, Forall_forall. intros kb Hkb. apply (place_ok t rb (entry_guard ep)); [exact Hc|exact Hne|].
  exact (proj1 (forallb_forall _ _) (entry_touches_allowed ep) kb Hkb).
Qed.

Lemma run_entry_rejects : forall d t cwd dirs base ep p rb,
  is_abs p = false -> realpath d t cwd base = Ok rb ->
  resolve d t cwd base p = Err Security ->
  run_entry d t cwd dirs base ep p = Err Security.
Proof.
  intros d t cwd dirs base ep p rb Hrel Hb Hr. rewrite (run_entry_eq _ _ _ _ _ _ _ _ Hb).
  assert (Ha : arrow_path d t cwd dirs base p = Err Security) by (unfold arrow_path; rewrite Hb, Hrel; exact Hr).
  destruct (entry_guard ep); simpl; rewrite ?Hr, ?Ha; reflexivity.
Qed.

Definition is_link_entry (e : loc * node) : bool := match snd e with Link _ => true | _ => false end.
Definition link_keys (t : tree) : list loc := map fst (filter is_link_entry t).
Definition count_links (t : tree) : nat := length (link_keys t).

Lemma assoc_in : forall t p n, assoc p t = Some n -> In (p, n) t.
Proof.
  induction t as [|[k v] t IH]; intros p n H; simpl in H; [discriminate|].
  destruct (leqb p k) eqn:E.
  - inversion H; subst. apply leqb_eq in E. subst. left. reflexivity.
  - right. apply IH. exact H.
Qed.

Lemma lstat_at_link_in : forall t rest pre tg, lstat_at t pre rest = Some (Link tg) -> In (pre ++ rest, Link tg) t.
Proof.
  intros t. induction rest as [|c rest IH]; intros pre tg H; simpl in H.
  - rewrite app_nil_r. unfold look in H. destruct pre; [discriminate|]. apply assoc_in. exact H.
  - destruct (look t pre) as [[| |tg0]|]; try discriminate. apply IH in H. rewrite <- app_assoc in H. exact H.
Qed.

Lemma lstat_link_key : forall t p tg, lstat t p = Some (Link tg) -> In p (link_keys t).
Proof.
  intros t p tg H. apply lstat_at_link_in in H. simpl in H. unfold link_keys.
  change p with (fst (p, Link tg)). apply in_map. apply filter_In. split; [exact H|reflexivity].
Qed.

Lemma mem_iff : forall p l, mem p l = true <-> In p l.
Proof. exact (existsb_eqb_In _ leqb leqb_eq). Qed.

(* `seen` holds distinct links of the tree, and each level of expansion adds one: the depth never exceeds their number *)
Lemma jrp_fuel : forall t d rest path seen,
  NoDup seen -> incl seen (link_keys t) -> (count_links t <= d + length seen)%nat ->
  jrp d t path rest seen <> RPFuel.
Proof.
  intros t d. induction d as [d IHd] using lt_wf_ind.
  induction rest as [|c rest IH]; intros path seen Hnd Hinc Hlen.
  - rewrite jrp_nil. discriminate.
  - rewrite jrp_cons. destruct (expands t path c) as [tg|] eqn:El; [|apply IH; assumption].
    apply expands_some in El. destruct El as [_ El].
    destruct (mem (path ++ [c]) seen) eqn:Em; [discriminate|].
    assert (Hnd' : NoDup ((path ++ [c]) :: seen)).
    { constructor; [exact (proj1 (existsb_eqb_not_In _ leqb leqb_eq _ _) Em)|exact Hnd]. }
    assert (Hinc' : incl ((path ++ [c]) :: seen) (link_keys t)).
    { intros x [<-|Hx]; [eapply lstat_link_key; exact El|apply Hinc; exact Hx]. }
    pose proof (NoDup_incl_length Hnd' Hinc') as Hl. cbn [length] in Hl. unfold count_links, loc, comp in *.
    destruct d as [|d]; [exfalso; lia|].
    pose proof (IHd d (Nat.lt_succ_diag_r d) (link_rest tg) (link_start path tg) _ Hnd' Hinc') as Hin. cbn [length] in Hin.
    destruct (jrp d t (link_start path tg) (link_rest tg) ((path ++ [c]) :: seen)); [apply IH; assumption|discriminate|].
    exfalso. apply Hin; [lia|reflexivity].
Qed.

Lemma realpath_fuel : forall d t cwd s, (count_links t <= d)%nat -> realpath d t cwd s <> Err OutOfFuel.
Proof.
  intros d t cwd s H. unfold realpath.
  pose proof (jrp_fuel t d (tl (absolutize cwd s)) [] [] (NoDup_nil _) (incl_nil_l _)) as Hf.
  destruct (jrp d t [] (tl (absolutize cwd s)) []); try discriminate. exfalso. apply Hf; [simpl; lia|reflexivity].
Qed.

Lemma resolve_fuel : forall d t cwd base p, (count_links t <= d)%nat -> resolve d t cwd base p <> Err OutOfFuel.
Proof.
  intros d t cwd base p H. unfold resolve, canonical.
  pose proof (realpath_fuel d t cwd (join_for_resolve base p) H) as H1.
  pose proof (realpath_fuel d t cwd base H) as H2.
  destruct (realpath d t cwd (join_for_resolve base p)) as [q|e]; [|congruence].
  destruct (no_link_prefix t q); [|discriminate].
  destruct (realpath d t cwd base) as [rb|e]; [|congruence].
  destruct (inside rb q); discriminate.
Qed.

(* Sessions: names handed out by a listing come back in.
   run_session appends one output per step, and the output of a step is session_out of what was computed before it
   (session_step_at): run_entry of ITS tree on the string its argument denotes.  So whatever holds of every run_entry holds
   of every step; and the names a listing hands out are relative strings, for which a refusal by the resolver is a refusal
   by every entry point (run_entry_rejects). *)
Section Session.
Variables (d kf : nat) (cwd : loc) (dirs : list comp) (base : pstr).

Lemma fold_session_extends : forall steps acc, exists tail,
  fold_left (session_step d kf cwd dirs base) steps acc = acc ++ tail /\ length tail = length steps.
Proof.
  induction steps as [|s steps IH]; intro acc; simpl.
  - exists []. rewrite app_nil_r. split; reflexivity.
  - destruct (IH (session_step d kf cwd dirs base acc s)) as [tail [E L]].
    exists (session_out d kf cwd dirs base acc s :: tail). rewrite E. unfold session_step. rewrite <- app_assoc.
    split; [reflexivity|simpl; rewrite L; reflexivity].
Qed.

Lemma run_session_length : forall steps, length (run_session d kf cwd dirs base steps) = length steps.
Proof. intro steps. unfold run_session. destruct (fold_session_extends steps []) as [tail [-> L]]. exact L. Qed.

Lemma session_step_at : forall pre s post,
  nth_error (run_session d kf cwd dirs base (pre ++ s :: post)) (length pre)
  = Some (session_out d kf cwd dirs base (run_session d kf cwd dirs base pre) s).
Proof.
  intros pre s post. rewrite <- (run_session_length pre) at 1. unfold run_session. rewrite fold_left_app. simpl.
  destruct (fold_session_extends post (session_step d kf cwd dirs base (fold_left (session_step d kf cwd dirs base) pre []) s))
    as [tail [-> _]].
  unfold session_step. rewrite <- app_assoc. apply nth_error_middle.
Qed.

Lemma session_out_at : forall (steps : list sstep) i (s : sstep),
  nth_error steps i = Some s ->
  nth_error (run_session d kf cwd dirs base steps) i
  = Some (session_out d kf cwd dirs base (run_session d kf cwd dirs base (firstn i steps)) s).
Proof.
  intros steps i s H. destruct (nth_error_split steps i H) as [pre [post [-> <-]]].
  rewrite firstn_app, firstn_all, Nat.sub_diag. simpl. rewrite app_nil_r. apply session_step_at.
Qed.

Lemma session_outs_Forall : forall P : sout -> Prop,
  (forall outs s, P (session_out d kf cwd dirs base outs s)) ->
  forall steps, Forall P (run_session d kf cwd dirs base steps).
Proof.
  intros P H steps. unfold run_session. apply fold_left_preserves; [|constructor].
  intros outs s Ho. apply Forall_app. split; [exact Ho|]. constructor; [apply H|constructor].
Qed.

Lemma listed_names_relative : forall t ep p r, In r (listed_names d kf t cwd base ep p) -> is_abs r = false.
Proof.
  intros t ep p r H. unfold listed_names in H. destruct ep; try contradiction.
  destruct (list_files d kf t cwd base p) as [rs|e] eqn:E; [|contradiction].
  destruct (list_files_ok _ _ _ _ _ _ _ _ E H) as [rb [q [_ [_ [Hn _]]]]]. exact (names_not_abs r Hn).
Qed.

Lemma sderef_listed_relative : forall steps i k r,
  sderef (run_session d kf cwd dirs base steps) (SListed i k) = Some r -> is_abs r = false.
Proof.
  intros steps i k r H. simpl in H.
  destruct (nth_error (run_session d kf cwd dirs base steps) i) as [[o ns]|] eqn:E; [|discriminate].
  (* every output of every session carries relative names only *)
  assert (HF : Forall (fun o : sout => Forall (fun r => is_abs r = false) (snd o)) (run_session d kf cwd dirs base steps)).
  { apply session_outs_Forall. intros outs [[t ep] a]. unfold session_out. destruct (sderef outs a); simpl; [|constructor].
    apply Forall_forall. apply listed_names_relative. }
  apply nth_error_In in E, H. rewrite Forall_forall in HF. apply HF in E. rewrite Forall_forall in E. exact (E r H).
Qed.

End Session.
