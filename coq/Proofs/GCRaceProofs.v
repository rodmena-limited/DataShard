(* Proofs/GCRaceProofs.v -- garbage collection is safe against concurrently committing transactions (C06).

   The file opens with the INTERFACE of the regenerated collector kernels (Gen/GenGCRace.v): the invariant proofs use
   gen_marker_cutoff / gen_marker_age_ok / gen_marker_action / gen_sweep_cutoff / gen_delete_guard only through
   these lemmas (the kernels are opaque after them), which are re-proved on every run against what the translator has
   just read off garbage_collector.py.  If the source starts treating a marker as abandoned for any other reason than its
   age against the abandonment timeout, or sweeps with another cutoff than `now - grace`, or deletes a file
   that is reachable / protected / young, a lemma here (and with it C06) no longer checks.
   Then the two invariants of the machine of Model/GCRace.v: GInv (no collection run deletes a file that a live transaction
   owns or the committed table references, unless its marker was swept) and SInv T (a marker is swept only when it is older
   than the abandonment timeout T); last, the run that refutes adoption as the code did it before the repair. *)
From Coq Require Import ZArith List Bool Lia.
Require Import DS.Model.GCRaceBase DS.Gen.GenGCRace DS.Model.GCRace DS.Proofs.ListFacts.
Import ListNotations.
Open Scope Z_scope.

Lemma marker_sweep_old c mt : gen_marker_action (gen_marker_age_ok c (Some mt)) = MSweep -> mt < c.
Proof.
  unfold gen_marker_action, gen_marker_age_ok. destruct (Z.leb_spec c mt); [discriminate | intros _; assumption].
Qed.

Lemma marker_cutoff_le now timeout : gen_marker_cutoff now timeout <= now - timeout.
Proof. unfold gen_marker_cutoff. lia. Qed.

(* a marker that cannot be stat'ed keeps protecting; so does one whose deletion fails *)
Lemma marker_unstatable_protects c : gen_marker_action (gen_marker_age_ok c None) = MProtect.
Proof. reflexivity. Qed.
Lemma marker_sweep_failure_protects : gen_sweep_failure_protects = true.
Proof. reflexivity. Qed.

(* used at GList: with "the run started less than the grace period ago" it puts the cutoff before the start (GI_cut) *)
Lemma sweep_cutoff_le now grace : gen_sweep_cutoff now grace <= now - grace.
Proof. unfold gen_sweep_cutoff. lia. Qed.

Lemma delete_guard_spec cov mt c : gen_delete_guard cov mt c = true -> cov = false /\ mt < c.
Proof.
  unfold gen_delete_guard. rewrite andb_true_iff, negb_true_iff, Z.ltb_lt. tauto.
Qed.

Lemma collect_arguments_checked : gen_collect_marker_arg_ok = true /\ gen_collect_sweeps_ok = true.
Proof. split; reflexivity. Qed.

Local Opaque gen_marker_cutoff gen_marker_age_ok gen_marker_action gen_sweep_cutoff gen_delete_guard.

Definition live (p : tpc) : bool := match p with TWritten | TFlipped | TDone => true | _ => false end.
Definition marked (p : tpc) : bool := match p with TMarked | TWritten | TFlipped | TAdoptM => true | _ => false end.
Definition committed (p : tpc) : bool := match p with TFlipped | TDone => true | _ => false end.
(* states a file never returns from to TNew / TMarked *)
Definition past_mark (p : tpc) : bool := match p with TNew | TMarked => false | _ => true end.

Lemma live_marked_or_committed p : live p = true -> marked p = true \/ committed p = true.
Proof. destruct p; try discriminate; auto. Qed.
Lemma committed_live p : committed p = true -> live p = true.
Proof. destruct p; try discriminate; reflexivity. Qed.

(* Why the running collection will not delete file t: it was written after the run started, or it is in the snapshot the
   run's phase goes by -- the one taken, or the thing the next snapshot will be taken of. *)
Definition covered (w : gworld) (t : tid) : Prop :=
  g_start w <= g_mtime w t
  \/ match g_gpc w with
     | GIdle => True
     | GAnnounced => g_marker w t = true \/ g_ref w t = true
     | GGotMarks => g_prot w t = true \/ g_ref w t = true
     | GGotReach | GListed => g_prot w t = true \/ g_reach w t = true
     end.

(* Everything is stated for files whose marker no run has treated as abandoned (g_swept = false): a
   transaction that outlives the abandonment timeout has given up its protection, by design. *)
Record GInv (w : gworld) : Prop := {
  (* a transaction past its marker write holds the marker (what GAnnounce builds the run's coverage from) *)
  GI_mark : forall t, marked (g_tpc w t) = true -> g_swept w t = false -> g_marker w t = true;
  (* the references are the committed files *)
  GI_ref : forall t, g_ref w t = committed (g_tpc w t);
  (* the file of a live transaction is in place: the safety statement itself *)
  GI_pres : forall t, live (g_tpc w t) = true -> g_swept w t = false -> g_present w t = true;
  (* only files some transaction wrote or staged exist: the owner of a file in place is past its marker write *)
  GI_only : forall t, g_present w t = true -> past_mark (g_tpc w t) = true;
  (* a run started in the past: a file written now is younger than the run (first disjunct of covered) *)
  GI_start : g_start w <= g_now w;
  (* the running collection will not delete a live file (covered, above) *)
  GI_cov : forall t, live (g_tpc w t) = true -> g_swept w t = false -> covered w t;
  (* the sweep's cutoff lies before the run's start, so "younger than the run" means "not old enough to delete" at GDel *)
  GI_cut : g_gpc w = GListed -> g_cutoff w < g_start w;
  (* what was deleted is gone for good: its owner never returns to a state from which it writes the file.  (That it is
     nobody's live file, unless the marker was swept, is GI_pres read backwards.) *)
  GI_del : forall t, In t (g_deleted w) -> g_present w t = false /\ past_mark (g_tpc w t) = true }.

Lemma updf_same {A} t (v : A) f : updf t v f t = v.
Proof. unfold updf. rewrite Nat.eqb_refl. reflexivity. Qed.
Lemma updf_other {A} t u (v : A) f : u <> t -> updf t v f u = f u.
Proof. unfold updf. intro H. destruct (Nat.eqb_spec u t); [contradiction|reflexivity]. Qed.
(* a file that is unswept after t's marker was swept is another file *)
Lemma updf_true_false t f u : updf t true f u = false -> u <> t /\ f u = false.
Proof. unfold updf. destruct (Nat.eqb_spec u t); [discriminate | auto]. Qed.

(* A transaction's step on its file t touches no other file and nothing of the collector's: the invariant is kept if its
   clauses hold of t's new state. *)
Lemma tx_inv w t p mt pres mk mkmt :
  GInv w ->
  (marked p = true -> g_swept w t = false -> mk = true) ->
  (live p = true -> g_swept w t = false -> pres = true /\ covered (with_tx w t p mt pres mk (committed p) mkmt) t) ->
  (pres = true -> past_mark p = true) ->
  (g_present w t = false -> past_mark (g_tpc w t) = true -> pres = false /\ past_mark p = true) ->
  GInv (with_tx w t p mt pres mk (committed p) mkmt).
Proof.
  intros Hi Hmark Hlive Honly Hdel.
  (* every clause speaks of one file u: of u = t it is the hypothesis, of u <> t, whose fields the step leaves alone, the old clause *)
  constructor; try apply Hi; intro u; simpl.
  all: destruct (Nat.eq_dec u t) as [->|NE]; [rewrite ?updf_same | rewrite ?updf_other by exact NE].
  (* `apply Hi` closes GI_start, GI_cut (no file) and every u <> t clause but GI_cov; `assumption` closes GI_mark and GI_only
     at u = t (Hmark, Honly) *)
  all: try apply Hi; try assumption.
  - (* GI_ref, u = t *) reflexivity.
  - (* GI_pres, u = t *) intros L SW. apply (Hlive L SW).
  - (* GI_cov, u = t *) intros L SW. apply (Hlive L SW).
  - (* GI_cov, u <> t: covered reads fields of u only *)
    intros L SW. pose proof (GI_cov w Hi u L SW) as C. unfold covered in *. simpl. rewrite !updf_other by exact NE. exact C.
  - (* GI_del, u = t *) intro D. destruct (GI_del w Hi t D) as [DP DM]. exact (Hdel DP DM).
Qed.

(* A collector step that changes only the collector's own snapshots: the clauses that speak of them remain to be shown. *)
Lemma gc_inv w pc prot reach start cutoff listing mcut orph :
  GInv w -> start <= g_now w ->
  (forall t, live (g_tpc w t) = true -> g_swept w t = false -> covered w t ->
             covered (with_gc w pc prot reach start cutoff listing mcut orph) t) ->
  (pc = GListed -> cutoff < start) ->
  GInv (with_gc w pc prot reach start cutoff listing mcut orph).
Proof.
  intros Hi St C L. constructor; try apply Hi; try assumption. intros t Lt SW. exact (C t Lt SW (GI_cov w Hi t Lt SW)).
Qed.

(* publishing t (the reference is set, the file's time stays) keeps t covered, whatever becomes of its marker *)
Lemma covered_published w t p pres mk mkmt :
  covered w t -> covered (with_tx w t p (g_mtime w t) pres mk true mkmt) t.
Proof.
  unfold covered. simpl. rewrite !updf_same. intros [Y|Sh]; [left; exact Y | right].
  destruct (g_gpc w).
  - (* GIdle *) exact Sh.
  - (* GAnnounced: t is referenced now *) right. reflexivity.
  - (* GGotMarks *) destruct Sh as [P|_]; [left; exact P | right; reflexivity].
  - (* GGotReach *) exact Sh.
  - (* GListed *) exact Sh.
Qed.

Lemma gstep_inv w e w' : GInv w -> gstep w e = Some w' -> GInv w'.
Proof.
  intros Hi H. destruct e as [dt|t|t|t|t|t|t|t mt|t|t|t| |timeout|t| |grace|t|n| ]; simpl in H.
  - (* Tick *)
    destruct (Z.leb_spec 0 dt); [|discriminate]. injection H as <-.
    constructor; try apply Hi. simpl. pose proof (GI_start w Hi). lia.
  - (* TMarkW *)
    destruct (g_tpc w t) eqn:PC; try discriminate. injection H as <-.
    apply tx_inv; [exact Hi | reflexivity | discriminate | discriminate | rewrite PC; discriminate].
  - (* TDataW: the file is in place now, younger than any run in progress *)
    destruct (g_tpc w t) eqn:PC; try discriminate. injection H as <-.
    apply tx_inv; [exact Hi | | | reflexivity | rewrite PC; discriminate].
    + intros _ SW. apply (GI_mark w Hi t); [rewrite PC; reflexivity | exact SW].
    + intros _ _. split; [reflexivity|]. left. simpl. rewrite updf_same. apply Hi.
  - (* TFlip *)
    destruct (g_tpc w t) eqn:PC; try discriminate. injection H as <-.
    assert (L : live (g_tpc w t) = true) by (rewrite PC; reflexivity).
    apply tx_inv; [exact Hi | | | reflexivity | ].
    + intros _ SW. apply (GI_mark w Hi t); [rewrite PC; reflexivity | exact SW].
    + intros _ SW. split; [exact (GI_pres w Hi t L SW) | exact (covered_published w t _ _ _ _ (GI_cov w Hi t L SW))].
    + auto.
  - (* TMarkD *)
    destruct (g_tpc w t) eqn:PC; try discriminate. injection H as <-.
    assert (L : live (g_tpc w t) = true) by (rewrite PC; reflexivity).
    apply tx_inv; [exact Hi | discriminate | | reflexivity | ].
    + intros _ SW. split; [exact (GI_pres w Hi t L SW) | exact (covered_published w t _ _ _ _ (GI_cov w Hi t L SW))].
    + auto.
  - (* TRollback, from TMarked or TWritten *)
    destruct (g_tpc w t); try discriminate; injection H as <-.
    all: apply tx_inv; [exact Hi | discriminate | discriminate | discriminate | auto].
  - (* TAbandon, from TWritten or TAdoptM: the owner drops the marker of a file it will never publish *)
    destruct (g_tpc w t); try discriminate; injection H as <-.
    all: apply tx_inv; [exact Hi | discriminate | discriminate | reflexivity | auto].
  - (* TStage: a pre-built file appears, of any age *)
    destruct (g_tpc w t) eqn:PC; try discriminate. destruct (mt <=? g_now w); [|discriminate]. injection H as <-.
    apply tx_inv; [exact Hi | discriminate | discriminate | reflexivity | rewrite PC; discriminate].
  - (* TAdoptMark *)
    destruct (g_tpc w t); try discriminate. injection H as <-.
    apply tx_inv; [exact Hi | reflexivity | discriminate | reflexivity | auto].
  - (* TAdopt: only while no collection run is announced, and only a file that is still in place *)
    destruct (g_tpc w t) eqn:PC; try discriminate. destruct (g_gpc w) eqn:GP; try discriminate.
    destruct (g_present w t) eqn:Pt; [|discriminate]. injection H as <-.
    apply tx_inv; [exact Hi | | | reflexivity | congruence].
    + intros _ SW. apply (GI_mark w Hi t); [rewrite PC; reflexivity | exact SW].
    + intros _ _. split; [reflexivity|]. right. simpl. rewrite GP. exact I.
  - (* TAdoptBare: not a step of the repaired code *)
    discriminate.
  - (* GAnnounce: the run is announced before anything else; what is live is marked or referenced *)
    destruct (g_gpc w); try discriminate. injection H as <-.
    apply gc_inv; [exact Hi | apply Z.le_refl | | discriminate].
    intros t L SW _. right. simpl.
    destruct (live_marked_or_committed _ L) as [M|C]; [left; exact (GI_mark w Hi t M SW) | right; rewrite (GI_ref w Hi t); exact C].
  - (* GMarks: the protection snapshot is the markers, which the announcement phase promised *)
    destruct (g_gpc w) eqn:GP; try discriminate. injection H as <-.
    apply gc_inv; [exact Hi | apply Hi | | discriminate].
    intros t _ _ C. unfold covered in *. rewrite GP in C. exact C.
  - (* GSweep: a marker older than the abandonment timeout is deleted; its file is on its own from now on *)
    destruct (g_gpc w) eqn:GP; try discriminate. destruct (g_prot w t); [|discriminate].
    destruct (gen_marker_action _); [discriminate|]. injection H as <-.
    constructor; simpl; try apply Hi.
    + intros u M SW. apply updf_true_false in SW as [NE SW]. rewrite updf_other by exact NE. exact (GI_mark w Hi u M SW).
    + intros u L SW. apply updf_true_false in SW as [NE SW]. exact (GI_pres w Hi u L SW).
    + intros u L SW. apply updf_true_false in SW as [NE SW]. pose proof (GI_cov w Hi u L SW) as C.
      unfold covered in *. simpl. rewrite GP in C. rewrite updf_other by exact NE. exact C.
    + discriminate.
  - (* GMeta: the reachability snapshot is the references *)
    destruct (g_gpc w) eqn:GP; try discriminate. injection H as <-.
    apply gc_inv; [exact Hi | apply Hi | | discriminate].
    intros t _ _ C. unfold covered in *. rewrite GP in C. exact C.
  - (* GList: the cutoff lies the grace period back, the run started less than that ago *)
    destruct (g_gpc w) eqn:GP; try discriminate.
    (* the first listing, from GGotReach, and a further one, from GListed *)
    all: destruct (Z.ltb_spec (g_now w - g_start w) grace); [|discriminate]; injection H as <-.
    all: apply gc_inv; [exact Hi | apply Hi | | intros _; pose proof (sweep_cutoff_le (g_now w) grace); lia].
    all: intros t _ _ C; unfold covered in *; rewrite GP in C; exact C.
  - (* GDel: never enabled for a file a live transaction owns, unless its marker was abandoned *)
    destruct (g_gpc w) eqn:GP; try discriminate.
    destruct (g_listing w t && gen_delete_guard (g_reach w t || g_prot w t) (g_mtime w t) (g_cutoff w) && g_present w t) eqn:Guard; [|discriminate].
    injection H as <-.
    rewrite !andb_true_iff in Guard. destruct Guard as [[_ DG] Pr]. apply delete_guard_spec in DG. destruct DG as [Cov Mt].
    apply orb_false_iff in Cov. destruct Cov as [Nr Np].
    pose proof (GI_only w Hi t Pr) as PM.
    constructor; simpl; try apply Hi.
    + intros u L SW. unfold updf. destruct (Nat.eqb_spec u t) as [->|NE]; [|exact (GI_pres w Hi u L SW)].
      (* a live file whose marker was not swept is covered: younger than the run, hence than the cutoff, or protected / reachable *)
      exfalso. pose proof (GI_cut w Hi GP) as Cut. destruct (GI_cov w Hi t L SW) as [Y|C]; [lia|].
      rewrite GP in C. destruct C; congruence.
    + intros u P. unfold updf in P. destruct (u =? t)%nat; [discriminate | exact (GI_only w Hi u P)].
    + intros u L SW. pose proof (GI_cov w Hi u L SW) as C. unfold covered in *. rewrite GP in C. exact C.
    + intros _. exact (GI_cut w Hi GP).
    + intros u [<-|D]; [rewrite updf_same; auto|].
      destruct (GI_del w Hi u D) as [DP DR]. split; [|exact DR]. unfold updf. rewrite DP. destruct (u =? t)%nat; reflexivity.
  - (* GDelOrphan *)
    destruct (g_gpc w) eqn:GP; try discriminate. destruct (existsb _ (g_orphans w)); [|discriminate]. injection H as <-.
    apply gc_inv; [exact Hi | apply Hi | | intros _; exact (GI_cut w Hi GP)].
    intros t _ _ C. unfold covered in *. rewrite GP in C. exact C.
  - (* GEnd, from any phase but GIdle *)
    destruct (g_gpc w); try discriminate; injection H as <-.
    all: apply gc_inv; [exact Hi | apply Hi | intros; right; exact I | discriminate].
Qed.

Lemma ginit_inv orph : GInv (ginit orph).
Proof. constructor; simpl; try discriminate; try contradiction; auto using Z.le_refl. Qed.

(* The invariant holds after every interleaving of collection runs, transactions and clock ticks (what that says of the
   files in DataShard's terms: Props/C06.v, C06_gc_race_safe and C06_unswept_marker_kept are read off it). *)
Theorem run_inv orph evs : GInv (grun (ginit orph) evs).
Proof. exact (run_skip_preserves _ _ gstep GInv gstep_inv evs _ (ginit_inv orph)). Qed.

(* The second invariant, for interleavings whose collection runs all use an abandonment timeout of at least T: a marker is
   treated as abandoned only when it is older than T (SI_old). *)

Definition unmarked_yet (p : tpc) : bool := match p with TNew | TPre => true | _ => false end.
(* the collector holds its protection snapshot *)
Definition has_prot (p : gpc) : bool := match p with GGotMarks | GGotReach | GListed => true | _ => false end.

Record SInv (T : Z) (w : gworld) : Prop := {
  SI_new : forall t, unmarked_yet (g_tpc w t) = true -> g_marker w t = false /\ g_prot w t = false /\ g_swept w t = false;
  SI_run : has_prot (g_gpc w) = true -> g_mcut w <= g_now w - T;
  SI_old : forall t, g_swept w t = true -> g_mkmtime w t + T < g_now w }.

Definition timeout_ok (T : Z) (e : gevent) : Prop := match e with GMarks timeout => T <= timeout | _ => True end.

Lemma tx_sinv T w t p mt pres mk rf mkmt :
  SInv T w ->
  (* a state in which the file is unmarked yet is entered only from such a state, and without a marker *)
  (unmarked_yet p = true -> unmarked_yet (g_tpc w t) = true /\ mk = false) ->
  (* the marker's time stays, or it is set for a file unmarked until now, which no run can have swept *)
  mkmt = g_mkmtime w t \/ unmarked_yet (g_tpc w t) = true ->
  SInv T (with_tx w t p mt pres mk rf mkmt).
Proof.
  intros Hi Hnew Hold.
  constructor; try apply Hi; intro u; simpl.
  all: destruct (Nat.eq_dec u t) as [->|NE]; [rewrite ?updf_same | rewrite ?updf_other by exact NE].
  (* `apply Hi` closes SI_run (no file) and both clauses at u <> t *)
  all: try apply Hi.
  - (* SI_new, u = t *) intro U. destruct (Hnew U) as [U0 ->]. destruct (SI_new T w Hi t U0) as [_ R]. auto.
  - (* SI_old, u = t *)
    intro SW. destruct Hold as [-> | U0]; [exact (SI_old T w Hi t SW)|]. destruct (SI_new T w Hi t U0) as [_ [_ NS]]. congruence.
Qed.

Lemma gc_sinv T w pc prot reach start cutoff listing mcut orph :
  SInv T w ->
  (* the protection snapshot stays, or is taken of the markers: either way it holds no file that is unmarked yet *)
  prot = g_prot w \/ prot = g_marker w ->
  (has_prot pc = true -> mcut <= g_now w - T) ->
  SInv T (with_gc w pc prot reach start cutoff listing mcut orph).
Proof.
  intros Hi Hprot Hrun. constructor; try apply Hi; [|exact Hrun].
  intros t U. destruct (SI_new T w Hi t U) as [M [P Sw]]. simpl. destruct Hprot as [-> | ->]; auto.
Qed.

Lemma gstep_sinv T w e w' : SInv T w -> timeout_ok T e -> gstep w e = Some w' -> SInv T w'.
Proof.
  intros Hi TO H.
  destruct e as [dt|t|t|t|t|t|t|t mt|t|t|t| |timeout|t| |grace|t|n| ]; simpl in H.
  - (* Tick *)
    destruct (Z.leb_spec 0 dt); [|discriminate]. injection H as <-.
    constructor; simpl; try apply Hi.
    + intro HP. pose proof (SI_run T w Hi HP). lia.
    + intros t SW. pose proof (SI_old T w Hi t SW). lia.
  - (* TMarkW: the marker's time is set, for a file unmarked until now *)
    destruct (g_tpc w t) eqn:PC; try discriminate. injection H as <-.
    apply tx_sinv; [exact Hi | discriminate | right; rewrite PC; reflexivity].
  - (* TDataW, and likewise TFlip, TMarkD, TRollback, TAbandon, TAdopt: the marker's time stays, the new state is not an unmarked one *)
    destruct (g_tpc w t); try discriminate. injection H as <-. apply tx_sinv; [exact Hi | discriminate | left; reflexivity].
  - (* TFlip *)
    destruct (g_tpc w t); try discriminate. injection H as <-. apply tx_sinv; [exact Hi | discriminate | left; reflexivity].
  - (* TMarkD *)
    destruct (g_tpc w t); try discriminate. injection H as <-. apply tx_sinv; [exact Hi | discriminate | left; reflexivity].
  - (* TRollback *)
    destruct (g_tpc w t); try discriminate; injection H as <-; (apply tx_sinv; [exact Hi | discriminate | left; reflexivity]).
  - (* TAbandon *)
    destruct (g_tpc w t); try discriminate; injection H as <-; (apply tx_sinv; [exact Hi | discriminate | left; reflexivity]).
  - (* TStage: still unmarked *)
    destruct (g_tpc w t) eqn:PC; try discriminate. destruct (mt <=? g_now w); [|discriminate]. injection H as <-.
    apply tx_sinv; [exact Hi | intros _; rewrite PC; split; reflexivity | left; reflexivity].
  - (* TAdoptMark: the marker's time is set, for a file unmarked until now *)
    destruct (g_tpc w t) eqn:PC; try discriminate. injection H as <-.
    apply tx_sinv; [exact Hi | discriminate | right; rewrite PC; reflexivity].
  - (* TAdopt *)
    destruct (g_tpc w t); try discriminate. destruct (g_gpc w); try discriminate. destruct (g_present w t); [|discriminate].
    injection H as <-. apply tx_sinv; [exact Hi | discriminate | left; reflexivity].
  - (* TAdoptBare *)
    discriminate.
  - (* GAnnounce *)
    destruct (g_gpc w); try discriminate. injection H as <-. apply gc_sinv; [exact Hi | left; reflexivity | discriminate].
  - (* GMarks: the cutoff is fixed, the timeout back *)
    destruct (g_gpc w); try discriminate. injection H as <-.
    apply gc_sinv; [exact Hi | right; reflexivity | ].
    intros _. simpl in TO. pose proof (marker_cutoff_le (g_now w) timeout). lia.
  - (* GSweep: the swept marker is older than the cutoff *)
    destruct (g_gpc w) eqn:GP; try discriminate. destruct (g_prot w t) eqn:PT; [|discriminate].
    destruct (gen_marker_action _) eqn:ACT; [discriminate|]. injection H as <-.
    apply marker_sweep_old in ACT.
    assert (M : g_mcut w <= g_now w - T) by (apply (SI_run T w Hi); rewrite GP; reflexivity).
    constructor; simpl.
    + intros u N. destruct (SI_new T w Hi u N) as [A [B C]]. unfold updf. destruct (Nat.eqb_spec u t) as [->|NE]; [congruence | auto].
    + intros _. exact M.
    + intros u SW. destruct (Nat.eq_dec u t) as [->|NE]; [lia | rewrite updf_other in SW by exact NE; apply (SI_old T w Hi u SW)].
  - (* GMeta *)
    destruct (g_gpc w) eqn:GP; try discriminate. injection H as <-.
    apply gc_sinv; [exact Hi | left; reflexivity | intros _; apply (SI_run T w Hi); rewrite GP; reflexivity].
  - (* GList *)
    destruct (g_gpc w) eqn:GP; try discriminate; (destruct (g_now w - g_start w <? grace); [|discriminate]); injection H as <-;
      (apply gc_sinv; [exact Hi | left; reflexivity | intros _; apply (SI_run T w Hi); rewrite GP; reflexivity]).
  - (* GDel *)
    destruct (g_gpc w) eqn:GP; try discriminate. destruct (_ && _ && _); [|discriminate]. injection H as <-.
    constructor; simpl; try apply Hi. intros _. apply (SI_run T w Hi). rewrite GP. reflexivity.
  - (* GDelOrphan *)
    destruct (g_gpc w) eqn:GP; try discriminate. destruct (existsb _ (g_orphans w)); [|discriminate]. injection H as <-.
    apply gc_sinv; [exact Hi | left; reflexivity | intros _; apply (SI_run T w Hi); rewrite GP; reflexivity].
  - (* GEnd *)
    destruct (g_gpc w); try discriminate; injection H as <-; (apply gc_sinv; [exact Hi | left; reflexivity | discriminate]).
Qed.

Lemma ginit_sinv T orph : SInv T (ginit orph).
Proof. constructor; simpl; auto; discriminate. Qed.

(* SI_old of this is Props/C06.v C06_swept_only_abandoned *)
Theorem run_sinv T orph evs : Forall (timeout_ok T) evs -> SInv T (grun (ginit orph) evs).
Proof. intro F. exact (run_skip_preserves_on _ _ gstep (SInv T) (timeout_ok T) (gstep_sinv T) evs _ F (ginit_sinv T orph)). Qed.

(* how a strict run (None: some event was not enabled) is shown to end in a world with a given property: evaluating the
   match decides both at once, and no world has to be written down (GCDocProofs.doc_run_witness is the same device for doc_result) *)
Lemma some_witness {A} (x : option A) (P : A -> Prop) :
  match x with Some a => P a | None => False end -> exists a, x = Some a /\ P a.
Proof. destruct x; [eauto | contradiction]. Qed.

(* A pre-built file ten hours old is staged; a collection run (grace 1 h) is announced, loads the markers and
   reads the metadata; the transaction adopts the file and commits; the run, 4 ms old, lists and deletes the
   file: unreferenced in its snapshot, unprotected, old.  The committed table references a deleted file
   (Props/C06.v C06_unmarked_adoption_refuted). *)
Definition unrepaired_counterexample : list gevent :=
  [TStage 0%nat (-36000000); Tick 1; GAnnounce; Tick 1; GMarks 86400000; Tick 1; GMeta; Tick 1; TAdoptBare 0%nat; TFlip 0%nat; Tick 1;
   GList 3600000; GDel 0%nat; GEnd].

(* the same events with the repaired adoption: the marker is written, but the run is announced: Adopt is refused *)
Lemma repaired_adoption_refused :
  let w := grun (ginit []) [TStage 0%nat (-36000000); Tick 1; GAnnounce; Tick 1; GMarks 86400000; Tick 1; GMeta; Tick 1; TAdoptMark 0%nat] in
  gstep w (TAdopt 0%nat) = None /\ g_marker w 0%nat = true.
Proof. vm_compute. split; reflexivity. Qed.
