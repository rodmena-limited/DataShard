(* Proofs/BoundProofs.v -- the bound codec (Model/Bound.v over the regenerated Gen/GenBound.v): bounds survive the manifest
   round trip type-faithfully (C13), alone and as maps under rendered keys; decoding never yields None. *)
From Coq Require Import String List.
Require Import DS.Model.Value DS.Model.BoundPrim DS.Gen.GenBound DS.Model.Bound.

(* one tag per kind of value: the decoder's dispatch undoes the encoder's first matching isinstance branch *)
Lemma bound_roundtrip v : boundable v = true -> dec (enc v) = v.
Proof. destruct v; intro H; try discriminate H; reflexivity. Qed.

(* a map of bounds written and read back, its keys through any rendering f that g undoes (str / int on field ids) *)
Lemma bounds_map_roundtrip {K K'} (f : K -> K') (g : K' -> K) (l : list (K * value)) :
  (forall k, g (f k) = k) -> (forall k v, In (k, v) l -> boundable v = true) ->
  map (fun kv => (g (fst kv), dec (snd kv))) (map (fun kv => (f (fst kv), enc (snd kv))) l) = l.
Proof.
  intros GF B. rewrite map_map. transitivity (map (fun kv => kv) l); [|apply map_id].
  apply map_ext_in. intros [k v] I. cbn [fst snd]. rewrite GF, (bound_roundtrip v (B k v I)). reflexivity.
Qed.

(* Whatever is stored, decoding never yields None: the tag selects a decoder, each decoder returns a value of its own
   type (bool, int, float, datetime, date, time, str) or nothing, and where it returns nothing -- or the tag is unknown -- the
   raw JSON payload stands in, which is a bool, an int, a float or a str. *)
Lemma dec_nonnull e : is_null (dec e) = false.
Proof.
  destruct e as [t p]. unfold dec. cbn [fst snd].
  assert (Raw : is_null (raw_value p) = false) by (destruct p; reflexivity).
  assert (Decoded : forall d, (forall v, d = Some v -> is_null v = false) ->
                              is_null (match d with Some v => v | None => raw_value p end) = false).
  { intros [v|] H; [exact (H v eq_refl) | exact Raw]. }
  unfold gen_decode_tag.
  destruct (String.eqb t "bool"); [apply Decoded; destruct p as [| |[]| | | | | |]; intros w [= <-]; reflexivity|].
  destruct (String.eqb t "int"); [apply Decoded; destruct p as [| |[]| | | | | |]; intros w [= <-]; reflexivity|].
  destruct (String.eqb t "float"); [apply Decoded; destruct p; intros w [= <-]; reflexivity|].
  destruct (String.eqb t "ts"); [apply Decoded; destruct p; intros w [= <-]; reflexivity|].
  destruct (String.eqb t "date"); [apply Decoded; destruct p; intros w [= <-]; reflexivity|].
  destruct (String.eqb t "time"); [apply Decoded; destruct p; intros w [= <-]; reflexivity|].
  destruct (String.eqb t "str"); [apply Decoded; destruct p; intros w [= <-]; reflexivity|].
  exact Raw.
Qed.
