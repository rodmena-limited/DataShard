(* Proofs/LocalListProofs.v -- a failed listing of the local backend is not an empty one: a failure that does not mean "not there"
   raises (in general, for every combination of failures, a listing that returns short comes only from "not there" failures:
   Props/C07.v C07_local_listing_fails_closed). *)
Require Import DS.Model.LocalList.

Lemma local_listing_other_failure_raises : forall walk,
  local_list_outcome (Some false) walk = LRaise /\ local_list_outcome None (Some false) = LRaise.
Proof. intros walk. split; reflexivity. Qed.
