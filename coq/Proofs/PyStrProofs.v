(* Proofs/PyStrProofs.v -- lemmas about the Python string functions of Model/PyStr.v *)
From Coq Require Import String Ascii List Bool Arith Lia.
Require Import DS.Model.PyStr DS.Proofs.ListFacts.
Import ListNotations.
Open Scope string_scope.

Lemma lstrip_c_cons_same : forall c s, lstrip_c c (String c s) = lstrip_c c s.
Proof. intros. simpl. rewrite Ascii.eqb_refl. reflexivity. Qed.

Lemma lstrip_c_cons_other : forall c a s, Ascii.eqb a c = false -> lstrip_c c (String a s) = String a s.
Proof. intros c a s H. simpl. rewrite H. reflexivity. Qed.

Lemma lstrip_c_idem : forall c s, lstrip_c c (lstrip_c c s) = lstrip_c c s.
Proof.
  intros c s. induction s as [|a r IH]; simpl; [reflexivity|].
  destruct (Ascii.eqb a c) eqn:E; [exact IH|]. simpl. rewrite E. reflexivity.
Qed.

Lemma lstrip_c_head : forall c s a r, lstrip_c c s = String a r -> Ascii.eqb a c = false.
Proof.
  intros c s. induction s as [|b t IH]; simpl; intros a r H; [discriminate|].
  destruct (Ascii.eqb b c) eqn:E.
  - eapply IH; eauto.
  - inversion H; subst. exact E.
Qed.

Lemma startswith_nil : forall s, startswith "" s = true.
Proof. intros. unfold startswith. destruct s; reflexivity. Qed.

Lemma startswith_cons : forall a p b s, startswith (String a p) (String b s) = Ascii.eqb a b && startswith p s.
Proof.
  intros. unfold startswith. simpl. destruct (ascii_dec a b) as [->|N].
  - rewrite Ascii.eqb_refl. reflexivity.
  - apply Ascii.eqb_neq in N. rewrite N. reflexivity.
Qed.

Lemma startswith_spec : forall p s, startswith p s = true <-> exists r, s = p ++ r.
Proof.
  induction p as [|a p IH]; intro s.
  - split; [intros _; exists s; reflexivity| intros _; apply startswith_nil].
  - destruct s as [|b s].
    + split; [discriminate | intros [r H]; discriminate].
    + rewrite startswith_cons. split.
      * intro H. apply andb_true_iff in H. destruct H as [H1 H2]. apply Ascii.eqb_eq in H1. subst b.
        apply IH in H2. destruct H2 as [r ->]. exists r. reflexivity.
      * intros [r H]. simpl in H. inversion H; subst. rewrite Ascii.eqb_refl. simpl. apply IH. exists r; reflexivity.
Qed.

Lemma startswith_app : forall p s, startswith p (p ++ s) = true.
Proof. intros p s. apply startswith_spec. exists s. reflexivity. Qed.

Lemma append_assoc : forall a b c : string, (a ++ b) ++ c = a ++ (b ++ c).
Proof. induction a; intros; simpl; [reflexivity|]. f_equal. apply IHa. Qed.

Lemma startswith_trans_app : forall p q s, startswith (p ++ q) s = true -> startswith p s = true.
Proof.
  intros p q s H. apply startswith_spec in H. destruct H as [r ->]. apply startswith_spec. exists (q ++ r).
  apply append_assoc.
Qed.

Lemma append_nil_r : forall a : string, a ++ "" = a.
Proof. induction a; simpl; [reflexivity|]. f_equal. exact IHa. Qed.

Lemma length_append : forall a b : string, String.length (a ++ b) = String.length a + String.length b.
Proof. induction a; intros; simpl; [reflexivity|]. f_equal. apply IHa. Qed.

Lemma py_take_app : forall a b, py_take (String.length a) (a ++ b) = a.
Proof. induction a; intros; simpl; [reflexivity|]. f_equal. apply IHa. Qed.

Lemma py_take_drop : forall n s, py_take n s ++ py_drop n s = s.
Proof. induction n; intro s; simpl; [reflexivity|]. destruct s; simpl; [reflexivity|]. f_equal. apply IHn. Qed.

Lemma py_drop_app : forall a b, py_drop (String.length a) (a ++ b) = b.
Proof. induction a; intros; simpl; [reflexivity|]. apply IHa. Qed.

Lemma py_drop_end_app : forall s x, x <> "" -> py_drop_end (String.length x) (s ++ x) = s.
Proof.
  intros s x Hx. unfold py_drop_end. destruct (String.length x) eqn:E.
  - destruct x; [contradiction|discriminate].
  - rewrite length_append, E. replace (String.length s + S n - S n) with (String.length s) by lia.
    apply py_take_app.
Qed.

Lemma endswith_app : forall s x, endswith x (s ++ x) = true.
Proof.
  intros s x. unfold endswith. rewrite length_append.
  replace (String.length s + String.length x - String.length x) with (String.length s) by lia.
  rewrite py_drop_app, String.eqb_refl, andb_true_r. apply Nat.leb_le. lia.
Qed.

Lemma endswith_spec : forall x s, endswith x s = true -> exists r, s = r ++ x.
Proof.
  intros x s H. unfold endswith in H. apply andb_true_iff in H. destruct H as [H1 H2].
  apply String.eqb_eq in H2. exists (py_take (String.length s - String.length x) s).
  rewrite <- H2 at 2. symmetry. apply py_take_drop.
Qed.

Lemma has_char_app : forall c a b, has_char c (a ++ b) = has_char c a || has_char c b.
Proof. induction a; intros; simpl; [reflexivity|]. rewrite IHa. apply orb_assoc. Qed.

Lemma basename_join : forall dir name, has_char slash name = false -> basename (dir ++ String slash name) = name.
Proof.
  induction dir as [|a d IH]; intros name H; simpl.
  - rewrite H. reflexivity.
  - rewrite has_char_app. cbn [has_char]. rewrite Ascii.eqb_refl. cbn [orb]. rewrite orb_true_r. apply IH. exact H.
Qed.

Lemma basename_no_slash : forall s, has_char slash (basename s) = false.
Proof.
  induction s as [|a r IH]; simpl; [reflexivity|].
  destruct (has_char slash r) eqn:E; [exact IH|].
  destruct (Ascii.eqb a slash) eqn:E2; [exact E|]. simpl. rewrite E2, E. reflexivity.
Qed.

Lemma str_mem_In : forall k l, str_mem k l = true <-> In k l.
Proof. exact (existsb_eqb_In string String.eqb String.eqb_eq). Qed.

Lemma str_mem_false : forall k l, str_mem k l = false <-> ~ In k l.
Proof. exact (existsb_eqb_not_In string String.eqb String.eqb_eq). Qed.
