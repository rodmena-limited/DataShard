(* Proofs/ProcForkProofs.v -- property C19 for the local lock over the machine of Model/ProcFork.v: FileLock handles
   in OS processes, and fork() copying the WHOLE descriptor table of the forking process (`PFork p p' tw`, enabled only
   when every reference of p is copied).  The invariant is ProcLockProofs.inv; a fork preserves it when NO handle of
   the forking process is inside an acquisition (`pfork_quiescent`), because such a process has no descriptor of the
   lock file at all.  Without the hypothesis the statements are false (the `_full` Definitions at the bottom of the file,
   refuted in Props/C19.v): a fork while the copied handle holds, and a fork while ANOTHER handle of the process holds
   -- the child then keeps the owning description open, and the parent's death does not free the lock; and, forks or none,
   "a set flag names the kernel's owner" without the exception for release() (proc_flag_is_owner_full). *)
From Coq Require Import List Bool Arith.
Require Import DS.Model.ProcLockBase DS.Gen.GenFileLock DS.Model.ProcLock DS.Model.ProcFork
               DS.Proofs.ProcLockProofs DS.Proofs.ProcLockC19Proofs.
Require DS.Proofs.ListFacts.
Import ListNotations.

Lemma orig_of_in tw : forall k k0, orig_of tw k = Some k0 -> In (k0, k) tw.
Proof.
  induction tw as [|[a b] tw IH]; simpl; intros k k0 H; [discriminate|].
  destruct (Nat.eqb b k) eqn:E.
  - apply Nat.eqb_eq in E. inversion H; subst. left. reflexivity.
  - right. apply IH. exact H.
Qed.

Definition pends_holding (proc : hid -> pid) (k : hid) (e : pevent) : Prop :=
  e = PEv (LStep k KUnlock) \/ e = PEv (LKill (proc k)).

Lemma pforks_quiescent_split dc proc evs1 : forall s evs2,
  pforks_quiescent dc proc s (evs1 ++ evs2) ->
  pforks_quiescent dc proc s evs1 /\ pforks_quiescent dc proc (prun dc proc s evs1) evs2.
Proof.
  induction evs1 as [|e evs1 IH]; intros s evs2 Q; simpl in *; [split; [exact I | exact Q]|].
  destruct Q as [Qe Q]. destruct (IH _ _ Q) as [A B]. split; [split; assumption | exact B].
Qed.

Section Topology.
Variable proc : hid -> pid.

Notation step := (pstep ByDescription proc).
Notation run := (prun ByDescription proc).

Lemma pstep_ev s e : not_fork e -> step s (PEv e) = lstep ByDescription proc s e.
Proof. destruct e; simpl; intro H; [reflexivity | reflexivity | contradiction]. Qed.

Lemma pfork_twin_facts s p p' tw a b :
  pfork_enabled proc s p p' tw = true -> In (a, b) tw ->
  proc a = p /\ proc b = p' /\ l_h s b = HIdle /\ l_h s a <> HDead.
Proof.
  unfold pfork_enabled. rewrite !andb_true_iff. intros [[[[_ F] _] _] _] Hin.
  rewrite forallb_forall in F. specialize (F (a, b) Hin). unfold twin_ok in F. simpl in F.
  rewrite !andb_true_iff in F. destruct F as [[[[Pa Pb] Nd] Ib] _].
  apply Nat.eqb_eq in Pa. apply Nat.eqb_eq in Pb.
  split; [exact Pa|]. split; [exact Pb|]. split.
  - destruct (l_h s b); simpl in Ib; try discriminate. reflexivity.
  - intro D. rewrite D in Nd. simpl in Nd. discriminate.
Qed.

(* a process none of whose handles is inside an acquisition has no descriptor of the lock file: nothing to inherit *)
Lemma inherited_all_quiescent s p tw :
  inv s -> (forall k, proc k = p -> l_h s k = HIdle) -> inherited_all proc p tw (l_open s) = [].
Proof.
  intros Iv Q. unfold inherited_all. apply ListFacts.flat_map_nil. intros [d k] Hin. unfold inherit_ref. simpl.
  destruct (in_proc proc p k) eqn:Ep; [|reflexivity]. exfalso.
  unfold in_proc in Ep. apply Nat.eqb_eq in Ep. exact (idle_no_descriptor s k d Iv (Q k Ep) Hin).
Qed.

Lemma quiescent_pfork_inherits_nothing s p p' tw s' :
  inv s -> (forall k, proc k = p -> l_h s k = HIdle) -> step s (PFork p p' tw) = Some s' ->
  l_open s' = l_open s /\ l_next s' = l_next s /\ l_owner s' = l_owner s /\ forall k, l_h s' k = l_h s k.
Proof.
  intros Iv Q St. simpl in St. destruct (pfork_enabled proc s p p' tw) eqn:En; [|discriminate].
  inversion St; subst s'; clear St. simpl. rewrite (inherited_all_quiescent s p tw Iv Q), app_nil_r.
  repeat split. intro k. destruct (orig_of tw k) as [k0|] eqn:Eo; [|reflexivity].
  apply orig_of_in in Eo. destruct (pfork_twin_facts s p p' tw k0 k En Eo) as [Pa [_ [Ib _]]].
  rewrite (Q k0 Pa), Ib. reflexivity.
Qed.

Lemma pinv_step s e s' : inv s -> pfork_quiescent proc s e -> step s e = Some s' -> inv s'.
Proof.
  intros Iv Q St. destruct e as [e|p p' tw].
  - destruct e as [h k|p|h h']; simpl in St; [| |discriminate].
    + apply (inv_step proc s (LStep h k) s' Iv I St).
    + apply (inv_step proc s (LKill p) s' Iv I St).
  - exact (inv_ext s s' Iv (quiescent_pfork_inherits_nothing s p p' tw s' Iv Q St)).
Qed.

Lemma pinv_step_skip s e : inv s -> pfork_quiescent proc s e -> inv (pstep_skip ByDescription proc s e).
Proof.
  intros Iv Q. unfold pstep_skip. destruct (step s e) as [s'|] eqn:E; [exact (pinv_step s e s' Iv Q E) | exact Iv].
Qed.

Lemma pinv_run evs : forall s, inv s -> pforks_quiescent ByDescription proc s evs -> inv (run s evs).
Proof.
  induction evs as [|e evs IH]; intros s Iv Q; simpl; [exact Iv|]. destruct Q as [Q1 Q2].
  apply IH; [apply pinv_step_skip; assumption | exact Q2].
Qed.

Lemma preach_inv evs : pforks_quiescent ByDescription proc linit evs -> inv (run linit evs).
Proof. apply pinv_run. apply inv_init. Qed.

(* forks included, quiescent or not *)
Lemma pstep_keeps_holder s e s' h :
  step s e = Some s' -> lholds s h -> e <> PEv (LStep h KUnlock) -> e <> PEv (LKill (proc h)) -> lholds s' h.
Proof.
  intros St Hh N1 N2. destruct e as [e|p p' tw].
  - assert (St' : lstep ByDescription proc s e = Some s') by (destruct e; simpl in St; [exact St | exact St | discriminate]).
    apply (step_keeps_holder proc s e s' h St' Hh); intro Eq; subst e; [apply N1 | apply N2]; reflexivity.
  - simpl in St. destruct (pfork_enabled proc s p p' tw) eqn:En; [|discriminate].
    inversion St; subst s'; clear St. destruct Hh as [d Hd]. exists d. simpl.
    destruct (orig_of tw h) as [k0|] eqn:Eo; [|exact Hd]. exfalso.
    apply orig_of_in in Eo. destruct (pfork_twin_facts s p p' tw k0 h En Eo) as [_ [_ [Ib _]]].
    rewrite Hd in Ib. discriminate.
Qed.

Lemma pholder_persists evs : forall s k,
  inv s -> lholds s k -> pforks_quiescent ByDescription proc s evs ->
  Forall (fun e => ~ pends_holding proc k e) evs ->
  inv (run s evs) /\ lholds (run s evs) k.
Proof.
  induction evs as [|e evs IH]; intros s k Iv Hk Q F; simpl; [split; assumption|].
  destruct Q as [Qe Q]. inversion F as [|e0 l0 Fe Fl]; subst.
  apply IH; [apply pinv_step_skip; assumption | | exact Q | exact Fl].
  unfold pstep_skip. destruct (step s e) as [s1|] eqn:E; [|exact Hk].
  apply (pstep_keeps_holder s e s1 k E Hk).
  - intro Eq. apply Fe. left. exact Eq.
  - intro Eq. apply Fe. right. exact Eq.
Qed.

Lemma prun_strict_evs evs : forall s i, Forall not_fork evs ->
  prun_strict ByDescription proc s (map PEv evs) i = lrun_strict ByDescription proc s evs i.
Proof.
  induction evs as [|e evs IH]; intros s i F; [reflexivity|].
  inversion F as [|e0 l0 Fe Fl]; subst. cbn [map prun_strict lrun_strict]. rewrite (pstep_ev s e Fe).
  destruct (lstep ByDescription proc s e) as [s1|]; [apply IH; exact Fl | reflexivity].
Qed.

(* the flag (what is_held() returns) of a handle the kernel does not name as owner: only inside that handle's own
   release(), between the unlock and the end of release() *)
Lemma flag_is_owner_or_in_release s h : inv s -> (lflag s h <-> (lock_view s = Some h \/ in_release s h)).
Proof.
  intro Iv. split.
  - intros [d [Hd|Hd]]; [left; apply (inv_flag_iff_view s h Iv); exists d; exact Hd | right; exists d; exact Hd].
  - intros [V|[d Hd]].
    + apply (inv_flag_iff_view s h Iv) in V. destruct V as [d Hd]. exists d. left. exact Hd.
    + exists d. right. exact Hd.
Qed.

Lemma in_release_not_owner s h : inv s -> in_release s h -> lock_view s <> Some h /\ ~ lholds s h.
Proof.
  intros Iv [d Hd]. assert (N : ~ lholds s h) by (intros [d' Hd']; rewrite Hd in Hd'; discriminate).
  split; [|exact N]. intro V. apply N. apply (inv_flag_iff_view s h Iv). exact V.
Qed.

Lemma death_frees s h : inv s -> lholds s h ->
  exists s', step s (PEv (LKill (proc h))) = Some s' /\ lock_view s' = None /\ (forall k, ~ lholds s' k)
    /\ (forall w, l_h s w = HIdle -> proc w <> proc h ->
          exists s'', prun_strict ByDescription proc s' (map PEv (map (LStep w) attempt_granted_events)) 0 = inl s''
                      /\ lholds s'' w /\ lock_view s'' = Some w /\ (forall k, lholds s'' k -> k = w)).
Proof.
  intros Iv Hh. destruct (kill_frees proc s h Iv Hh) as [s' [E [Iv' [V Nh]]]].
  exists s'. split; [exact E|]. split; [exact V|]. split; [exact Nh|].
  intros w Hw Np.
  (* w, in another process, is still idle *)
  assert (Hw' : l_h s' w = HIdle).
  { simpl in E. injection E as <-. simpl. unfold in_proc. destruct (Nat.eqb_spec (proc w) (proc h)); [contradiction|exact Hw]. }
  destruct (free_lock_granted_alone proc s' w Iv' Hw' V) as [s'' R]. exists s''.
  rewrite prun_strict_evs by (simpl; repeat constructor). exact R.
Qed.

Lemma blocked_never_succeeds evs s k h :
  inv s -> lholds s k -> pforks_quiescent ByDescription proc s evs ->
  Forall (fun e => ~ pends_holding proc k e) evs -> h <> k ->
  let s2 := run s evs in
  lholds s2 k /\ ~ lholds s2 h /\ step s2 (PEv (LStep h (KTry true))) = None
  /\ (forall d, l_h s2 h = HOpened d ->
        exists s', step s2 (PEv (LStep h (KTry false))) = Some s' /\ lholds s' k /\ l_h s' h = HRefused d).
Proof.
  intros Iv Hk Q F N s2. destruct (pholder_persists evs s k Iv Hk Q F) as [I2 Hk2]. fold s2 in I2, Hk2.
  split; [exact Hk2|].
  assert (Nkh : k <> h) by (intro Eq; apply N; symmetry; exact Eq).
  split; [intro Hh; apply N; apply (inv_exclusive s2 h k I2 Hh Hk2)|].
  apply (refused_while_held proc s2 h k I2 Hk2 Nkh).
Qed.

End Topology.

(* the FALSE statements (schedules in Props/C19.v): the first two drop the hypothesis on forks; the third keeps it and drops
   the exception for a handle inside its own release() *)
Definition proc_mutex_full : Prop := forall (proc : hid -> pid) evs,
  let s := prun gen_lock_disc proc linit evs in forall h1 h2, lholds s h1 -> lholds s h2 -> h1 = h2.

Definition proc_death_frees_full : Prop := forall (proc : hid -> pid) evs h,
  let s := prun gen_lock_disc proc linit evs in
  lholds s h -> exists s', pstep gen_lock_disc proc s (PEv (LKill (proc h))) = Some s' /\ lock_view s' = None.

Definition proc_flag_is_owner_full : Prop := forall (proc : hid -> pid) evs,
  pforks_quiescent gen_lock_disc proc linit evs ->
  let s := prun gen_lock_disc proc linit evs in
  (forall h, lflag s h -> lock_view s = Some h) /\ (forall h1 h2, lflag s h1 -> lflag s h2 -> h1 = h2).

(* handles 0 and 1 in process 0, their copies 2 and 3 in process 1, handle 4 in process 2 *)
Definition two_in_one (h : hid) : pid := match h with 0 | 1 => 0 | 2 | 3 => 1 | _ => 2 end.
Definition fork_while_other_holds : list pevent :=
  [PEv (LStep 1 KOpen); PEv (LStep 1 (KTry true)); PFork 0 1 [(0, 2); (1, 3)]].
