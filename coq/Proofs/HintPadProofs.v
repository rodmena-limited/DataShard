(* Proofs/HintPadProofs.v -- whitespace around the pointer's content is invisible to the resolution: what a reopen resolves
   depends on strip(content) only.  (C03: crash points are explored from pointers in every accepted spelling; this is the
   statement that those spellings ARE equivalent for the regenerated parser.) *)
From Coq Require Import NArith List.
Require Import DS.Model.HintPrim DS.Gen.GenHint DS.Model.Hint.
Import ListNotations.

Definition all_space (l : list cp) : Prop := Forall (fun c => sp c = true) l.

Lemma lstrip_app_space : forall a l, all_space a -> lstrip (a ++ l) = lstrip l.
Proof.
  intros a l H. induction H as [|c a Hc Ha IH]; [reflexivity|].
  cbn [app lstrip]. rewrite Hc. exact IH.
Qed.

Lemma lstrip_all_space : forall a, all_space a -> lstrip a = [].
Proof. intros a H. rewrite <- (app_nil_r a). rewrite lstrip_app_space by exact H. reflexivity. Qed.

Lemma rstrip_app_space : forall l b, all_space b -> rstrip (l ++ b) = rstrip l.
Proof.
  intros l b Hb. unfold rstrip. rewrite rev_app_distr.
  rewrite lstrip_app_space by (apply Forall_rev; exact Hb). reflexivity.
Qed.

(* trailing space: once lstrip has met a character that stays, the space is at the end of what it returns, where rstrip
   removes it; if it meets none, nothing is left either way *)
Lemma strip_app_space : forall l b, all_space b -> strip (l ++ b) = strip l.
Proof.
  intros l b Hb. unfold strip. induction l as [|c l IH]; cbn [app lstrip].
  - rewrite (lstrip_all_space b Hb). reflexivity.
  - destruct (sp c); [exact IH|exact (rstrip_app_space (c :: l) b Hb)].
Qed.

Lemma strip_padding : forall a l b, all_space a -> all_space b -> strip (a ++ l ++ b) = strip l.
Proof.
  intros a l b Ha Hb. rewrite <- (strip_app_space l b Hb). unfold strip. rewrite lstrip_app_space by exact Ha. reflexivity.
Qed.

Lemma parse_padding : forall a l b, all_space a -> all_space b ->
  parse_hint (Some (a ++ l ++ b)) = parse_hint (Some l).
Proof.
  intros a l b Ha Hb. unfold parse_hint, gen_parse_hint. rewrite (strip_padding a l b Ha Hb). reflexivity.
Qed.

Lemma resolve_padding : forall a l b es, all_space a -> all_space b ->
  resolve (Some (Some (a ++ l ++ b))) es = resolve (Some (Some l)) es.
Proof.
  intros a l b es Ha Hb. unfold resolve, read_hint. rewrite (parse_padding a l b Ha Hb). reflexivity.
Qed.

(* the spellings the crash harness uses: "\n", "\r\n", " ... \n".  Stands alone: Props/C03.v C03_spelling_nonvacuous evaluates the
   two it needs itself *)
Lemma harness_spellings_are_space :
  all_space [acp 10] /\ all_space [acp 13; acp 10] /\ all_space [acp 32].
Proof. repeat split; repeat constructor. Qed.
