(* Proofs/MetaProofs.v -- invariants of the metadata model (Model/Meta.v) over arbitrary operation histories.

   Part 1: ancestors, the frame around the generated repointing walk, the pruning step shared by expiry, retention and
           delete_snapshot.
   Part 2: the invariant `Inv` of (ghost history, metadata), kept by pruning (`pruned`: expiry, retention, delete_snapshot)
           and by adding a snapshot; file deletes; the invariant rule of the machine (section Invariant: gstep_inv also gives
           no abort) and what follows from it (replay_Inv, wf_invariant).
   Part 3: what a step stores (monotone last_seq); the metadata log.
   Part 4: sequence numbers in snapshot-log order; vocabulary of the C09 lookups. *)
From Coq Require Import ZArith List Bool Lia Permutation Sorted.
Require Import DS.Model.MetaBase DS.Model.Meta DS.Model.MetaSpec.
Require Import DS.Proofs.ListFacts DS.Proofs.RepointProofs DS.Proofs.MetaLists.
Import ListNotations.
Open Scope Z_scope.

Lemma anc_trans : forall H a b c, anc H a b -> anc H b c -> anc H a c.
Proof.
  intros H a b c Hab Hbc. induction Hbc as [b c Hs|b c d Hbc IH Hs].
  - eapply anc_step; eassumption.
  - eapply anc_step; [apply IH; exact Hab|exact Hs].
Qed.

Lemma hstep_mono : forall H H' a b, incl H H' -> hstep H a b -> hstep H' a b.
Proof. intros H H' a b Hi [h [Hh Hr]]. exists h. split; [apply Hi; exact Hh|exact Hr]. Qed.

Lemma anc_mono : forall H H' a b, incl H H' -> anc H a b -> anc H' a b.
Proof.
  intros H H' a b Hi Ha. induction Ha.
  - apply anc_one. eapply hstep_mono; eassumption.
  - eapply anc_step; [eassumption|eapply hstep_mono; eassumption].
Qed.

Lemma repoint_all_map : forall (B : Type) (f : snap -> B) all kept, (forall s p, f (set_parent s p) = f s) ->
  map f (repoint_all all kept) = map f kept.
Proof. intros B f all kept Hf. unfold repoint_all. rewrite map_map. apply map_ext. intros s. apply Hf. Qed.

Lemma repoint_all_In : forall all kept s', In s' (repoint_all all kept) ->
  exists s, In s kept /\ s' = set_parent s (repoint_one (parent_map all) (map sid kept) (parent s)).
Proof.
  intros all kept s' H. unfold repoint_all in H. apply in_map_iff in H. destruct H as [s [Hs Hin]].
  exists s. split; [exact Hin|symmetry; exact Hs].
Qed.

Lemma repoint_all_length : forall all kept, length (repoint_all all kept) = length kept.
Proof. intros. unfold repoint_all. apply map_length. Qed.

(* the frame Model/Meta.v puts around the generated walk: fuel exhaustion is read as None, which never happens *)
Lemma repoint_one_spec : forall po kept start,
  walk_post po kept start (repoint_one po kept start) /\ (acyclic po -> nsa po kept start (repoint_one po kept start)).
Proof.
  intros po kept start. unfold repoint_one. destruct (gen_repoint_one_spec po kept start) as [r [-> Hr]]. exact Hr.
Qed.

Lemma pstep_snap : forall l a b, pstep (parent_map l) a b -> exists s, In s l /\ sid s = a /\ parent s = Some b.
Proof.
  intros l a b H. apply pstep_In in H. unfold parent_map in H. apply in_map_iff in H.
  destruct H as [s [Hs Hin]]. inversion Hs. exists s. repeat split; assumption.
Qed.

Definition no_sentinel (l : list snap) : Prop := forall s, In s l -> sid s <> -1.

Lemma not_nil_pos : forall x, 0 < x -> ~ nil_link (Some x).
Proof. intros x Hpos [H|H]; [discriminate|inversion H; lia]. Qed.

Lemma reach_src : forall l a c, no_sentinel l -> reach (parent_map l) a c -> a <> -1.
Proof.
  intros l a c Hns H. destruct H as [a b Hp|a b c Hp _]; apply pstep_snap in Hp; destruct Hp as [s [Hin [<- _]]];
    exact (Hns s Hin).
Qed.

Lemma pstep_anc : forall H m a b, parents_ok H m -> pstep (parent_map (snaps m)) a b -> b <> -1 -> anc H b a.
Proof.
  intros H m a b Hp Hs Hb. apply pstep_snap in Hs. destruct Hs as [s [Hin [Hsid Hpar]]].
  destruct (Hp s Hin) as [[Hn|Hn]|[p [Hp1 [_ Hp3]]]]; [congruence|congruence|].
  rewrite Hpar in Hp1. inversion Hp1; subst. exact Hp3.
Qed.

Lemma reach_anc : forall H m, parents_ok H m -> no_sentinel (snaps m) ->
  forall a c, reach (parent_map (snaps m)) a c -> c <> -1 -> anc H c a.
Proof.
  intros H m Hp Hns a c Hr. induction Hr as [a b Hs|a b c Hs Hr IH]; intros Hc.
  - eapply pstep_anc; eassumption.
  - eapply anc_trans; [apply IH; exact Hc|]. eapply pstep_anc; [exact Hp|exact Hs|].
    exact (reach_src _ _ _ Hns Hr).
Qed.

(* Expiry, retention and delete_snapshot do the same thing: of some rearrangement l of the snapshots list they keep the
   snapshots whose id satisfies P, repoint their parents, and filter the snapshot log with the same P. *)
Definition prune_with (m : meta) (c : option Z) (l : list snap) (P : Z -> bool) : meta :=
  with_snaps m c (repoint_all (snaps m) (filter (fun s => P (sid s)) l)) (filter (fun e => P (snd e)) (slog m)).

Lemma memZ_filter_sid : forall (P : Z -> bool) l i,
  memZ i (map sid (filter (fun s => P (sid s)) l)) = memZ i (map sid l) && P i.
Proof.
  intros P l i. induction l as [|s l IH]; [reflexivity|]. simpl.
  destruct (Z.eqb_spec i (sid s)) as [->|Hne]; destruct (P (sid s)) eqn:E; simpl.
  - rewrite Z.eqb_refl. reflexivity.
  - rewrite IH. apply andb_false_r.
  - destruct (Z.eqb_spec i (sid s)); [contradiction|]. exact IH.
  - exact IH.
Qed.

Lemma memZ_perm : forall i l l', Permutation l l' -> memZ i l = memZ i l'.
Proof. intros i l l'. apply existsb_perm. Qed.

Lemma prune_sids : forall m c l P, sids (prune_with m c l P) = map sid (filter (fun s => P (sid s)) l).
Proof. intros. apply repoint_all_map. reflexivity. Qed.

Lemma prune_sids_In : forall m c l P i, Permutation l (snaps m) ->
  (In i (sids (prune_with m c l P)) <-> In i (sids m) /\ P i = true).
Proof.
  intros m c l P i Hl. rewrite prune_sids, <- !memZ_In, memZ_filter_sid, andb_true_iff.
  rewrite (memZ_perm i _ _ (Permutation_map sid Hl)). reflexivity.
Qed.

Lemma prune_retained : forall H m c l P,
  retained_ok H m -> Permutation l (snaps m) -> retained_ok H (prune_with m c l P).
Proof.
  intros H m c l P [Hnd Hret] Hl. split.
  - rewrite prune_sids. apply NoDup_map_filter.
    eapply Permutation_NoDup; [apply Permutation_map, Permutation_sym, Hl|exact Hnd].
  - intros s' Hs'. cbn [prune_with with_snaps snaps] in Hs'. apply repoint_all_In in Hs'. destruct Hs' as [s [Hs ->]]. apply filter_In in Hs.
    destruct (Hret s (Permutation_in _ Hl (proj1 Hs))) as [h [Hh Hsame]]. exists h. split; [exact Hh|exact Hsame].
Qed.

Lemma prune_parents : forall H m c l P,
  parents_ok H m -> no_sentinel (snaps m) -> Permutation l (snaps m) -> parents_ok H (prune_with m c l P).
Proof.
  intros H m c l P Hp Hns Hl s' Hs'. rewrite prune_sids.
  assert (Hinc : incl (filter (fun s => P (sid s)) l) (snaps m)).
  { intros s Hs. apply filter_In in Hs. apply (Permutation_in _ Hl). tauto. }
  cbn [prune_with with_snaps snaps] in Hs'. apply repoint_all_In in Hs'. destruct Hs' as [s [Hs ->]]. simpl.
  (* the walk leaves nothing, or a kept id k reached from the old link by parent links, which are ancestor links *)
  destruct (repoint_one_spec (parent_map (snaps m)) (map sid (filter (fun s => P (sid s)) l)) (parent s))
    as [[Hn|[k [-> [Hk Hreach]]]] _]; [left; exact Hn|].
  assert (Hk1 : k <> -1).
  { apply in_map_iff in Hk. destruct Hk as [sk [<- Hin]]. apply Hns. apply Hinc. exact Hin. }
  right. exists k. split; [reflexivity|]. split; [exact Hk|].
  destruct (Hp s (Hinc s Hs)) as [[Hn|Hn]|[p [Hp1 [Hp2 Hp3]]]].
  - (* the old link was None *) rewrite Hn in Hreach. destruct Hreach as [He|[q [He _]]]; discriminate.
  - (* the old link was -1, which is no snapshot's id *)
    rewrite Hn in Hreach. destruct Hreach as [He|[q [He Hre]]]; [congruence|]. inversion He; subst q.
    exfalso. exact (reach_src _ _ _ Hns Hre eq_refl).
  - (* the old link was a retained true ancestor p: k is p or reached from it *)
    rewrite Hp1 in Hreach. destruct Hreach as [He|[q [He Hre]]]; inversion He; subst; [exact Hp3|].
    eapply anc_trans; [eapply reach_anc; eassumption|exact Hp3].
Qed.

Lemma prune_slog : forall H m c l P,
  slog_ok H m -> Permutation l (snaps m) -> slog_ok H (prune_with m c l P).
Proof.
  intros H m c l P Hs Hl. unfold slog_ok, retained_in_commit_order in *. rewrite prune_sids.
  cbn [prune_with with_snaps slog]. rewrite Hs, filter_map_comm. f_equal. cbn [snd].
  rewrite filter_filter_andb. apply filter_ext. intros h.
  rewrite memZ_filter_sid, (memZ_perm _ _ _ (Permutation_map sid Hl)). reflexivity.
Qed.

(* the part of the invariant that does not mention the current snapshot: three conjuncts of WF, and the positivity of
   committed ids *)
Record Core (H : list snap) (m : meta) : Prop := {
  c_par : parents_ok H m;                      (* WF *)
  c_ret : retained_ok H m;                     (* WF *)
  c_slog : slog_ok H m;                        (* WF *)
  c_pos : forall h, In h H -> 0 < sid h        (* no retained id is the -1 sentinel: the repointing walk stops at -1 (prune_parents) *)
}.

Lemma core_sids_pos : forall H m, Core H m -> forall s, In s (snaps m) -> 0 < sid s.
Proof.
  intros H m C s Hs. destruct (c_ret _ _ C) as [_ Hr]. destruct (Hr s Hs) as [h [Hh [Hsid _]]].
  rewrite <- Hsid. apply (c_pos _ _ C h Hh).
Qed.

Lemma core_no_sentinel : forall H m, Core H m -> no_sentinel (snaps m).
Proof. intros H m C s Hs. pose proof (core_sids_pos H m C s Hs). lia. Qed.

Lemma core_ext : forall H m m', snaps m = snaps m' -> slog m = slog m' -> Core H m -> Core H m'.
Proof.
  intros H m m' Hs Hl [Cp Cr Csl Cpos].
  constructor; unfold parents_ok, retained_ok, slog_ok, retained_in_commit_order, sids; rewrite <- ?Hs, <- ?Hl; assumption.
Qed.

Lemma cur_ok_ext : forall m m', cur m = cur m' -> snaps m = snaps m' -> cur_ok m -> cur_ok m'.
Proof. intros m m' Hc Hs H. unfold cur_ok, sids in *. rewrite <- Hc, <- Hs. exact H. Qed.

Lemma core_prune : forall H m c l P, Core H m -> Permutation l (snaps m) -> Core H (prune_with m c l P).
Proof.
  intros H m c l P C Hl. constructor.
  - (* c_par *) apply prune_parents; [apply (c_par _ _ C)|eapply core_no_sentinel; exact C|exact Hl].
  - (* c_ret *) apply prune_retained; [apply (c_ret _ _ C)|exact Hl].
  - (* c_slog *) apply prune_slog; [apply (c_slog _ _ C)|exact Hl].
  - (* c_pos *) apply (c_pos _ _ C).
Qed.

Lemma cur_ok_prune : forall m l P, Permutation l (snaps m) -> cur_ok m ->
  (forall x, cur m = Some x -> In x (sids m) -> P x = true) -> cur_ok (prune_with m (cur m) l P).
Proof.
  intros m l P Hl [Hn|[x [Hx Hin]]] HP; [left; exact Hn|]. right. exists x. split; [exact Hx|].
  apply prune_sids_In; [exact Hl|]. split; [exact Hin|apply HP; assumption].
Qed.

Lemma sids_In_snap : forall m x, In x (sids m) -> exists s, In s (snaps m) /\ sid s = x.
Proof. intros m x H. unfold sids in H. apply in_map_iff in H. destruct H as [s [Hs Hin]]. exists s. tauto. Qed.

Lemma sids_existsb : forall m x, In x (sids m) -> existsb (fun s => sid s =? x) (snaps m) = true.
Proof.
  intros m x H. apply sids_In_snap in H. destruct H as [s [Hs Hsid]].
  apply existsb_exists. exists s. split; [exact Hs|]. apply Z.eqb_eq. exact Hsid.
Qed.

(* WF (inv_wf), with seq_ok split into i_sorted and i_le (its third conjunct follows from c_ret), plus what the steps need
   to keep it *)
Record Inv (H : list snap) (m : meta) : Prop := {
  i_core : Core H m;
  i_cur : cur_ok m;                                 (* WF; also: the base snapshot of a transaction exists (base_manifests_ok) *)
  i_nd : NoDup (map sid H);                         (* a retained snapshot has ONE committed original (C09: retained_frozen) *)
  i_sorted : StronglySorted Z.lt (map seq H);       (* seq_ok *)
  i_le : forall h, In h H -> seq h <= last_seq m;   (* seq_ok; keeps i_sorted when last_seq + 1 is stamped *)
  i_ent : entries_ok H                              (* C15_entries_provenance *)
}.

(* the fields the snapshot invariants read: metadata_manager.commit and a property change touch none of them *)
Definition same_tables (m m' : meta) : Prop :=
  cur m = cur m' /\ snaps m = snaps m' /\ slog m = slog m' /\ last_seq m = last_seq m'.

Lemma inv_same_hist : forall H m m', Inv H m -> Core H m' -> cur_ok m' -> last_seq m <= last_seq m' -> Inv H m'.
Proof.
  intros H m m' HI C Hc Hle. destruct HI as [_ _ Hnd Hs Hl He]. constructor; try assumption.
  intros h Hh. specialize (Hl h Hh). lia.
Qed.

Lemma inv_ext : forall H m m', same_tables m m' -> Inv H m -> Inv H m'.
Proof.
  intros H m m' [Hc [Hs [Hl Hq]]] HI. apply (inv_same_hist H m); [exact HI| | |lia].
  - eapply core_ext; [exact Hs|exact Hl|apply (i_core _ _ HI)].
  - eapply cur_ok_ext; [exact Hc|exact Hs|apply (i_cur _ _ HI)].
Qed.

Definition expire_keep (cutoff : Z) (m : meta) (s : snap) : bool := (cutoff <=? ts s) || opt_eqb (Some (sid s)) (cur m).

Lemma expire_sids : forall cutoff m, sids (expire cutoff m) = map sid (filter (expire_keep cutoff m) (snaps m)).
Proof. intros. apply repoint_all_map. reflexivity. Qed.

Lemma expire_current_kept : forall cutoff m x, cur m = Some x -> In x (sids m) ->
  In x (map sid (filter (expire_keep cutoff m) (snaps m))).
Proof.
  intros cutoff m x Hc Hx. apply sids_In_snap in Hx. destruct Hx as [s [Hs Hsid]].
  apply in_map_iff. exists s. split; [exact Hsid|]. apply filter_In. split; [exact Hs|].
  unfold expire_keep. rewrite Hc, Hsid. simpl. rewrite Z.eqb_refl. apply orb_true_r.
Qed.

Lemma filter_by_kept_ids : forall (Q : snap -> bool) l, NoDup (map sid l) ->
  filter Q l = filter (fun s => memZ (sid s) (map sid (filter Q l))) l.
Proof.
  intros Q l Hnd. apply filter_ext_in. intros s Hs. destruct (Q s) eqn:EQ.
  - symmetry. apply memZ_In. apply in_map. apply filter_In. split; assumption.
  - symmetry. apply memZ_false. intro Hin. apply in_map_iff in Hin. destruct Hin as [s' [Hsid Hin']].
    apply filter_In in Hin'. destruct Hin' as [Hin' HQ'].
    assert (s' = s) by (eapply NoDup_map_inj_in; eassumption). subst. congruence.
Qed.

Lemma expire_as_prune : forall cutoff m, NoDup (sids m) ->
  expire cutoff m = prune_with m (cur m) (snaps m) (fun i => memZ i (map sid (filter (expire_keep cutoff m) (snaps m)))).
Proof. intros cutoff m Hnd. unfold prune_with. rewrite <- (filter_by_kept_ids _ _ Hnd). reflexivity. Qed.

Lemma expire_cur : forall cutoff m, cur (expire cutoff m) = cur m.
Proof. reflexivity. Qed.
Lemma expire_last_seq : forall cutoff m, last_seq (expire cutoff m) = last_seq m.
Proof. reflexivity. Qed.

Definition ret_kept_ids (n : Z) (m : meta) : list Z :=
  let kept0 := map sid (lastn (Z.to_nat n) (sort_ts (snaps m))) in
  match cur m with
  | Some c => if negb (memZ c kept0) && existsb (fun s => sid s =? c) (snaps m) then kept0 ++ [c] else kept0
  | None => kept0
  end.

Lemma apply_retention_cases : forall m,
  apply_retention m = m \/
  exists n, apply_retention m = prune_with m (cur m) (sort_ts (snaps m)) (fun i => memZ i (ret_kept_ids n m)).
Proof.
  intros m. unfold apply_retention. destruct (retention m) as [|n|]; try (left; reflexivity).
  destruct ((n <? 1) || (Z.of_nat (length (snaps m)) <=? n)); [left; reflexivity|].
  right. exists n. reflexivity.
Qed.

Lemma ret_current_kept : forall n m x, cur m = Some x -> In x (sids m) -> In x (ret_kept_ids n m).
Proof.
  intros n m x Hc Hx. unfold ret_kept_ids. rewrite Hc.
  destruct (memZ x (map sid (lastn (Z.to_nat n) (sort_ts (snaps m))))) eqn:Em; simpl.
  - apply memZ_In. exact Em.
  - rewrite (sids_existsb m x Hx). apply in_elt.
Qed.

Lemma apply_retention_cur : forall m, cur (apply_retention m) = cur m.
Proof. intros m. destruct (apply_retention_cases m) as [->|[n ->]]; reflexivity. Qed.
Lemma apply_retention_last_seq : forall m, last_seq (apply_retention m) = last_seq m.
Proof. intros m. destruct (apply_retention_cases m) as [->|[n ->]]; reflexivity. Qed.

Lemma max_ts_In : forall l d, In (max_ts d l) (d :: l).
Proof.
  intros l. unfold max_ts. induction l as [|x l IH]; intros d; simpl; [left; reflexivity|].
  destruct (ts d <? ts x).
  - destruct (IH x) as [H|H]; [right; left; exact H|right; right; exact H].
  - destruct (IH d) as [H|H]; [left; exact H|right; right; exact H].
Qed.

Lemma most_recent_ok : forall m, most_recent m = None \/ exists x, most_recent m = Some x /\ In x (sids m).
Proof.
  intros m. unfold most_recent. destruct (snaps m) as [|s0 rest] eqn:E; [left; reflexivity|].
  destruct (find (fun e => memZ (snd e) (sids m)) (rev (slog m))) as [e|] eqn:Ef.
  - right. exists (snd e). split; [reflexivity|]. apply find_some in Ef. apply memZ_In. tauto.
  - right. eexists. split; [reflexivity|]. unfold sids. rewrite E. apply in_map. apply max_ts_In.
Qed.

Definition recur (m : meta) : meta := with_snaps m (most_recent m) (snaps m) (slog m).

Definition delete_pruned (m : meta) (id : Z) : meta := prune_with m (cur m) (snaps m) (fun i => negb (i =? id)).

Lemma delete_snapshot_cases : forall m id m', NoDup (sids m) -> delete_snapshot m id = Some m' ->
  m' = if opt_eqb (cur m) (Some id)
       then recur (delete_pruned m id) else delete_pruned m id.
Proof.
  intros m id m' Hnd. unfold delete_snapshot. destruct (remove_first id (snaps m)) as [rest|] eqn:E; [|discriminate].
  rewrite (remove_first_filter id _ rest Hnd E). intros Hd. inversion Hd. reflexivity.
Qed.

(* a rearrangement that keeps the order within each timestamp: what the stable sort of _apply_retention does *)
Definition stable_perm (l l' : list snap) : Prop :=
  Permutation l l' /\ forall t, filter (fun s => ts s =? t) l = filter (fun s => ts s =? t) l'.

Lemma stable_perm_refl : forall l, stable_perm l l.
Proof. intros l. split; [apply Permutation_refl|reflexivity]. Qed.

Lemma sort_ts_stable : forall l, stable_perm (sort_ts l) l.
Proof. intros l. split; [apply sort_ts_perm|intro t; apply sort_ts_class]. Qed.

(* What expiry, retention and delete_snapshot do to the metadata: nothing; or of a stable rearrangement of the snapshots
   list they keep the snapshots whose id passes a test, the current one among them; or they drop the current one and make
   the most recent survivor current.  Each invariant of the machine is shown for `pruned` once (inv_pruned here, law P_prune
   below). *)
Inductive pruned (m : meta) : meta -> Prop :=
| pruned_same : pruned m m
| pruned_keep : forall l Q, stable_perm l (snaps m) -> (forall x, cur m = Some x -> In x (sids m) -> Q x = true) ->
    pruned m (prune_with m (cur m) l Q)
| pruned_recur : forall l Q, stable_perm l (snaps m) -> pruned m (recur (prune_with m (cur m) l Q)).

(* the expiry a transaction may carry *)
Lemma expire_pruned : forall cut m, NoDup (sids m) -> pruned m (match cut with Some c => expire c m | None => m end).
Proof.
  intros [c|] m Hnd; [|apply pruned_same]. rewrite (expire_as_prune c m Hnd). apply pruned_keep; [apply stable_perm_refl|].
  intros x Hx Hin. apply memZ_In. apply expire_current_kept; assumption.
Qed.

Lemma retention_pruned : forall m, pruned m (apply_retention m).
Proof.
  intros m. destruct (apply_retention_cases m) as [->|[n ->]]; [apply pruned_same|].
  apply pruned_keep; [apply sort_ts_stable|]. intros x Hx Hin. apply memZ_In. apply ret_current_kept; assumption.
Qed.

Lemma delete_snapshot_pruned : forall m id m', NoDup (sids m) -> delete_snapshot m id = Some m' -> pruned m m'.
Proof.
  intros m id m' Hnd Hd. rewrite (delete_snapshot_cases m id m' Hnd Hd). destruct (opt_eqb (cur m) (Some id)) eqn:Ec.
  - apply pruned_recur. apply stable_perm_refl.
  - apply pruned_keep; [apply stable_perm_refl|].
    (* the current id is not the deleted one *)
    intros x Hx _. apply negb_true_iff. apply Z.eqb_neq. intro He.
    rewrite (proj2 (opt_eqb_eq (cur m) (Some id))) in Ec; congruence.
Qed.

Lemma inv_pruned : forall H m m', Inv H m -> pruned m m' -> Inv H m'.
Proof.
  intros H m m' HI Hp. pose proof (i_core _ _ HI) as C.
  destruct Hp as [|l Q [Hl _] HQ|l Q [Hl _]]; [exact HI| |];
    assert (C1 : Core H (prune_with m (cur m) l Q)) by (apply core_prune; [exact C|exact Hl]).
  - apply (inv_same_hist H m); [exact HI|exact C1| |apply Z.le_refl].
    apply cur_ok_prune; [exact Hl|apply (i_cur _ _ HI)|exact HQ].
  - apply (inv_same_hist H m); [exact HI| | |apply Z.le_refl].
    + apply (core_ext H (prune_with m (cur m) l Q)); [reflexivity|reflexivity|exact C1].
    + (* the most recent survivor, if any, is retained *)
      unfold cur_ok. simpl. destruct (most_recent_ok (prune_with m (cur m) l Q)) as [Hm|[x [Hm Hx]]].
      * left. left. exact Hm.
      * right. exists x. split; [exact Hm|exact Hx].
Qed.

Lemma inv_sids_nodup : forall H m, Inv H m -> NoDup (sids m).
Proof. intros H m HI. apply (c_ret _ _ (i_core _ _ HI)). Qed.

Lemma add_snapshot_core : forall H m id t ml, Core H m -> cur_ok m ->
  0 < id -> ~ In id (map sid H) ->
  Core (H ++ [new_snap m id t ml]) (add_snapshot m (new_snap m id t ml)) /\ cur_ok (add_snapshot m (new_snap m id t ml)).
Proof.
  intros H m id t ml C Hc Hpos Hfresh. set (s := new_snap m id t ml).
  assert (Hsids : sids (add_snapshot m s) = sids m ++ [id]) by apply map_app.
  assert (Hold : forall x, In x (sids m) -> In x (sids m ++ [id])) by (intros; apply in_or_app; left; assumption).
  assert (Hid : In id (sids m ++ [id])) by (apply in_elt).
  assert (HH : incl H (H ++ [s])) by (apply incl_appl, incl_refl).
  assert (Hs : In s (H ++ [s])) by (apply in_elt).
  split; [constructor|].
  - (* c_par: old links stay true ancestors in the longer history; the new snapshot's parent is the current snapshot *)
    intros s' Hs'. rewrite Hsids. apply in_app_or in Hs'. destruct Hs' as [Hs'|[<-|[]]].
    + destruct (c_par _ _ C s' Hs') as [Hn|[p [Hp1 [Hp2 Hp3]]]]; [left; exact Hn|].
      right. exists p. split; [exact Hp1|]. split; [apply Hold; exact Hp2|eapply anc_mono; eassumption].
    + destruct Hc as [Hn|[c [Hcc Hin]]].
      * left. right. unfold s, new_snap. simpl. destruct Hn as [-> | ->]; reflexivity.
      * assert (Hpar : parent s = Some c) by (unfold s, new_snap; simpl; rewrite Hcc; reflexivity).
        right. exists c. split; [exact Hpar|]. split; [apply Hold; exact Hin|].
        apply anc_one. exists s. split; [exact Hs|]. split; [reflexivity|exact Hpar].
  - (* c_ret: the new id is not a retained one, a retained id being a committed one; every snapshot has its original *)
    split.
    + rewrite Hsids. apply NoDup_snoc; [apply (c_ret _ _ C)|]. intro Hin. apply sids_In_snap in Hin. destruct Hin as [s' [Hs' Hsid]].
      destruct (proj2 (c_ret _ _ C) s' Hs') as [h [Hh [Hhs _]]]. apply Hfresh. rewrite <- Hsid, <- Hhs. apply in_map. exact Hh.
    + intros s' Hs'. apply in_app_or in Hs'. destruct Hs' as [Hs'|[<-|[]]].
      * destruct (proj2 (c_ret _ _ C) s' Hs') as [h [Hh Hsame]]. exists h. split; [apply HH; exact Hh|exact Hsame].
      * exists s. split; [exact Hs|]. repeat split.
  - (* c_slog: the log gains the new pair; on the old history the id test is unchanged, the new id being fresh *)
    unfold slog_ok, retained_in_commit_order. rewrite Hsids. cbn [add_snapshot slog].
    rewrite filter_app, map_app, (c_slog _ _ C). unfold retained_in_commit_order. f_equal.
    + f_equal. apply filter_ext_in. intros h Hh. unfold memZ. rewrite existsb_app. simpl.
      destruct (Z.eqb_spec (sid h) id) as [E|_]; [|rewrite orb_false_r; reflexivity].
      exfalso. apply Hfresh. rewrite <- E. apply in_map. exact Hh.
    + simpl. rewrite (proj2 (memZ_In id _) Hid). reflexivity.
  - (* c_pos *) intros h Hh. apply in_app_or in Hh. destruct Hh as [Hh|[<-|[]]]; [apply (c_pos _ _ C); exact Hh|exact Hpos].
  - (* cur_ok: the new snapshot is current and retained *) right. exists id. split; [reflexivity|rewrite Hsids; exact Hid].
Qed.

(* what apply_deletes carries over from the base manifests: the entries no deleted path names, keys unchanged *)
Definition survives (ps : list path) (e : entry) : bool := negb (named ps e).

Lemma ekey_to_existing : forall l, map ekey (map to_existing l) = map ekey l.
Proof. intros l. rewrite map_map. apply map_ext. reflexivity. Qed.

Lemma rewrite_manifest_keys : forall ps mf,
  map ekey (concat (rewrite_manifest ps mf)) = map ekey (filter (survives ps) mf).
Proof.
  intros ps mf. unfold rewrite_manifest. fold (survives ps).
  destruct (Nat.eqb_spec (length (filter (survives ps) mf)) (length mf)) as [He|Hne].
  - simpl. rewrite app_nil_r. rewrite (filter_length_eq _ _ _ He). reflexivity.
  - destruct (filter (survives ps) mf) as [|e l] eqn:E; [reflexivity|].
    simpl concat. rewrite app_nil_r. apply (ekey_to_existing (e :: l)).
Qed.

Lemma apply_deletes_keys : forall ps mfs,
  map ekey (entries (apply_deletes ps mfs)) = map ekey (filter (survives ps) (entries mfs)).
Proof.
  intros ps mfs. unfold entries, apply_deletes. destruct ps as [|p ps].
  - rewrite filter_all_true; [reflexivity|]. intros e _. reflexivity.
  - induction mfs as [|mf mfs IH]; [reflexivity|].
    simpl flat_map. simpl concat. rewrite concat_app, filter_app, !map_app, IH. f_equal. apply rewrite_manifest_keys.
Qed.

Lemma rewrite_manifest_shape : forall ps mf mf', In mf' (rewrite_manifest ps mf) ->
  mf' = mf \/ (mf' <> [] /\ Forall (fun e => estatus e = ST_EXISTING) mf').
Proof.
  intros ps mf mf' H. unfold rewrite_manifest in H. destruct (Nat.eqb _ _); [destruct H as [<-|[]]; left; reflexivity|].
  destruct (filter _ mf) as [|e l]; [destruct H|]. destruct H as [<-|[]].
  right. split; [discriminate|]. apply Forall_forall. intros x Hx. apply in_map_iff in Hx. destruct Hx as [y [<- _]]. reflexivity.
Qed.

Lemma apply_deletes_shape : forall ps mfs mf', In mf' (apply_deletes ps mfs) ->
  In mf' mfs \/ (mf' <> [] /\ Forall (fun e => estatus e = ST_EXISTING) mf').
Proof.
  intros ps mfs mf' H. unfold apply_deletes in H. destruct ps as [|p ps]; [left; exact H|].
  apply in_flat_map in H. destruct H as [mf [Hmf Hin]]. apply rewrite_manifest_shape in Hin.
  destruct Hin as [->|Hex]; [left; exact Hmf|right; exact Hex].
Qed.

Lemma apply_deletes_entry : forall ps mfs e, In e (entries (apply_deletes ps mfs)) ->
  exists e0, In e0 (entries mfs) /\ ekey e0 = ekey e /\ named ps e0 = false.
Proof.
  intros ps mfs e H. apply (in_map ekey) in H. rewrite apply_deletes_keys in H.
  apply in_map_iff in H. destruct H as [e0 [Hk Hin]]. apply filter_In in Hin. destruct Hin as [Hin Hs].
  exists e0. split; [exact Hin|]. split; [exact Hk|]. unfold survives in Hs. apply negb_true_iff. exact Hs.
Qed.

Lemma path_eqb_eq : forall a b, path_eqb a b = true <-> a = b.
Proof.
  intros [a1 a2] [b1 b2]. unfold path_eqb. simpl. rewrite andb_true_iff, !Z.eqb_eq. split; [intros [-> ->]; reflexivity|].
  intros E. inversion E. split; reflexivity.
Qed.

Lemma mem_path_In : forall p l, mem_path p l = true <-> In p l.
Proof. exact (existsb_eqb_In path path_eqb path_eqb_eq). Qed.

Lemma named_spec : forall ps e, named ps e = true <-> exists p, In p ps /\ lstrip p = lstrip (epath e).
Proof.
  intros ps e. unfold named. rewrite mem_path_In, in_map_iff. split.
  - intros [p [Hp Hin]]. exists p. split; [exact Hin|exact Hp].
  - intros [p [Hin Hp]]. exists p. split; [exact Hp|exact Hin].
Qed.

(* A path may be listed more than once -- by several manifests (append_files accepts a file that is already
   registered) or several times in one manifest.  No entry that survives a delete is named by it, wherever in the
   manifest list it was and however many other registrations of the same path came before it. *)
Theorem delete_complete : forall ps mfs e, In e (entries (apply_deletes ps mfs)) -> named ps e = false.
Proof.
  intros ps mfs e H. destruct (apply_deletes_entry ps mfs e H) as [e0 [_ [Hk Hn]]].
  unfold ekey in Hk. inversion Hk as [[Hp Ha Hs]]. unfold named in *. rewrite <- Hp. exact Hn.
Qed.

Lemma added_by_key : forall h0 e e', ekey e = ekey e' -> added_by h0 e -> added_by h0 e'.
Proof.
  intros h0 e e' Hk [H1 [H2 H3]]. unfold ekey in Hk. inversion Hk as [[Hp Ha Hs]].
  unfold added_by. rewrite <- Hp, <- Ha, <- Hs. repeat split; assumption.
Qed.

(* so the dangling-current abort of _commit_file_ops is dead code *)
Lemma base_manifests_ok : forall H m, Core H m -> cur_ok m ->
  exists base, base_manifests m = Some base /\
    (base = [] \/ exists h, In h H /\ mlist h = base).
Proof.
  intros H m C Hc. unfold base_manifests. destruct Hc as [[Hn|Hn]|[c [Hcc Hin]]].
  - rewrite Hn. exists []. split; [reflexivity|left; reflexivity].
  - rewrite Hn. simpl. exists []. split; [reflexivity|left; reflexivity].
  - rewrite Hcc. destruct (Z.eqb_spec c (-1)); [exists []; split; [reflexivity|left; reflexivity]|].
    destruct (find (fun s => sid s =? c) (snaps m)) as [s|] eqn:Ef.
    + exists (mlist s). split; [reflexivity|]. right. apply find_some in Ef. destruct Ef as [Hs _].
      destruct (c_ret _ _ C) as [_ Hr]. destruct (Hr s Hs) as [h [Hh [_ [_ [_ Hml]]]]]. exists h. split; [exact Hh|exact Hml].
    + exfalso. apply sids_In_snap in Hin. destruct Hin as [s [Hs Hsid]].
      pose proof (find_none _ _ Ef s Hs) as Hf. simpl in Hf. rewrite Hsid, Z.eqb_refl in Hf. discriminate.
Qed.

Lemma append_manifest_entries : forall id sq adds,
  entries (append_manifest id sq adds) = map (fun p => {| epath := p; estatus := ST_ADDED; eadded := id; eseq := sq |}) adds.
Proof.
  intros id sq adds. destruct adds as [|a adds]; [reflexivity|].
  unfold append_manifest, entries. simpl. rewrite app_nil_r. reflexivity.
Qed.

Lemma entries_app : forall l1 l2, entries (l1 ++ l2) = entries l1 ++ entries l2.
Proof. intros. apply concat_app. Qed.

(* the entries of a file transaction's snapshot: those carried over from the base snapshot keep its provenance, the
   appended ones are the new snapshot's own *)
Lemma entries_ok_add : forall H m id t adds dels base,
  entries_ok H -> (forall h, In h H -> seq h <= last_seq m) ->
  (base = [] \/ exists h, In h H /\ mlist h = base) ->
  entries_ok (H ++ [new_snap m id t (apply_deletes dels base ++ append_manifest id (last_seq m + 1) adds)]).
Proof.
  intros H m id t adds dels base He Hle Hb. set (s := new_snap m id t _).
  intros h' e Hh' Hin. apply in_app_or in Hh'. destruct Hh' as [Hh'|[<-|[]]].
  { destruct (He h' e Hh' Hin) as [Hle' [h0 [Hh0 Ha]]]. split; [exact Hle'|]. exists h0. split; [apply in_or_app; left; exact Hh0|exact Ha]. }
  assert (Hs : In s (H ++ [s])) by (apply in_elt).
  simpl in Hin. rewrite entries_app, append_manifest_entries in Hin. apply in_app_or in Hin. destruct Hin as [Hin|Hin].
  - apply (apply_deletes_entry dels base e) in Hin. destruct Hin as [e0 [Hin0 [Hk _]]].
    destruct Hb as [->|[h [Hh <-]]]; [destruct Hin0|].
    destruct (He h e0 Hh Hin0) as [Hle0 [h0 [Hh0 Ha]]].
    assert (Hseq : eseq e = eseq e0) by (unfold ekey in Hk; inversion Hk; reflexivity).
    split; [rewrite Hseq; pose proof (Hle h Hh); simpl; lia|].
    exists h0. split; [apply in_or_app; left; exact Hh0|]. eapply added_by_key; [exact Hk|exact Ha].
  - apply in_map_iff in Hin. destruct Hin as [p [<- Hp]]. split; [simpl; lia|].
    exists s. split; [exact Hs|]. split; [reflexivity|]. split; [reflexivity|].
    simpl. rewrite entries_app, append_manifest_entries. apply in_or_app. right.
    apply in_map_iff. exists p. split; [reflexivity|exact Hp].
Qed.

Lemma inv_add : forall H m id t adds dels base, Inv H m -> 0 < id -> ~ In id (map sid H) ->
  (base = [] \/ exists h, In h H /\ mlist h = base) ->
  let s := new_snap m id t (apply_deletes dels base ++ append_manifest id (last_seq m + 1) adds) in
  Inv (H ++ [s]) (add_snapshot m s).
Proof.
  intros H m id t adds dels base HI Hpos Hf Hb s.
  destruct (add_snapshot_core H m id t (mlist s) (i_core _ _ HI) (i_cur _ _ HI) Hpos Hf) as [C1 Hc1].
  constructor; [exact C1|exact Hc1| | | |]; rewrite ?map_app.
  - (* i_nd *) apply NoDup_snoc; [apply (i_nd _ _ HI)|exact Hf].
  - (* i_sorted *) apply StronglySorted_snoc; [apply (i_sorted _ _ HI)|].
    apply Forall_forall. intros x Hx. apply in_map_iff in Hx. destruct Hx as [h [<- Hh]].
    pose proof (i_le _ _ HI h Hh). simpl. lia.
  - (* i_le *) intros h Hh. apply in_app_or in Hh. destruct Hh as [Hh|[<-|[]]]; [pose proof (i_le _ _ HI h Hh)|]; simpl; lia.
  - (* i_ent *) apply entries_ok_add; [apply (i_ent _ _ HI)|apply (i_le _ _ HI)|exact Hb].
Qed.

(* the snapshot a transaction has just made current survives its own expiry: the second abort is dead code *)
Lemma current_retained : forall m id, cur_ok m -> cur m = Some id -> 0 < id ->
  existsb (fun s => sid s =? id) (snaps m) = true.
Proof.
  intros m id [Hn|[c [Hc Hin]]] Hcur Hpos; rewrite Hcur in *.
  - exfalso. exact (not_nil_pos id Hpos Hn).
  - inversion Hc; subst c. exact (sids_existsb m id Hin).
Qed.

(* the two committing branches of step_full's Txn case, named so that step_full_txn can state the three-way split once *)
Definition txn_fileops (st : state) (ops : list txop) (id t tu f : Z) : state * outcome * option snap :=
  match base_manifests (md st) with
  | None => (st, Aborted, None)
  | Some base =>
      let ml := apply_deletes (tx_dels ops) base ++ append_manifest id (last_seq (md st) + 1) (tx_adds ops) in
      match create_snapshot (md st) id t ml (tx_expire ops) with
      | None => (st, Aborted, None)
      | Some m' => (md_commit st m' tu f, Committed, Some (new_snap (md st) id t ml))
      end
  end.

Definition txn_metaonly (st : state) (ops : list txop) (tu f : Z) : state * outcome * option snap :=
  (md_commit st (match tx_expire ops with Some c => expire c (md st) | None => md st end) tu f, Committed, None).

Lemma step_full_txn : forall st ops id t tu f,
  (ops = [] /\ step_full st (Txn ops id t tu f) = (st, NoCommit, None)) \/
  (step_full st (Txn ops id t tu f) = txn_metaonly st ops tu f) \/
  (step_full st (Txn ops id t tu f) = txn_fileops st ops id t tu f).
Proof.
  intros st ops id t tu f. destruct ops as [|o1 ops1]; [left; split; reflexivity|]. right.
  unfold step_full, txn_metaonly, txn_fileops. cbv zeta.
  destruct (tx_adds (o1 :: ops1)) as [|a adds]; destruct (tx_dels (o1 :: ops1)) as [|d dels].
  - left. reflexivity.
  - right. reflexivity.
  - right. reflexivity.
  - right. reflexivity.
Qed.

Lemma txn_committed_snap : forall st ops id t tu f s, snd (step_full st (Txn ops id t tu f)) = Some s ->
  exists base, base_manifests (md st) = Some base /\
    s = new_snap (md st) id t (apply_deletes (tx_dels ops) base ++ append_manifest id (last_seq (md st) + 1) (tx_adds ops)).
Proof.
  intros st ops id t tu f s.
  destruct (step_full_txn st ops id t tu f) as [[_ ->]|[->| ->]]; [discriminate|discriminate|].
  unfold txn_fileops. destruct (base_manifests (md st)) as [base|]; [|discriminate]. cbv zeta.
  destruct (create_snapshot _ _ _ _ _); [|discriminate]. intros E. inversion E.
  exists base. split; reflexivity.
Qed.

Lemma step_full_stamp : forall st o s, snd (step_full st o) = Some s -> op_ids o = [sid s] /\ op_ts o = [ts s].
Proof.
  intros st [ops id t tu f|id tu f|v tu f|v tu f] s H;
    [|simpl in H; destruct (delete_snapshot (md st) id); discriminate|discriminate|discriminate].
  destruct (txn_committed_snap _ _ _ _ _ _ _ H) as [base [_ ->]]. split; reflexivity.
Qed.

Lemma fresh_ops_snoc : forall f0 ops o, fresh_ops f0 (ops ++ [o]) ->
  fresh_ops f0 ops /\ (forall i, In i (op_ids o) -> 0 < i /\ ~ In i (flat_map op_ids ops)) /\
  ~ In (op_file o) (f0 :: map op_file ops).
Proof.
  intros f0 ops o [H1 [H2 H3]]. rewrite flat_map_app in H1, H2. simpl in H1, H2. rewrite app_nil_r in H1, H2.
  apply NoDup_app in H1. destruct H1 as [Ha [_ Hc]]. apply Forall_app in H2. destruct H2 as [H2a H2b].
  rewrite map_app in H3. simpl in H3. change (f0 :: map op_file ops ++ [op_file o]) with ((f0 :: map op_file ops) ++ [op_file o]) in H3.
  apply NoDup_app in H3. destruct H3 as [Hf [_ Hg]].
  split; [split; [exact Ha|split; [exact H2a|exact Hf]]|]. split.
  - intros i Hi. split; [rewrite Forall_forall in H2b; apply H2b; exact Hi|]. intro Hin. exact (Hc i Hin Hi).
  - intro Hin. apply (Hg _ Hin). left. reflexivity.
Qed.

Lemma gstep_fst : forall st g o, fst (gstep (st, g) o) = step st o.
Proof. intros st g o. unfold gstep, step. destruct (step_full st o) as [[st' oc] ns]. reflexivity. Qed.

Lemma grun_fst : forall ops sg, fst (grun sg ops) = run (fst sg) ops.
Proof.
  induction ops as [|o ops IH]; intros [st g]; [reflexivity|].
  change (fst (grun (gstep (st, g) o) ops) = run (step st o) ops). rewrite IH, gstep_fst. reflexivity.
Qed.

Lemma replay_gstep : forall t0 f0 ops o,
  replay t0 f0 (ops ++ [o]) = fst (gstep (replay t0 f0 ops, ghost_of t0 f0 ops) o) /\
  ghost_of t0 f0 (ops ++ [o]) = snd (gstep (replay t0 f0 ops, ghost_of t0 f0 ops) o).
Proof.
  intros t0 f0 ops o. unfold replay, ghost_of. rewrite <- !(grun_fst _ (ginit t0 f0)). unfold grun.
  rewrite fold_left_app, <- surjective_pairing.
  split; reflexivity.
Qed.

Lemma hist_of_snoc : forall t0 f0 ops o,
  hist_of t0 f0 (ops ++ [o]) =
  hist_of t0 f0 ops ++ match snd (step_full (replay t0 f0 ops) o) with Some s => [s] | None => [] end.
Proof.
  intros t0 f0 ops o. unfold hist_of at 1. rewrite (proj2 (replay_gstep t0 f0 ops o)). unfold gstep, hist_of.
  destruct (step_full (replay t0 f0 ops) o) as [[st' oc] [s|]]; simpl; [reflexivity|rewrite app_nil_r; reflexivity].
Qed.

Lemma hist_of_ops : forall t0 f0 ops h, In h (hist_of t0 f0 ops) ->
  In (sid h) (flat_map op_ids ops) /\ In (ts h) (flat_map op_ts ops).
Proof.
  intros t0 f0 ops. induction ops as [|o ops IH] using rev_ind; intros h Hh; [destruct Hh|].
  rewrite hist_of_snoc in Hh. rewrite !flat_map_app. simpl. rewrite !app_nil_r.
  apply in_app_or in Hh. destruct Hh as [Hh|Hh].
  - destruct (IH h Hh) as [Hi Ht]. split; apply in_or_app; left; assumption.
  - destruct (snd (step_full (replay t0 f0 ops) o)) as [s|] eqn:E; [|destruct Hh]. destruct Hh as [<-|[]].
    destruct (step_full_stamp _ _ _ E) as [-> ->]. split; apply in_elt.
Qed.

Lemma fresh_next : forall t0 f0 ops o, fresh_ops f0 (ops ++ [o]) ->
  forall i, In i (op_ids o) -> 0 < i /\ ~ In i (map sid (hist_of t0 f0 ops)).
Proof.
  intros t0 f0 ops o Hf i Hi. destruct (proj1 (proj2 (fresh_ops_snoc _ _ _ Hf)) i Hi) as [Hpos Hnew].
  split; [exact Hpos|]. intro Hin. apply Hnew. apply in_map_iff in Hin. destruct Hin as [h [<- Hh]].
  exact (proj1 (hist_of_ops _ _ _ _ Hh)).
Qed.

Lemma init_inv : forall t0 f0, Inv [] (md (init t0 f0)).
Proof.
  intros t0 f0. constructor; simpl.
  - (* i_core: no snapshots, empty log, empty history *)
    constructor; simpl.
    + (* c_par *) intros s [].
    + (* c_ret *) split; [constructor|intros s []].
    + (* c_slog *) reflexivity.
    + (* c_pos *) intros h [].
  - (* i_cur: the -1 sentinel *) left. right. reflexivity.
  - (* i_nd *) constructor.
  - (* i_sorted *) constructor.
  - (* i_le *) intros h [].
  - (* i_ent *) intros h e [].
Qed.

(* Every step leaves the metadata alone or commits what a chain of the mutators made of it (add_snapshot, then perhaps
   expire, then apply_retention; expire alone; delete_snapshot) or a property change; expire, apply_retention and
   delete_snapshot are `pruned`.  So a predicate of the metadata that does not read the fields metadata_manager.commit stamps
   and is kept by pruning and by adding a snapshot, on metadata satisfying `Inv`, holds, together with `Inv`, after every
   history with fresh ids. *)
Section Invariant.
  Variable P : meta -> Prop.
  Hypothesis P_init : forall t0 f0, P (md (init t0 f0)).
  Hypothesis P_ext : forall m m', same_tables m m' -> P m -> P m'.
  Hypothesis P_prune : forall H m m', Inv H m -> P m -> pruned m m' -> P m'.
  Hypothesis P_add : forall H m id t ml, Inv H m -> P m -> 0 < id -> P (add_snapshot m (new_snap m id t ml)).

  Lemma same_tables_keeps : forall H m m', same_tables m m' -> Inv H m /\ P m -> Inv H m' /\ P m'.
  Proof. intros H m m' E [HI HP]. split; [exact (inv_ext H m m' E HI)|exact (P_ext m m' E HP)]. Qed.

  Lemma commit_keeps : forall H st new tu f, Inv H new /\ P new ->
    Inv H (md (md_commit st new tu f)) /\ P (md (md_commit st new tu f)).
  Proof. intros H st new tu f. apply same_tables_keeps. repeat split. Qed.

  Lemma pruned_keeps : forall H m m', pruned m m' -> Inv H m /\ P m -> Inv H m' /\ P m'.
  Proof. intros H m m' Hp [HI HP]. split; [exact (inv_pruned H m m' HI Hp)|exact (P_prune H m m' HI HP Hp)]. Qed.

  Lemma gstep_inv : forall st g o, Inv (hist g) (md st) -> P (md st) ->
    (forall i, In i (op_ids o) -> 0 < i /\ ~ In i (map sid (hist g))) ->
    (Inv (hist (snd (gstep (st, g) o))) (md (fst (gstep (st, g) o))) /\ P (md (fst (gstep (st, g) o)))) /\
    snd (fst (step_full st o)) <> Aborted.
  Proof.
    intros st g o HI HP Hfr.
    destruct o as [ops id t tu f|id tu f|v tu f|v tu f]; unfold gstep.
    - (* Txn *) destruct (Hfr id (or_introl eq_refl)) as [Hpos Hnew].
      destruct (step_full_txn st ops id t tu f) as [[_ ->]|[->| ->]].
      + (* empty queue: nothing committed *) cbn [fst snd hist]. split; [split; assumption|discriminate].
      + (* metadata only *) unfold txn_metaonly. cbn [fst snd hist]. split; [|discriminate].
        apply commit_keeps. apply (pruned_keeps _ (md st)); [|split; assumption].
        apply expire_pruned. exact (inv_sids_nodup _ _ HI).
      + (* a snapshot is committed: add_snapshot, then perhaps expire, then apply_retention *)
        unfold txn_fileops.
        pose proof (base_manifests_ok _ _ (i_core _ _ HI) (i_cur _ _ HI)) as [base [Hb Hbase]]. rewrite Hb. cbv zeta.
        unfold create_snapshot. cbv zeta.
        pose proof (inv_add _ _ id t (tx_adds ops) (tx_dels ops) base HI Hpos Hnew Hbase) as I1. cbv zeta in I1.
        set (s := new_snap (md st) id t (apply_deletes (tx_dels ops) base ++ append_manifest id (last_seq (md st) + 1) (tx_adds ops))) in *.
        pose proof (P_add _ _ id t (mlist s) HI HP Hpos) as P1. change (new_snap (md st) id t (mlist s)) with s in P1.
        set (m2 := match tx_expire ops with Some c => expire c (add_snapshot (md st) s) | None => add_snapshot (md st) s end).
        assert (J2 : Inv (hist g ++ [s]) m2 /\ P m2).
        { apply (pruned_keeps _ (add_snapshot (md st) s)); [|split; assumption]. apply expire_pruned. exact (inv_sids_nodup _ _ I1). }
        rewrite (current_retained m2 id); [|apply (i_cur _ _ (proj1 J2))|unfold m2; destruct (tx_expire ops); reflexivity|exact Hpos].
        cbn [fst snd hist]. split; [|discriminate]. apply commit_keeps. exact (pruned_keeps _ m2 _ (retention_pruned m2) J2).
    - (* DeleteSnap *) unfold step_full. destruct (delete_snapshot (md st) id) as [m'|] eqn:Ed; cbn [fst snd hist].
      + split; [|discriminate]. apply commit_keeps. apply (pruned_keeps _ (md st)); [|split; assumption].
        exact (delete_snapshot_pruned _ _ _ (inv_sids_nodup _ _ HI) Ed).
      + split; [split; assumption|discriminate].
    - (* SetRetention: a property change leaves the tables as they were *) cbn [step_full fst snd hist]. split; [|discriminate].
      apply commit_keeps. apply (same_tables_keeps _ (md st)); [repeat split|split; assumption].
    - (* SetPrevMax *) cbn [step_full fst snd hist]. split; [|discriminate].
      apply commit_keeps. apply (same_tables_keeps _ (md st)); [repeat split|split; assumption].
  Qed.

  Theorem replay_inv : forall t0 f0 ops, fresh_ops f0 ops ->
    Inv (hist_of t0 f0 ops) (md (replay t0 f0 ops)) /\ P (md (replay t0 f0 ops)).
  Proof.
    intros t0 f0 ops. induction ops as [|o ops IH] using rev_ind; intros Hf.
    - split; [apply init_inv|apply P_init].
    - destruct (IH (proj1 (fresh_ops_snoc _ _ _ Hf))) as [HI HP].
      unfold hist_of. rewrite (proj1 (replay_gstep t0 f0 ops o)), (proj2 (replay_gstep t0 f0 ops o)).
      exact (proj1 (gstep_inv _ _ o HI HP (fresh_next t0 f0 ops o Hf))).
  Qed.
End Invariant.

Theorem replay_Inv : forall t0 f0 ops, fresh_ops f0 ops -> Inv (hist_of t0 f0 ops) (md (replay t0 f0 ops)).
Proof. intros t0 f0 ops Hf. apply (replay_inv (fun _ => True)); auto. Qed.

Lemma inv_wf : forall H m, Inv H m -> WF H m.
Proof.
  intros H m HI. destruct HI as [C Hc Hnd Hs Hle He]. unfold WF.
  split; [exact Hc|]. split; [apply (c_par _ _ C)|]. split; [apply (c_ret _ _ C)|]. split; [|apply (c_slog _ _ C)].
  split; [exact Hs|]. split; [exact Hle|].
  intros s Hin. destruct (c_ret _ _ C) as [_ Hr]. destruct (Hr s Hin) as [h [Hh [_ [_ [Hseq _]]]]].
  rewrite <- Hseq. apply Hle. exact Hh.
Qed.

Theorem wf_invariant : forall t0 f0 ops, fresh_ops f0 ops -> WF (hist_of t0 f0 ops) (md (replay t0 f0 ops)).
Proof. intros t0 f0 ops Hf. apply inv_wf. apply replay_Inv. exact Hf. Qed.

Definition op_tu (o : op) : Z :=
  match o with Txn _ _ _ tu _ => tu | DeleteSnap _ tu _ => tu | SetRetention _ tu _ => tu | SetPrevMax _ tu _ => tu end.

Lemma expire_mlog : forall c m, mlog (expire c m) = mlog m. Proof. reflexivity. Qed.
Lemma apply_retention_mlog : forall m, mlog (apply_retention m) = mlog m.
Proof. intros m. destruct (apply_retention_cases m) as [->|[n ->]]; reflexivity. Qed.

Lemma create_snapshot_frame : forall m id t ml cut m', create_snapshot m id t ml cut = Some m' ->
  mlog m' = mlog m /\ last_seq m <= last_seq m'.
Proof.
  intros m id t ml cut m'. unfold create_snapshot. cbv zeta. destruct (existsb _ _); [|discriminate].
  intros E. inversion E. rewrite apply_retention_mlog, apply_retention_last_seq. destruct cut; simpl; split; try reflexivity; lia.
Qed.

Lemma delete_snapshot_frame : forall m id m', delete_snapshot m id = Some m' -> mlog m' = mlog m /\ last_seq m' = last_seq m.
Proof.
  intros m id m' H. unfold delete_snapshot in H. destruct (remove_first id (snaps m)); [|discriminate].
  inversion H; subst. destruct (opt_eqb (cur m) (Some id)); split; reflexivity.
Qed.

Lemma step_full_commit_shape : forall st o,
  (snd (fst (step_full st o)) = Committed /\
   exists new, fst (fst (step_full st o)) = md_commit st new (op_tu o) (op_file o) /\
               mlog new = mlog (md st) /\ last_seq (md st) <= last_seq new) \/
  (snd (fst (step_full st o)) <> Committed /\ fst (fst (step_full st o)) = st).
Proof.
  intros st o. destruct o as [ops id t tu f|id tu f|v tu f|v tu f].
  - destruct (step_full_txn st ops id t tu f) as [[_ ->]|[->| ->]].
    + right. split; [discriminate|reflexivity].
    + left. split; [reflexivity|]. eexists. split; [reflexivity|]. destruct (tx_expire ops); split; try reflexivity; lia.
    + unfold txn_fileops. destruct (base_manifests (md st)); [|right; split; [discriminate|reflexivity]]. cbv zeta.
      destruct (create_snapshot _ _ _ _ _) as [m'|] eqn:E; [|right; split; [discriminate|reflexivity]].
      left. split; [reflexivity|]. exists m'. split; [reflexivity|]. eapply create_snapshot_frame. exact E.
  - unfold step_full. destruct (delete_snapshot (md st) id) as [m'|] eqn:E.
    + left. split; [reflexivity|]. exists m'. split; [reflexivity|].
      destruct (delete_snapshot_frame _ _ _ E) as [Hm Hl]. split; [exact Hm|lia].
    + right. split; [discriminate|reflexivity].
  - left. split; [reflexivity|]. eexists. split; [reflexivity|]. split; [reflexivity|simpl; lia].
  - left. split; [reflexivity|]. eexists. split; [reflexivity|]. split; [reflexivity|simpl; lia].
Qed.

(* the committed versions end with the current one, preceded by the metadata log and whatever the log has dropped;
   file names never repeat.  `files` = every file name handed out so far (f0 :: map op_file ops): m_used keeps V's names
   inside it, so the next operation's name, fresh against `files` (fresh_ops), is not in V -- which is what m_nd needs *)
Record MInv (files : list Z) (V : list (Z * Z)) (st : state) : Prop := {
  m_log : exists older, V = (older ++ mlog (md st)) ++ [(last_updated (md st), curfile st)];
  m_bound : 1 <= mlog_max (prevmax (md st)) -> Z.of_nat (length (mlog (md st))) <= mlog_max (prevmax (md st));
  m_nd : NoDup (map snd V);
  m_used : incl (map snd V) files
}.

Lemma minv_mlog_ok : forall files V st, MInv files V st -> mlog_ok V st.
Proof.
  intros files V st [[older ->] Hb _ _]. split; [exists older; apply removelast_last|]. split; [apply last_last|exact Hb].
Qed.

Lemma minv_curfile : forall files V st, MInv files V st -> ~ In (curfile st) (map snd (removelast V)).
Proof.
  intros files V st [[older ->] _ Hnd _]. rewrite removelast_last. rewrite map_app in Hnd.
  apply NoDup_app in Hnd. intro Hin. apply (proj2 (proj2 Hnd) _ Hin). left. reflexivity.
Qed.

Lemma append_mlog_suffix : forall p log lu cf,
  ~ In cf (map snd log) ->
  exists pre, log ++ [(lu, cf)] = pre ++ append_mlog p log lu cf /\
  (1 <= mlog_max p -> Z.of_nat (length (append_mlog p log lu cf)) <= mlog_max p).
Proof.
  intros p log lu cf Hnin. unfold append_mlog.
  assert (Hd : match rev log with e :: _ => snd e =? cf | [] => false end = false).
  { destruct (rev log) as [|e r] eqn:E; [reflexivity|]. apply Z.eqb_neq. intro He. apply Hnin.
    apply in_map_iff. exists e. split; [exact He|]. apply in_rev. rewrite E. left. reflexivity. }
  rewrite Hd.
  destruct ((1 <=? mlog_max p) && (mlog_max p <? Z.of_nat (length (log ++ [(lu, cf)])))) eqn:Eb.
  - apply andb_true_iff in Eb. destruct Eb as [E1 E2]. apply Z.leb_le in E1. apply Z.ltb_lt in E2.
    destruct (lastn_suffix _ (Z.to_nat (mlog_max p)) (log ++ [(lu, cf)])) as [pre Hpre].
    exists pre. split; [exact Hpre|]. intros _. rewrite lastn_length; lia.
  - exists []. split; [reflexivity|]. intros H1. apply andb_false_iff in Eb. destruct Eb as [Eb|Eb].
    + apply Z.leb_gt in Eb. lia.
    + apply Z.ltb_ge in Eb. exact Eb.
Qed.

Lemma gstep_minv : forall files st g o, MInv files (versions g) st -> ~ In (op_file o) files ->
  MInv (files ++ [op_file o]) (versions (snd (gstep (st, g) o))) (fst (gstep (st, g) o)).
Proof.
  intros files st g o M Hf. unfold gstep.
  destruct (step_full_commit_shape st o) as [[Hoc [new [Hst [Hml _]]]]|[Hoc Hst]];
    destruct (step_full st o) as [[st' oc] ns]; simpl in *; subst.
  - pose proof (minv_curfile _ _ _ M) as Hcf. destruct M as [[older Hold] _ Hnd Hu].
    rewrite Hold, removelast_last, map_app in Hcf.
    destruct (append_mlog_suffix (prevmax new) (mlog new) (last_updated (md st)) (curfile st)) as [pre [Hpre Hbound]].
    { rewrite Hml. intro Hin. apply Hcf. apply in_or_app. right. exact Hin. }
    constructor; simpl.
    + (* m_log *) exists (older ++ pre). f_equal. rewrite Hold, <- !app_assoc, <- Hpre, Hml. reflexivity.
    + (* m_bound *) exact Hbound.
    + (* m_nd: the new name is fresh against `files`, which holds V's names *)
      rewrite map_app. apply NoDup_snoc; [exact Hnd|]. intro Hin. apply Hf. apply Hu. exact Hin.
    + (* m_used *) rewrite map_app. apply incl_app_app; [exact Hu|apply incl_refl].
  - assert (Hv : match oc with Committed => versions g ++ [(last_updated (md st), curfile st)] | _ => versions g end = versions g)
      by (destruct oc; congruence).
    rewrite Hv. destruct M as [Hl Hb Hnd Hu]. constructor; try assumption. apply incl_appl. exact Hu.
Qed.

Theorem replay_minv : forall t0 f0 ops, fresh_ops f0 ops ->
  MInv (f0 :: map op_file ops) (versions_of t0 f0 ops) (replay t0 f0 ops).
Proof.
  intros t0 f0 ops. induction ops as [|o ops IH] using rev_ind; intros Hf.
  - constructor; simpl.
    + (* m_log *) exists []. reflexivity.
    + (* m_bound *) intros _. unfold mlog_max, DEFAULT_PREVMAX. simpl. lia.
    + (* m_nd *) constructor; [intros []|constructor].
    + (* m_used *) apply incl_refl.
  - apply fresh_ops_snoc in Hf. destruct Hf as [Hf [_ Hfile]].
    unfold versions_of. rewrite (proj1 (replay_gstep t0 f0 ops o)), (proj2 (replay_gstep t0 f0 ops o)), map_app.
    apply (gstep_minv (f0 :: map op_file ops)); [apply IH; exact Hf|exact Hfile].
Qed.

Lemma snap_has_original : forall H m s, retained_ok H m -> In s (snaps m) ->
  exists h, In h (retained_in_commit_order H m) /\ same_but_parent h s.
Proof.
  intros H m s [_ Hret] Hin. destruct (Hret s Hin) as [h [Hh Hsame]]. exists h. split; [|exact Hsame].
  apply filter_In. split; [exact Hh|]. apply memZ_In. rewrite (proj1 Hsame). apply in_map. exact Hin.
Qed.

Theorem wf_seq_in_log_order : forall H m, WF H m ->
  StronglySorted Z.lt (map seq (retained_in_commit_order H m)) /\
  map snd (slog m) = map sid (retained_in_commit_order H m) /\
  (forall s, In s (snaps m) -> exists h, In h (retained_in_commit_order H m) /\ sid h = sid s /\ seq h = seq s).
Proof.
  intros H m [_ [_ [Hret [[Hs _] Hslog]]]]. split; [|split].
  - apply StronglySorted_map. apply StronglySorted_filter. apply StronglySorted_map. exact Hs.
  - rewrite Hslog, map_map. reflexivity.
  - intros s Hin. destruct (snap_has_original H m s Hret Hin) as [h [Hh [Hsid [_ [Hseq _]]]]]. exists h. auto.
Qed.

Lemma last_opt_nil : forall (A : Type), @last_opt A [] = None.
Proof. reflexivity. Qed.

Lemma last_opt_snoc : forall (A : Type) (l : list A) x, last_opt (l ++ [x]) = Some x.
Proof. intros. unfold last_opt. rewrite rev_app_distr. reflexivity. Qed.

Lemma last_opt_cons : forall (A : Type) (x : A) l,
  last_opt (x :: l) = match last_opt l with Some s => Some s | None => Some x end.
Proof. intros A x l. unfold last_opt. simpl. destruct (rev l); reflexivity. Qed.

Lemma last_opt_map : forall (A B : Type) (f : A -> B) l, last_opt (map f l) = option_map f (last_opt l).
Proof. intros A B f l. unfold last_opt. rewrite <- map_rev. destruct (rev l); reflexivity. Qed.

Lemma last_opt_none_nil : forall (A : Type) (l : list A), last_opt l = None -> l = [].
Proof.
  intros A l H. unfold last_opt in H. destruct (rev l) eqn:E; [|discriminate].
  rewrite <- (rev_involutive l), E. reflexivity.
Qed.

Definition pair_of (s : snap) : Z * Z := (ts s, sid s).

(* the snapshots list is in snapshot-log order.  NOT an invariant of the machine: _apply_retention re-sorts the snapshots by
   timestamp while the log stays in commit order, so it fails once a clock steps back; Proofs/C09MetaProofs.v works with
   `cordered` (order within one timestamp), of which this is the special case ordered_cordered *)
Definition ordered (m : meta) : Prop := map pair_of (snaps m) = slog m.
