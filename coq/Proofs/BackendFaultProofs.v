(* Proofs/BackendFaultProofs.v -- S3StorageBackend over a failing store (Model/BackendFault.v): transient faults within
   the retry budget, injected before or AFTER a request took effect at any request of any operation, change neither the
   result nor the store: on every bucket the faulty step is the fault-free step (s3_step_f_masks), and so every history
   runs as on the fault-free backend (run_f_masks) -- as long as the request that would be the LAST attempt of an operation
   is answered.  Without that proviso the statement is false of the code as it is (refute_run): a not-found answer is
   retried like a transient error and uses up the budget, so one transient fault on the (max_retries+1)-th request of a
   read of a missing key surfaces instead of the not-found.  The conditional PUT of write_file_cas is not under the
   retry: a fault on it surfaces at once (refute_cas_run). *)
From Coq Require Import List Bool Ascii String ZArith Lia.
Require Import DS.Model.Str DS.Gen.GenS3 DS.Gen.GenRange DS.Model.Range DS.Model.Backend DS.Model.Retry DS.Model.BackendTrace
  DS.Model.BackendFault.
Require Import DS.Proofs.ListFacts DS.Proofs.StrProofs DS.Proofs.RetryProofs DS.Proofs.BackendProofs.
Import ListNotations.
Local Arguments Ascii.eqb : simpl never.
Local Open Scope nat_scope.

(* a fault the theorems inject: a transient error -- retryable and not permanent by the library's classification
   (RetryProofs.transient_exn) -- that does not carry one of the not-found codes, which a closure would read as the store's
   own answer (Model/BackendFault.v nf_codes) *)
Definition fault_ok (e : exn) : Prop :=
  transient_exn e /\ match e with ClientError c => member c nf_codes = false | _ => True end.
Definition plan_transient (pl : fplan) : Prop := forall w e, In (Some (w, e)) pl -> fault_ok e.

Lemma nfaults_nil : nfaults_f [] = 0.
Proof. reflexivity. Qed.

Lemma plan_transient_tl : forall x pl, plan_transient (x :: pl) -> plan_transient pl.
Proof. intros x pl H w e Hin. apply (H w e). right. exact Hin. Qed.

Lemma plan_transient_skipn : forall n pl, plan_transient pl -> plan_transient (skipn n pl).
Proof. intros n pl H w e Hin. apply (H w e). rewrite <- (firstn_skipn n pl). apply in_or_app. right. exact Hin. Qed.

Lemma nfaults_skipn : forall n pl, nfaults_f (skipn n pl) <= nfaults_f pl.
Proof. intros n pl. unfold nfaults_f. rewrite <- (firstn_skipn n pl) at 2. rewrite filter_app, app_length. lia. Qed.

Lemma nfaults_zero_nth : forall pl n, nfaults_f pl = 0 -> nth n pl None = None.
Proof.
  induction pl as [|x pl IH]; intros n H; [destruct n; reflexivity|]. unfold nfaults_f in *. cbn [filter] in H.
  destruct x as [f|]; cbn [is_fault] in H; [discriminate H|]. destruct n; [reflexivity|]. cbn [nth]. apply IH. exact H.
Qed.

(* what the lemmas about attempts carry along: only transient faults ahead, at most n of them *)
Definition within (n : nat) (pl : fplan) : Prop := plan_transient pl /\ nfaults_f pl <= n.

Lemma within_nil : forall n, within n [].
Proof. intro n. split; [intros w e []|apply Nat.le_0_l]. Qed.

Lemma within_none : forall n pl, within n (None :: pl) -> within n pl.
Proof. intros n pl [Ht Hn]. split; [exact (plan_transient_tl _ _ Ht)|exact Hn]. Qed.

Lemma within_some : forall n w e pl, within n (Some (w, e) :: pl) -> fault_ok e /\ exists m, n = S m /\ within m pl.
Proof.
  intros n w e pl [Ht Hn]. split; [exact (Ht w e (or_introl eq_refl))|]. change (S (nfaults_f pl) <= n) in Hn.
  destruct n as [|m]; [lia|]. exists m. split; [reflexivity|]. split; [exact (plan_transient_tl _ _ Ht)|lia].
Qed.

Lemma within_le : forall n m pl, within n pl -> n <= m -> within m pl.
Proof. intros n m pl [Ht Hn] H. split; [exact Ht|lia]. Qed.

Lemma within_skipn : forall n m pl, within n pl -> within n (skipn m pl).
Proof. intros n m pl [Ht Hn]. split; [apply plan_transient_skipn; exact Ht|]. pose proof (nfaults_skipn m pl). lia. Qed.

Lemma nofault_request : forall (V : Type) (ans : bucket -> V + fx) eff b pl, within 0 pl ->
  request ans eff b pl = (ans b, eff b, tl pl).
Proof.
  intros V ans eff b pl H. destruct pl as [|[[w e]|] pl']; try reflexivity.
  destruct (within_some _ _ _ _ H) as [_ [m [E _]]]. discriminate E.
Qed.

Lemma member_false_neq : forall c l x, member c l = false -> member x l = true -> str_eqb c x = false.
Proof. intros c l x H Hx. apply str_eqb_neq. intros ->. rewrite Hx in H. discriminate H. Qed.

Lemma fault_transient : forall e, fault_ok e -> fx_transient (XExn e) = true.
Proof.
  intros e [He _]. unfold fx_transient, fx_exn. rewrite (classify_transient e He). reflexivity.
Qed.

Lemma conv_fault : forall (V : Type) code e, member code nf_codes = true -> fault_ok e -> @conv V code (inr (XExn e)) = inr (XExn e).
Proof.
  intros V code e Hc [_ He]. unfold conv. destruct e; try reflexivity. rewrite (member_false_neq _ _ code He Hc). reflexivity.
Qed.

(* att, started in any state of I on a plan within n, either runs through unhindered -- answer r, final state bf, the rest
   of the plan still within n -- or is ended by an injected fault, in a state of I again, with one fault fewer ahead *)
Definition att_spec {V : Type} (att : attempt V) (I : bucket -> Prop) (r : V + fx) (bf : bucket) : Prop :=
  forall b pl n, I b -> within n pl ->
    (exists pl', att b pl = (r, bf, pl') /\ within n pl')
    \/ (exists e b' pl' m, att b pl = (inr (XExn e), b', pl') /\ fault_ok e /\ I b' /\ n = S m /\ within m pl').

Lemma retry_f_masks : forall (V : Type) (att : attempt V) (I : bucket -> Prop) (v : V) (bf : bucket), att_spec att I (inl v) bf ->
  forall budget n b pl, n <= budget -> I b -> within n pl ->
  exists pl', retry_f budget att b pl = (inl v, bf, pl') /\ within n pl'.
Proof.
  intros V att I v bf Hs. induction budget as [|bu IH]; intros n b pl Hn HI Hw; cbn [retry_f];
    destruct (Hs b pl n HI Hw) as [[pl' [E Hw']]|[e [b' [pl' [m [E [He [HI' [-> Hw']]]]]]]]]; rewrite E.
  - (* no retry left, the attempt runs through *)
    exists pl'. auto.
  - (* no retry left and a fault: there is none ahead (n <= 0) *)
    lia.
  - (* the attempt runs through *)
    exists pl'. auto.
  - (* a fault: retried, with one fault and one retry fewer *)
    rewrite (fault_transient e He). destruct (IH m b' pl' ltac:(lia) HI' Hw') as [pl'' [E2 Hw2]].
    exists pl''. split; [exact E2|apply (within_le m); [exact Hw2|lia]].
Qed.

(* a fault AFTER a request the store itself refuses returns the store's answer: that counts as unhindered *)
Lemma request_spec : forall (V : Type) (ans : bucket -> V + fx) (eff : bucket -> bucket) (I : bucket -> Prop) (r : V + fx) (bf : bucket),
  (forall b, I b -> ans b = r /\ eff b = bf) -> I bf -> att_spec (request ans eff) I r bf.
Proof.
  intros V ans eff I r bf H Hbf b pl n HI Hw. destruct (H b HI) as [Ea Ee].
  destruct pl as [|[[w e]|] pl']; cbn [request]; rewrite ?Ea, ?Ee.
  - (* plan used up: answered *)
    left. exists []. split; [reflexivity|apply within_nil].
  - destruct (within_some _ _ _ _ Hw) as [He [m [-> Hw']]]. destruct w; [|destruct r as [v|x]].
    + (* fault before: nothing happened *)
      right. exists e, b, pl', m. auto.
    + (* fault after a request the store answers with a value: the effect is there, the answer lost *)
      right. exists e, bf, pl', m. auto.
    + (* fault after a request the store refuses: its refusal is the answer *)
      left. exists pl'. split; [reflexivity|apply (within_le m); [exact Hw'|lia]].
  - (* answered *)
    left. exists pl'. split; [reflexivity|exact (within_none _ _ Hw)].
Qed.

Lemma amap_spec : forall (V W : Type) (f : V + fx -> W + fx) (att : attempt V) (I : bucket -> Prop) (r : V + fx) (bf : bucket),
  att_spec att I r bf -> (forall e, fault_ok e -> f (inr (XExn e)) = inr (XExn e)) -> att_spec (amap f att) I (f r) bf.
Proof.
  intros V W f att I r bf Hs He b pl n HI Hw. unfold amap.
  destruct (Hs b pl n HI Hw) as [[pl' [E R]]|[e [b' [pl' [m [E [Hf R]]]]]]]; rewrite E.
  - left. exists pl'. split; [reflexivity|exact R].
  - right. exists e, b', pl', m. rewrite (He e Hf). split; [reflexivity|]. split; [exact Hf|exact R].
Qed.

(* a request with an idempotent effect (PUT, DELETE): one that landed before its answer was lost is simply repeated *)
Lemma retried_effect : forall (eff : bucket -> bucket) budget b pl, (forall b, eff (eff b) = eff b) -> within budget pl ->
  exists pl', retry_f budget (request (fun _ => inl tt) eff) b pl = (inl tt, eff b, pl') /\ within budget pl'.
Proof.
  intros eff budget b pl Hid Hw.
  apply (retry_f_masks unit _ (fun b' => b' = b \/ b' = eff b) tt (eff b)); [|apply le_n|left; reflexivity|exact Hw].
  apply request_spec; [|right; reflexivity]. intros b' [->| ->]; split; auto.
Qed.

(* every attempt fails with something the loop retries and leaves the store alone; an unhindered attempt answers
   not-found: the loop runs out, and what surfaces is the outcome of its last attempt *)
Lemma retry_f_runs_out : forall (V : Type) (att : attempt V) (b : bucket),
  (forall pl, plan_transient pl ->
     exists x, att b pl = (inr x, b, tl pl) /\ fx_transient x = true /\ (hd None pl = None -> x = XNotFound)) ->
  forall budget pl, plan_transient pl -> nth budget pl None = None ->
  retry_f budget att b pl = (inr XNotFound, b, skipn (S budget) pl).
Proof.
  intros V att b H. induction budget as [|n IH]; intros pl Ht Hn.
  - destruct (H pl Ht) as [x [E [Hx Hh]]]. cbn [retry_f]. rewrite E.
    assert (hd None pl = None) as Hhd by (destruct pl; [reflexivity|exact Hn]).
    rewrite (Hh Hhd). destruct pl; reflexivity.
  - destruct (H pl Ht) as [x [E [Hx _]]]. cbn [retry_f]. rewrite E, Hx.
    rewrite (IH (tl pl)).
    + destruct pl; reflexivity.
    + destruct pl; [exact Ht|eapply plan_transient_tl; exact Ht].
    + destruct pl; [destruct n; reflexivity|exact Hn].
Qed.

Lemma request_notfound : forall (V : Type) (ans : bucket -> V + fx) (code c : str) (b : bucket),
  ans b = inr (XExn (ClientError c)) -> str_eqb c code = true -> member code nf_codes = true ->
  forall pl, plan_transient pl ->
    exists x, amap (conv code) (request ans (fun b => b)) b pl = (inr x, b, tl pl)
              /\ fx_transient x = true /\ (hd None pl = None -> x = XNotFound).
Proof.
  intros V ans code c b Ea Ec Hin pl Ht. unfold amap.
  destruct pl as [|[[w e]|] pl']; cbn [request tl hd]; rewrite ?Ea; cbn [conv]; rewrite ?Ec.
  - (* plan used up: answered *)
    exists XNotFound. auto.
  - pose proof (Ht w e (or_introl eq_refl)) as He. destruct w.
    + (* fault before the request: the injected error, which the loop retries *)
      exists (XExn e). rewrite (conv_fault V code e Hin He).
      split; [reflexivity|]. split; [apply fault_transient; exact He|discriminate].
    + (* fault after the request: the store's own refusal wins *)
      exists XNotFound. cbn [conv]. rewrite Ec. auto.
  - (* answered *)
    exists XNotFound. auto.
Qed.

Lemma raw_get_lookup : forall k b,
  raw_get k b = match lookup str_eqb k b with Some v => inl v | None => inr (XExn (ClientError (lit "NoSuchKey"))) end.
Proof. intros k b. unfold raw_get, s3_get_object. destruct (lookup str_eqb k b); reflexivity. Qed.

Lemma raw_head_lookup : forall k b,
  raw_head k b = match lookup str_eqb k b with Some v => inl v | None => inr (XExn (ClientError (lit "404"))) end.
Proof. intros k b. unfold raw_head, s3_head_object. destruct (lookup str_eqb k b); reflexivity. Qed.

(* GET / HEAD under the retry, as every reading method wraps them (att_get, att_head; raw = raw_get, raw_head).  The store
   answers with what the key holds, or with the code c -- which the closure turns into FileNotFoundError, and that is retried
   to the end *)
Lemma retried_read : forall (raw : str -> bucket -> bytes + fx) (c code : str),
  (forall k b, raw k b = match lookup str_eqb k b with Some v => inl v | None => inr (XExn (ClientError c)) end) ->
  member code nf_codes = true -> str_eqb c code = true ->
  forall budget n k b pl, n <= budget -> within n pl -> nth budget pl None = None ->
  exists pl', retry_f budget (amap (conv code) (request (raw k) (fun b => b))) b pl
              = (match lookup str_eqb k b with Some v => inl v | None => inr XNotFound end, b, pl') /\ within n pl'.
Proof.
  intros raw c code Hraw Hin Hc budget n k b pl Hn Hw Hlast. pose proof (Hraw k b) as Ea. destruct (lookup str_eqb k b) as [v|].
  - apply (retry_f_masks _ _ (eq b)); [|exact Hn|reflexivity|exact Hw].
    apply (amap_spec _ _ (conv code) _ _ (inl v)); [|intros e He; apply conv_fault; assumption].
    apply request_spec; [|reflexivity]. intros b' <-. auto.
  - rewrite (retry_f_runs_out _ _ b (request_notfound _ (raw k) code c b Ea Hc Hin) budget pl (proj1 Hw) Hlast).
    eexists. split; [reflexivity|apply within_skipn; exact Hw].
Qed.

(* the whole listing is redone by every attempt; its walk over the pages ends at the first fault it meets *)
Lemma att_list_spec : forall page P b, att_spec (att_list page P) (eq b) (inl (s3_list_objects b P)) b.
Proof.
  intros page P b b' pl n <- Hw. unfold att_list. generalize (pages (List.length (s3_list_objects b P)) page). intro k.
  revert pl Hw. induction k as [|k IH]; intros pl Hw; cbn [walk]; [left; exists pl; auto|].
  destruct pl as [|[[w e]|] pl'].
  - left. exists []. auto.
  - right. destruct (within_some _ _ _ _ Hw) as [He [m [-> Hw']]]. exists e, b, pl', m. auto.
  - exact (IH pl' (within_none _ _ Hw)).
Qed.

(* the HEAD is then exists_op's only request *)
Lemma att_exists_spec : forall k b, ends_with k (lit "/") = false -> att_spec (att_exists k) (eq b) (inl (has str_eqb k b)) b.
Proof.
  intros k b Hd b' pl n <- Hw.
  assert (att_spec (request (raw_head k) (fun b => b)) (eq b) (raw_head k b) b) as Hs
    by (apply request_spec; [|reflexivity]; intros b0 <-; auto).
  destruct (Hs b pl n eq_refl Hw) as [[pl' [E R]]|[e [b' [pl' [m [E [He R]]]]]]].
  - (* the HEAD is answered: the object is there, or the store says 404 and the answer is False at once *)
    left. exists pl'. split; [|exact R]. unfold att_exists. rewrite E. unfold raw_head, s3_head_object, has.
    destruct (lookup str_eqb k b); [reflexivity|]. cbn [negb str_eqb]. rewrite Hd. reflexivity.
  - (* a fault: it does not carry the not-found code, so it is raised as it is *)
    right. exists e, b', pl', m. split; [|split; [exact He|exact R]]. unfold att_exists. rewrite E. destruct He as [_ Hc].
    destruct e; try reflexivity. rewrite (member_false_neq _ _ gen_code_exists_notfound Hc eq_refl). reflexivity.
Qed.

(* a reader over an object that holds v, every ranged GET under its own retry: whenever the ranges the fault-free reader
   (Model/Range.v run_rf) asks for are in range, it observes what that reader observes *)
Section Reader.
  Variable budget : nat.
  Variable k : str.
  Variable b : bucket.
  Variable v : bytes.
  Hypothesis Hk : lookup str_eqb k b = Some v.

  Lemma att_range_spec : forall f l d, server_range v f l = Some d -> att_spec (att_range k f l) (eq b) (inl d) b.
  Proof.
    intros f l d Hd. unfold att_range. apply request_spec; [|reflexivity]. intros b' <-. rewrite Hk, Hd. split; reflexivity.
  Qed.

  (* the left side of the conclusion is rf_step_f's local function `get`, which has no name of its own *)
  Lemma rf_get_f : forall pos r pl p ob rs, rf_get (server_range v) pos r = (p, ob, rs) -> Forall (in_range v) rs -> within budget pl ->
    exists pl',
      (match r with
       | None => (inl (pos, RData []), pl)
       | Some (first, last) =>
         match retry_f budget (att_range k first last) b pl with
         | (inl d, _, pl') => (inl ((pos + zlen d)%Z, RData d), pl')
         | (inr x, _, pl') => (inr (fx_exn x), pl')
         end
       end) = (inl (p, ob), pl') /\ within budget pl'.
  Proof.
    intros pos r pl p ob rs E Hr Hw. destruct r as [[f l]|]; cbn [rf_get] in E.
    - destruct (server_range v f l) as [d|] eqn:Hd; injection E as <- <- <-.
      + destruct (retry_f_masks _ _ _ _ _ (att_range_spec f l d Hd) budget budget b pl (le_n _) eq_refl Hw) as [pl' [E' Hw']].
        rewrite E'. exists pl'. auto.
      + (* a refused range is not in range *)
        apply Forall_cons_iff in Hr. destruct Hr as [Hin _]. rewrite (server_range_in v f l Hin) in Hd. discriminate Hd.
    - injection E as <- <- <-. exists pl. auto.
  Qed.

  Lemma rf_step_f_on : forall pos o pl p ob rs, rf_step v pos o = (p, ob, rs) -> Forall (in_range v) rs -> within budget pl ->
    exists pl', rf_step_f budget (zlen v) k b pos o pl = (inl (p, ob), pl') /\ within budget pl'.
  Proof.
    intros pos o pl p ob rs E Hr Hw. unfold rf_step in E. destruct o as [off w|n| |]; cbn [rf_step_f rf_step_on] in *.
    - (* Seek *) injection E as E _. rewrite E. exists pl. auto.
    - (* ReadInto *) eapply rf_get_f; eassumption.
    - (* ReadAll *) eapply rf_get_f; eassumption.
    - (* Tell *) injection E as <- <- _. exists pl. auto.
  Qed.

  Lemma run_rf_f_on : forall prog pos pl os final rs, run_rf v pos prog = (os, final, rs) -> Forall (in_range v) rs -> within budget pl ->
    exists pl', run_rf_f budget (zlen v) k b pos prog pl = (inl (os, final), pl') /\ within budget pl'.
  Proof.
    unfold run_rf. induction prog as [|o prog IH]; intros pos pl os final rs E Hr Hw; cbn [run_rf_on run_rf_f] in *.
    - injection E as <- <- <-. exists pl. auto.
    - destruct (rf_step_on (zlen v) (server_range v) pos o) as [[pos' ob] rs1] eqn:E1.
      destruct (run_rf_on (zlen v) (server_range v) pos' prog) as [[os' final'] rs2] eqn:E2.
      injection E as <- <- <-. apply Forall_app in Hr. destruct Hr as [Hr1 Hr2].
      destruct (rf_step_f_on pos o pl pos' ob rs1 E1 Hr1 Hw) as [pl1 [F1 Hw1]]. rewrite F1.
      destruct (IH pos' pl1 os' final' rs2 E2 Hr2 Hw1) as [pl2 [F2 Hw2]]. rewrite F2. exists pl2. auto.
  Qed.
End Reader.

Definition cas_clean (o : op key) (pl : fplan) : Prop := match o with WriteCas _ _ => nfaults_f pl = 0 | _ => True end.

(* within the budget: only transient faults, at most `budget` of them over all requests of the operation; the
   conditional PUT of a CAS write is not under the retry, so the plan of a CAS write must hold no fault at all (cas_clean) *)
Definition op_plan_within (budget : nat) (o : op key) (pl : fplan) : Prop :=
  plan_transient pl /\ nfaults_f pl <= budget /\ cas_clean o pl.
(* ... and the request that would be the operation's last attempt (index `budget`) is answered *)
Definition op_plan_ok (budget : nat) (o : op key) (pl : fplan) : Prop :=
  op_plan_within budget o pl /\ nth budget pl None = None.

Fixpoint plans_within (budget : nat) (ops : list (op key)) (plans : list fplan) : Prop :=
  match ops with [] => True | o :: ops' => op_plan_within budget o (hd [] plans) /\ plans_within budget ops' (tl plans) end.
Fixpoint plans_ok (budget : nat) (ops : list (op key)) (plans : list fplan) : Prop :=
  match ops with [] => True | o :: ops' => op_plan_ok budget o (hd [] plans) /\ plans_ok budget ops' (tl plans) end.

Section S3F.
  Variable budget : nat.
  Variable page : nat.
  Variable pfx : str.

  Lemma s3_step_f_masks : forall b o pl, wf_op o -> op_plan_ok budget o pl ->
    exists pl', s3_step_f budget page pfx b (map_op join o) pl
                = (fst (s3_step pfx b (map_op join o)), pl', inl (snd (s3_step pfx b (map_op join o)))).
  Proof.
    intros b o pl Ho [[Ht [Hn Hcas]] Hlast]. assert (within budget pl) as Hw by (split; assumption).
    destruct o as [k v|k|k|d|k|k|k|k prog|k|k v|k]; cbn [map_op s3_step_f s3_step fst snd wf_op cas_clean] in *;
      unfold att_get, att_head;
      (* every case but ListDir, which names a directory d, has a key k *)
      try set (K := gen_get_s3_key pfx (join k)).
    - (* Write *)
      destruct (retried_effect (fun b => s3_put_object b K v) budget b pl (upsert_idem str_eqb str_eqb_refl K v) Hw) as [pl' [E _]].
      unfold att_put. rewrite E. exists pl'. reflexivity.
    - (* Read *)
      destruct (retried_read _ _ gen_code_read_notfound raw_get_lookup eq_refl eq_refl budget budget K b pl (le_n _) Hw Hlast) as [pl' [E _]].
      rewrite E. exists pl'. unfold s3_get_object. destruct (lookup str_eqb K b); reflexivity.
    - (* Exists: a canonical key is not spelled as a directory, so the HEAD is the only request *)
      pose proof (get_key_not_dirlike pfx k Ho) as Hd. fold K in Hd.
      destruct (retry_f_masks _ _ _ _ _ (att_exists_spec K b Hd) budget budget b pl (le_n _) eq_refl Hw) as [pl' [E _]].
      rewrite E. exists pl'.
      unfold s3_head_object, has. destruct (lookup str_eqb K b); [reflexivity|]. cbn [negb str_eqb]. rewrite Hd. reflexivity.
    - (* ListDir *)
      destruct (retry_f_masks _ _ _ _ _ (att_list_spec page (gen_list_prefix pfx (join d)) b) budget budget b pl (le_n _) eq_refl Hw)
        as [pl' [E _]].
      rewrite E. exists pl'. reflexivity.
    - (* Delete *)
      assert (forall b0, s3_delete_object (s3_delete_object b0 K) K = s3_delete_object b0 K) as Hid
        by (intro b0; apply filter_filter_imp; auto).
      destruct (retried_effect (fun b => s3_delete_object b K) budget b pl Hid Hw) as [pl' [E _]].
      unfold att_delete. rewrite E. exists pl'. reflexivity.
    - (* Size *)
      destruct (retried_read _ _ gen_code_size_notfound raw_head_lookup eq_refl eq_refl budget budget K b pl (le_n _) Hw Hlast) as [pl' [E _]].
      rewrite E. exists pl'. unfold s3_get_size, s3_head_object. fold K. destruct (lookup str_eqb K b); reflexivity.
    - (* Mtime *)
      destruct (retried_read _ _ gen_code_mtime_notfound raw_head_lookup eq_refl eq_refl budget budget K b pl (le_n _) Hw Hlast) as [pl' [E _]].
      rewrite E. exists pl'. unfold s3_head_object. destruct (lookup str_eqb K b); reflexivity.
    - (* Open: get_size under its retry, then every ranged GET under its own; the fault-free reader asks for bytes that
         exist (BackendProofs.range_equiv), so the faulty one sees what it sees *)
      destruct Ho as [Hk Hprog]. rewrite s3_open_eq. unfold s3_open_f, att_head, gen_open_size_path, gen_open_key. fold K.
      destruct (retried_read _ _ gen_code_size_notfound raw_head_lookup eq_refl eq_refl budget budget K b pl (le_n _) Hw Hlast) as [pl1 [E1 Hw1]].
      rewrite E1. destruct (lookup str_eqb K b) as [v|] eqn:El; [|exists pl1; reflexivity].
      pose proof (range_equiv v prog Hprog) as Hr. destruct (run_rf v 0 prog) as [[os final] rs] eqn:Er. destruct Hr as [_ [Hr _]].
      destruct (run_rf_f_on budget K b v El prog 0%Z pl1 os final rs Er Hr Hw1) as [pl2 [E2 _]].
      change (size_of v) with (zlen v). rewrite E2. exists pl2. reflexivity.
    - (* Stream *)
      destruct (retried_read _ _ gen_code_open_notfound raw_get_lookup eq_refl eq_refl budget budget K b pl (le_n _) Hw Hlast) as [pl' [E _]].
      rewrite E. exists pl'. unfold s3_get_object. destruct (lookup str_eqb K b); reflexivity.
    - (* WriteCas, fault-free: the tag just read matches *)
      cbv zeta. fold K.
      assert (within 0 pl) as Hw0 by (split; [exact Ht|rewrite Hcas; apply le_n]).
      destruct (retried_read _ _ gen_code_readtag_notfound raw_get_lookup eq_refl eq_refl budget 0 K b pl (Nat.le_0_l _) Hw0 Hlast) as [pl1 [E1 Hw1]].
      rewrite E1. unfold s3_get_object.
      destruct (lookup str_eqb K b) as [cur|] eqn:El; rewrite nofault_request by exact Hw1;
        unfold s3_put_if; rewrite El; cbn [tag_matches]; rewrite ?str_eqb_refl; eexists; reflexivity.
    - (* ReadTag *)
      destruct (retried_read _ _ gen_code_readtag_notfound raw_get_lookup eq_refl eq_refl budget budget K b pl (le_n _) Hw Hlast) as [pl' [E _]].
      rewrite E. exists pl'. unfold s3_get_object. destruct (lookup str_eqb K b); reflexivity.
  Qed.

  Lemma run_f_masks : forall ops b plans, Forall wf_op ops -> plans_ok budget ops plans ->
    fst (run_f budget page pfx b (map (map_op join) ops) plans) = map inl (snd (run (s3_step pfx) b (map (map_op join) ops))).
  Proof.
    induction ops as [|o ops IH]; intros b plans Hops Hpl; [reflexivity|].
    apply Forall_cons_iff in Hops. destruct Hops as [Ho Hops']. destruct Hpl as [Hp Hpl']. cbn [map run_f]. rewrite run_cons.
    destruct (s3_step_f_masks b o (hd [] plans) Ho Hp) as [pl' E]. rewrite E.
    specialize (IH (fst (s3_step pfx b (map_op join o))) (tl plans) Hops' Hpl').
    destruct (run_f budget page pfx _ (map (map_op join) ops) (tl plans)) as [rs bf]. cbn [fst snd map] in *. rewrite IH. reflexivity.
  Qed.
End S3F.

(* the hypothesis of the property's sentence, nothing else: every operation's plan holds transient faults only, at most
   max_retries of them -- whichever operation it is (a CAS write too), whichever request they hit *)
Definition plans_budget (budget : nat) (plans : list fplan) : Prop :=
  Forall (fun pl => plan_transient pl /\ nfaults_f pl <= budget) plans.

Lemma fault_okb_sound : forall e, fault_okb e = true -> fault_ok e.
Proof.
  intros e H. destruct e; cbn [fault_okb] in H; try discriminate; try (split; exact I).
  apply andb_true_iff in H. destruct H as [H1 H2]. apply negb_true_iff in H1. apply negb_true_iff in H2. split; assumption.
Qed.

Lemma plan_transientb_sound : forall pl, plan_transientb pl = true -> plan_transient pl.
Proof.
  intros pl H w e Hin. unfold plan_transientb in H. rewrite forallb_forall in H. apply fault_okb_sound. exact (H _ Hin).
Qed.

Lemma op_plan_withinb_sound : forall budget o pl, op_plan_withinb budget o pl = true -> op_plan_within budget o pl.
Proof.
  intros budget o pl H. unfold op_plan_withinb in H.
  apply andb_true_iff in H. destruct H as [H H3]. apply andb_true_iff in H. destruct H as [H1 H2].
  split; [apply plan_transientb_sound; exact H1|]. split; [apply Nat.leb_le; exact H2|].
  destruct o; cbn [cas_clean]; try exact I. apply Nat.eqb_eq. exact H3.
Qed.

Lemma op_plan_okb_sound : forall budget o pl, op_plan_okb budget o pl = true -> op_plan_ok budget o pl.
Proof.
  intros budget o pl H. unfold op_plan_okb in H. apply andb_true_iff in H. destruct H as [H1 H2].
  split; [apply op_plan_withinb_sound; exact H1|]. destruct (nth budget pl None); [discriminate|reflexivity].
Qed.

Lemma plans_okb_sound : forall budget ops plans, plans_okb budget ops plans = true -> plans_ok budget ops plans.
Proof.
  induction ops as [|o ops IH]; intros plans H; [exact I|]. cbn [plans_okb] in H. apply andb_true_iff in H. destruct H as [H1 H2].
  split; [apply op_plan_okb_sound; exact H1|apply IH; exact H2].
Qed.

Lemma plans_withinb_sound : forall budget ops plans, plans_withinb budget ops plans = true -> plans_within budget ops plans.
Proof.
  induction ops as [|o ops IH]; intros plans H; [exact I|]. cbn [plans_withinb] in H. apply andb_true_iff in H. destruct H as [H1 H2].
  split; [apply op_plan_withinb_sound; exact H1|apply IH; exact H2].
Qed.

Lemma plans_budgetb_sound : forall budget plans, plans_budgetb budget plans = true -> plans_budget budget plans.
Proof.
  induction plans as [|pl plans IH]; intro H; [constructor|]. cbn [plans_budgetb] in H. apply andb_true_iff in H. destruct H as [H1 H2].
  unfold op_plan_budgetb in H1. apply andb_true_iff in H1. destruct H1 as [Ht Hn].
  constructor; [split; [apply plan_transientb_sound; exact Ht|apply Nat.leb_le; exact Hn]|apply IH; exact H2].
Qed.

(* witness 1: read_file("x") on an empty table: max_retries answered requests (each a not-found, retried), then ONE transient
   error on the next request: the transient error surfaces -- the local backend answers not-found *)
Definition refute_ops : list (op key) := [Read [lit "x"]].
Definition refute_plans : list fplan := [repeat None gen_max_retries ++ [Some (FBefore, ClientError (lit "SlowDown"))]].
(* witness 2: write, then the CAS writer on the same key: its tag read is answered, ONE transient error on the conditional
   PUT (not under the retry): it surfaces -- no plan has more than a single fault, none at index max_retries *)
Definition refute_cas_ops : list (op key) := [Write [lit "x"] (lit "old"); WriteCas [lit "x"] (lit "new")].
Definition refute_cas_plans : list fplan := [[]; [None; Some (FBefore, ClientError (lit "SlowDown"))]].

Lemma refute_within : plans_within gen_max_retries refute_ops refute_plans.
Proof. apply plans_withinb_sound. vm_compute. reflexivity. Qed.
Lemma refute_budget : plans_budget gen_max_retries refute_plans.
Proof. apply plans_budgetb_sound. vm_compute. reflexivity. Qed.
Lemma refute_cas_budget : plans_budget gen_max_retries refute_cas_plans.
Proof. apply plans_budgetb_sound. vm_compute. reflexivity. Qed.
Lemma refute_run : run_s3_f 2 [] [] refute_ops refute_plans = [inr (ClientError (lit "SlowDown"))].
Proof. vm_compute. reflexivity. Qed.
Lemma refute_cas_run : run_s3_f 2 [] [] refute_cas_ops refute_cas_plans = [inl OUnit; inr (ClientError (lit "SlowDown"))].
Proof. vm_compute. reflexivity. Qed.
Lemma refute_wf : Forall wf_op refute_ops.
Proof. apply wf_opsb_sound. vm_compute. reflexivity. Qed.
Lemma refute_cas_wf : Forall wf_op refute_cas_ops.
Proof. apply wf_opsb_sound. vm_compute. reflexivity. Qed.
