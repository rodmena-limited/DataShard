(* Proofs/GCPointerProofs.v -- the pointer plane (Model/GCPointer.v) tied to the collector (Model/GCDoc.v, Model/GC.v). *)
From Coq Require Import List String.
Require Import DS.Model.GC DS.Model.Doc DS.Gen.GenDoc DS.Model.GCDoc DS.Model.GCPointer.
Require Import DS.Proofs.GCProofs DS.Proofs.GCDocProofs.
Import ListNotations.
Open Scope Z_scope.

Section Resolve.
  Variable D : Type.
  Variable same : D -> D -> bool.

  Lemma find_file_name : forall n (fs : list (mfile D)) f, find_file n fs = Some f -> mf_name f = n.
  Proof.
    intros n fs f F. induction fs as [|x r IH]; simpl in F; [discriminate|].
    destruct (String.eqb n (mf_name x)) eqn:E; [apply String.eqb_eq in E; congruence|auto].
  Qed.

  Lemma load_some : forall a (fs : list (mfile D)) n f d, load D a fs n = Some (f, d) ->
    find_file n fs = Some f /\ mf_body f = Some d /\ a_read_raises a n = false.
  Proof.
    intros a fs n f d H. unfold load in H. destruct (find_file n fs) as [g|]; [|discriminate].
    destruct (a_read_raises a n); [discriminate|]. destruct (mf_body g) as [e|] eqn:B; [|discriminate].
    inversion H; subst. auto.
  Qed.

  Lemma refresh_resolve_use : forall a (fs : list (mfile D)) f d, refresh_resolve a fs = RUse f d ->
    exists n, current_info D a fs = IName n /\ load D a fs n = Some (f, d).
  Proof.
    intros a fs f d R. unfold refresh_resolve in R. destruct (current_info D a fs) as [| |n]; try discriminate.
    destruct (load D a fs n) as [[q d']|] eqn:L; [|discriminate]. inversion R; subst q d'. exists n. auto.
  Qed.

  Lemma collect_resolve_use : forall a1 a2 (fs : list (mfile D)) f d, collect_resolve same a1 a2 fs = RUse f d ->
    refresh_resolve a1 fs = RUse f d /\ guard same a2 fs d = true.
  Proof.
    intros a1 a2 fs f d H. unfold collect_resolve in H. destruct (refresh_resolve a1 fs) as [| |g e]; try discriminate.
    destruct (guard same a2 fs e) eqn:G; [|discriminate]. inversion H; subst g e. auto.
  Qed.

  (* With the pointer published at the file p: whatever the first resolution was told (and whatever unpublished versions lie
     around), a collection whose SECOND read of the pointer is answered -- truthfully or by raising -- works from metadata
     that is `same` as p's. *)
  Theorem resolve_consistent : forall (fs : list (mfile D)) p dp a1 a2 f d,
    find_file (mf_name p) fs = Some p -> mf_body p = Some dp ->
    honest p a2 -> a_hint a2 <> PNone ->
    collect_resolve same a1 a2 fs = RUse f d -> same dp d = true.
  Proof.
    intros fs p dp a1 a2 f d F B H2 N H. destruct (collect_resolve_use _ _ _ _ _ H) as [_ G].
    unfold guard in G. destruct H2 as [E|[E|E]]; rewrite E in G; [|contradiction|discriminate].
    destruct (a_exists a2 (mf_name p)); try discriminate.
    destruct (load D a2 fs (mf_name p)) as [[q d']|] eqn:L; [|discriminate].
    destruct (load_some _ _ _ _ _ L) as [F' [B' _]]. rewrite F in F'. inversion F'; subst q.
    rewrite B in B'. inversion B'; subst d'. exact G.
  Qed.

  Theorem resolve_raise_aborts : forall (fs : list (mfile D)) a1 a2,
    a_hint a1 = PRaise \/ a_hint a2 = PRaise -> forall f d, collect_resolve same a1 a2 fs <> RUse f d.
  Proof.
    intros fs a1 a2 H f d U. destruct (collect_resolve_use _ _ _ _ _ U) as [R G]. destruct H as [H|H].
    - destruct (refresh_resolve_use _ _ _ _ R) as [n [C _]]. unfold current_info in C. rewrite H in C. discriminate.
    - unfold guard in G. rewrite H in G. discriminate.
  Qed.

  (* the file a collection works from was read, by refresh(), without a failure and parsed: a file that cannot be read as
     table metadata (not JSON, refused by the reader) or whose read failed is never worked from *)
  Theorem resolve_uses_readable : forall (fs : list (mfile D)) a1 a2 f d,
    collect_resolve same a1 a2 fs = RUse f d ->
    find_file (mf_name f) fs = Some f /\ mf_body f = Some d /\ a_read_raises a1 (mf_name f) = false.
  Proof.
    intros fs a1 a2 f d H. destruct (collect_resolve_use _ _ _ _ _ H) as [R _].
    destruct (refresh_resolve_use _ _ _ _ R) as [n [_ L]]. destruct (load_some _ _ _ _ _ L) as [F [B RR]].
    pose proof (find_file_name _ _ _ F) as N. subst n. auto.
  Qed.

  (* when the first read finds no pointer and the published file is the scan's choice (no unpublished higher version, no
     younger sibling of the same version), a collection that runs works from p, whatever the second read is told *)
  Theorem resolve_lost_hint_scan : forall (fs : list (mfile D)) p a1 a2 f d,
    a_hint a1 = PNone -> scan_pick a1 fs = Some p ->
    collect_resolve same a1 a2 fs = RUse f d -> mf_name f = mf_name p.
  Proof.
    intros fs p a1 a2 f d H1 Sc H. destruct (collect_resolve_use _ _ _ _ _ H) as [R _].
    destruct (refresh_resolve_use _ _ _ _ R) as [n [C L]].
    unfold current_info in C. rewrite H1 in C. unfold scan in C. destruct (a_list_raises a1); [discriminate|]. rewrite Sc in C.
    inversion C; subst n. exact (find_file_name _ _ _ (proj1 (load_some _ _ _ _ _ L))).
  Qed.

End Resolve.

Lemma find_file_parse : forall ext n (fs : list (mfile jv)),
  find_file n (map (parse_file ext) fs) = option_map (parse_file ext) (find_file n fs).
Proof.
  intros ext n fs. induction fs as [|f r IH]; [reflexivity|]. simpl. destruct (String.eqb n (mf_name f)); [reflexivity|exact IH].
Qed.

Lemma parse_file_body : forall ext f d, mf_body (parse_file ext f) = Some d -> mf_body f = Some d /\ accepts ext gen_metadata_shape d = true.
Proof.
  intros ext f d H. unfold parse_file in H. cbn [mf_body] in H. destruct (mf_body f) as [e|]; [|discriminate].
  destruct (accepts ext gen_metadata_shape e) eqn:A; [|discriminate]. inversion H; subst. auto.
Qed.

(* The pointer plane feeds the collector.  Pointer published at the file p holding the document dp (which the reader accepts);
   `same` distinguishes documents with different snapshot manifest lists.  Nothing is asked of the FIRST resolution's answers:
   when the second pointer read is honest and not "no pointer", the collection deletes nothing, or it ran on exactly the
   manifest lists of the PUBLISHED metadata and is safe for them -- whatever unpublished versions lie on storage. *)
Theorem pointer_run_safe : forall ext same tp grace now timeout o a1 a2 (files : list (mfile jv)) st p dp,
  (forall a b, same a b = true -> doc_lists a = doc_lists b) ->
  find_file (mf_name p) files = Some p -> mf_body p = Some dp -> accepts ext gen_metadata_shape dp = true ->
  honest p a2 -> a_hint a2 <> PNone ->
  wf_store (doc_lists dp) st ->
  match collect_pointer ext same tp grace now timeout o a1 a2 files st with
  | PUse f (DocRun r) => gc_safe_spec now grace timeout (doc_lists dp) st r
  | other => pointer_deleted other = []
  end.
Proof.
  intros ext same tp grace now timeout o a1 a2 files st p dp SL F B A H2 N W. unfold collect_pointer.
  destruct (collect_resolve same a1 a2 (map (parse_file ext) files)) as [| |f d] eqn:R; try reflexivity.
  assert (F': find_file (mf_name (parse_file ext p)) (map (parse_file ext) files) = Some (parse_file ext p)).
  { rewrite find_file_parse. change (mf_name (parse_file ext p)) with (mf_name p). rewrite F. reflexivity. }
  assert (B': mf_body (parse_file ext p) = Some dp).
  { unfold parse_file. cbn [mf_body]. rewrite B, A. reflexivity. }
  assert (Sd: same dp d = true).
  { exact (resolve_consistent jv same _ (parse_file ext p) dp a1 a2 f d F' B' H2 N R). }
  pose proof (doc_fail_closed ext tp grace now timeout o d st) as DF. rewrite <- (SL _ _ Sd) in DF. specialize (DF W).
  destruct (collect_doc ext tp grace now timeout o d st) as [|r]; [reflexivity|]. exact (proj2 DF).
Qed.

(* pointer_run_safe WITHOUT the hypothesis on the second pointer read (and with `honest p a1`, as Props/C07.v
   C07_pointer_run_safe_partial has it): false -- the residual window; refuted in Props/C07.v on the example table.  A pointer
   that looks absent at BOTH reads (a lost pointer, for the library: recovered by scanning, C10) while a dead writer's
   unpublished higher version lies on storage makes the collection work from that version: files the published metadata
   references are deleted. *)
Definition pointer_run_safe_full : Prop :=
  forall ext same tp grace now timeout o a1 a2 (files : list (mfile jv)) st p dp,
  (forall a b, same a b = true -> doc_lists a = doc_lists b) ->
  find_file (mf_name p) files = Some p -> mf_body p = Some dp -> accepts ext gen_metadata_shape dp = true ->
  honest p a1 -> honest p a2 ->
  wf_store (doc_lists dp) st ->
  match collect_pointer ext same tp grace now timeout o a1 a2 files st with
  | PUse f (DocRun r) => gc_safe_spec now grace timeout (doc_lists dp) st r
  | other => pointer_deleted other = []
  end.

Lemma pointer_run_safe_full_refuted_by : forall ext same tp grace now timeout o a1 a2 (files : list (mfile jv)) st p dp k,
  (forall a b, same a b = true -> doc_lists a = doc_lists b) ->
  find_file (mf_name p) files = Some p -> mf_body p = Some dp -> accepts ext gen_metadata_shape dp = true ->
  honest p a1 -> honest p a2 -> wf_store (doc_lists dp) st ->
  In k (pointer_deleted (collect_pointer ext same tp grace now timeout o a1 a2 files st)) -> referenced (doc_lists dp) st k ->
  ~ pointer_run_safe_full.
Proof.
  intros ext same tp grace now timeout o a1 a2 files st p dp k SL F B A H1 H2 W D R Full.
  specialize (Full ext same tp grace now timeout o a1 a2 files st p dp SL F B A H1 H2 W).
  destruct (collect_pointer ext same tp grace now timeout o a1 a2 files st) as [| |f [|r]]; try contradiction D.   (* nothing deleted: D is In k [] *)
  exact (proj1 (gs_deleted _ _ _ _ _ _ Full k D) R).
Qed.
