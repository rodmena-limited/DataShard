(* Proofs/PruneProofs.v -- the order Python comparisons put on values (Model/Value.v), and: pruning by bounds is sound (C13). *)
From Coq Require Import QArith List.
Require Import DS.Model.Value DS.Gen.GenPrune DS.Model.Prune.
Require DS.Proofs.ListFacts.
Import ListNotations.
Open Scope Z_scope.

Definition flip (o : ord) : ord :=
  match o with OLt => OGt | OGt => OLt | OEq => OEq | OUn => OUn end.

(* what a <= b and b <= c make of a and c: strict as soon as one link is *)
Definition chain (o1 o2 : ord) : ord :=
  match o1, o2 with OEq, OEq => OEq | _, _ => OLt end.

Lemma ord_of_flip c : ord_of (CompOpp c) = flip (ord_of c).
Proof. destruct c; reflexivity. Qed.

(* Transitivity of a three-way comparison, in the <= fragment.  `Eq` need not be Leibniz equality (on Q it is not):
   it is enough that it may be replaced on either side. *)
Lemma compare_trans {A} (cmp : A -> A -> comparison) :
  (forall a b c, cmp a b = Eq -> cmp a c = cmp b c) ->
  (forall a b c, cmp b c = Eq -> cmp a c = cmp a b) ->
  (forall a b c, cmp a b = Lt -> cmp b c = Lt -> cmp a c = Lt) ->
  forall a b c, is_le (ord_of (cmp a b)) = true -> is_le (ord_of (cmp b c)) = true ->
    ord_of (cmp a c) = chain (ord_of (cmp a b)) (ord_of (cmp b c)).
Proof.
  intros EqL EqR LtT a b c.
  destruct (cmp a b) eqn:E1; try discriminate; (destruct (cmp b c) eqn:E2; try discriminate); intros _ _.
  - rewrite (EqL a b c E1), E2. reflexivity.
  - rewrite (EqL a b c E1), E2. reflexivity.
  - rewrite (EqR a b c E2), E1. reflexivity.
  - rewrite (LtT a b c E1 E2). reflexivity.
Qed.

Lemma Zcmp_flip x y : ord_of (y ?= x) = flip (ord_of (x ?= y)).
Proof. rewrite Z.compare_antisym. apply ord_of_flip. Qed.

Lemma Zcmp_trans x y z :
  is_le (ord_of (x ?= y)) = true -> is_le (ord_of (y ?= z)) = true ->
  ord_of (x ?= z) = chain (ord_of (x ?= y)) (ord_of (y ?= z)).
Proof.
  apply (compare_trans Z.compare); clear.
  - intros a b c E. apply Z.compare_eq in E. subst. reflexivity.
  - intros a b c E. apply Z.compare_eq in E. subst. reflexivity.
  - exact Z.lt_trans.
Qed.

Lemma lex_flip s t : ord_of (lex_cmp t s) = flip (ord_of (lex_cmp s t)).
Proof.
  revert t; induction s as [|a s IH]; intros [|b t]; simpl; auto.
  rewrite (Z.compare_antisym a b). destruct (a ?= b); simpl; auto.
Qed.

Lemma lex_cmp_eq s t : lex_cmp s t = Eq -> s = t.
Proof.
  revert t; induction s as [|a s IH]; intros [|b t]; simpl; try discriminate; auto.
  destruct (a ?= b) eqn:E; try discriminate. intro H. apply Z.compare_eq in E. subst. f_equal. auto.
Qed.

Lemma lex_cmp_lt_trans s t u : lex_cmp s t = Lt -> lex_cmp t u = Lt -> lex_cmp s u = Lt.
Proof.
  revert t u; induction s as [|a s IH]; intros [|b t] [|c u]; simpl; try discriminate; auto.
  destruct (a ?= b) eqn:E1; destruct (b ?= c) eqn:E2; try discriminate; intros H1 H2.
  - apply Z.compare_eq in E1; apply Z.compare_eq in E2; subst. rewrite Z.compare_refl. eauto.
  - apply Z.compare_eq in E1; subst. rewrite E2. reflexivity.
  - apply Z.compare_eq in E2; subst. rewrite E1. reflexivity.
  - rewrite (Z.lt_trans a b c E1 E2). reflexivity.
Qed.

Lemma lex_trans s t u :
  is_le (ord_of (lex_cmp s t)) = true -> is_le (ord_of (lex_cmp t u)) = true ->
  ord_of (lex_cmp s u) = chain (ord_of (lex_cmp s t)) (ord_of (lex_cmp t u)).
Proof.
  apply (compare_trans lex_cmp); clear.
  - intros a b c E. apply lex_cmp_eq in E. subst. reflexivity.
  - intros a b c E. apply lex_cmp_eq in E. subst. reflexivity.
  - exact lex_cmp_lt_trans.
Qed.

Lemma num_cmp_flip a b : num_cmp b a = flip (num_cmp a b).
Proof.
  destruct a as [x| | |], b as [y| | |]; simpl; auto.
  rewrite <- Qcompare_antisym. apply ord_of_flip.
Qed.

(* the number line: -inf below, +inf above the rationals; NaN is below nothing *)
Lemma num_cmp_trans a b c :
  is_le (num_cmp a b) = true -> is_le (num_cmp b c) = true -> num_cmp a c = chain (num_cmp a b) (num_cmp b c).
Proof.
  destruct a as [x| | |], b as [y| | |]; try discriminate; (destruct c as [z| | |]; try discriminate); simpl;
    try (intros _ _; reflexivity).
  - (* all three finite *) apply (compare_trans Qcompare); clear.
    + intros a b c E. apply Qeq_alt in E. rewrite E. reflexivity.
    + intros a b c E. apply Qeq_alt in E. rewrite E. reflexivity.
    + intros a b c. rewrite <- !Qlt_alt. apply Qlt_trans.
  - (* x <= y < +inf: chain (ord_of (x ?= y)) OLt does not reduce before the case on x ?= y *)
    intros L _. destruct (x ?= y)%Q; try discriminate L; reflexivity.
Qed.

Lemma vcmp_flip a b : vcmp b a = option_map flip (vcmp a b).
Proof. destruct a, b; cbn [vcmp num_of option_map]; f_equal; auto using num_cmp_flip, Zcmp_flip, lex_flip. Qed.

(* for vcmp_trans: `injection` would also reduce the comparison under the `Some`, and num_cmp_trans, Zcmp_trans, lex_trans would no longer apply *)
Lemma Some_inj {A} (x y : A) : Some x = Some y -> x = y.
Proof. intros [= E]. exact E. Qed.

(* Transitivity of Python ordering.  Values that compare with b at all are of b's class (number, str, datetime, date,
   time), so only a and c of that class are left, and there the order is num_cmp, Z.compare or lex_cmp. *)
Lemma vcmp_trans a b c o1 o2 :
  vcmp a b = Some o1 -> vcmp b c = Some o2 -> is_le o1 = true -> is_le o2 = true ->
  vcmp a c = Some (chain o1 o2).
Proof.
  intros H1 H2 L1 L2.
  destruct b; destruct a; try discriminate H1; destruct c; try discriminate H2;
    cbn [vcmp num_of] in *; apply Some_inj in H1, H2; subst o1 o2; f_equal;
    auto using num_cmp_trans, Zcmp_trans, lex_trans.
Qed.

Definition vlt (a b : value) : Prop := vcmp a b = Some OLt.
Definition veq (a b : value) : Prop := vcmp a b = Some OEq.
Definition vle (a b : value) : Prop := vlt a b \/ veq a b.

Lemma vle_trans a b c : vle a b -> vle b c -> vle a c.
Proof. intros [H1|H1] [H2|H2]; [left|left|left|right]; exact (vcmp_trans a b c _ _ H1 H2 eq_refl eq_refl). Qed.

Lemma veq_sym a b : veq a b -> veq b a.
Proof. unfold veq. intro H. rewrite vcmp_flip, H. reflexivity. Qed.

Lemma vlt_flip a b : vcmp a b = Some OGt -> vlt b a.
Proof. unfold vlt. intro H. rewrite vcmp_flip, H. reflexivity. Qed.

Lemma veq_le a b : veq a b -> vle a b.
Proof. right; auto. Qed.

Lemma vlt_not_ge a b : vlt a b -> vle b a -> False.
Proof. unfold vle, vlt, veq. intros H [L|L]; rewrite vcmp_flip, H in L; discriminate. Qed.

(* the comparison cases of enclosed_sound (EQ, LT, LE, GT, GE) each close a cycle with one strict link *)
Lemma vlt_cycle a b c : vlt a b -> vle b c -> vle c a -> False.
Proof. intros H1 H2 H3. exact (vlt_not_ge a b H1 (vle_trans b c a H2 H3)). Qed.

Lemma vle_antisym a b : vle a b -> vle b a -> veq a b.
Proof. intros [H|H] L; [destruct (vlt_not_ge a b H L) | exact H]. Qed.

Lemma vcmp_nonnull a b o : vcmp a b = Some o -> is_null a = false /\ is_null b = false.
Proof. intro H. destruct a; try discriminate H; destruct b; try discriminate H; auto. Qed.

Lemma vle_nonnull a b : vle a b -> is_null a = false /\ is_null b = false.
Proof. intros [H|H]; exact (vcmp_nonnull a b _ H). Qed.

Lemma py_lt_true a b : py_lt a b = Some true -> vlt a b.
Proof. unfold py_lt, vlt. destruct (vcmp a b) as [[]|]; simpl; congruence. Qed.
Lemma py_gt_true a b : py_gt a b = Some true -> vlt b a.
Proof. unfold py_gt. intro H. apply vlt_flip. destruct (vcmp a b) as [[]|]; simpl in *; congruence. Qed.
Lemma py_le_true a b : py_le a b = Some true -> vle a b.
Proof. unfold py_le, vle, vlt, veq. destruct (vcmp a b) as [[]|]; simpl; intro; try discriminate; auto. Qed.
Lemma py_ge_true a b : py_ge a b = Some true -> vle b a.
Proof.
  unfold py_ge. intro H. destruct (vcmp a b) as [[]|] eqn:E; simpl in *; try discriminate.
  - (* OEq *) right. apply veq_sym. exact E.
  - (* OGt *) left. apply vlt_flip. exact E.
Qed.
Lemma vle_py_le a b : vle a b -> py_le a b = Some true.
Proof. unfold vle, vlt, veq, py_le. intros [H|H]; rewrite H; reflexivity. Qed.

Lemma py_eqb_true_nonnull a b : is_null a = false -> py_eqb a b = true -> veq a b.
Proof.
  unfold py_eqb, veq. intro N. destruct (vcmp a b) as [o|].
  - destruct o; simpl; try discriminate; auto.
  - destruct a; (discriminate N || discriminate).
Qed.

Lemma veq_py_eqb a b : veq a b -> py_eqb a b = true.
Proof. unfold veq, py_eqb. intros ->. reflexivity. Qed.

Lemma ord_of_ordered c : ord_of c <> OUn.
Proof. destruct c; discriminate. Qed.

Lemma ordinary_comparable k a b :
  ordinary a = true -> ordinary b = true -> has_kind k a = true -> has_kind k b = true ->
  exists o, vcmp a b = Some o /\ o <> OUn.
Proof.
  intros Oa Ob Ka Kb.
  destruct k; destruct a as [| | |[]| | | |]; try discriminate Oa; try discriminate Ka;
    destruct b as [| | |[]| | | |]; try discriminate Ob; try discriminate Kb.
  (* left: one pair per kind, nine for floats (finite, +inf, -inf); vcmp computes, to ord_of of a comparison or to a constant *)
  all: eexists; (split; [reflexivity|]); first [apply ord_of_ordered | discriminate].
Qed.

Lemma ordinary_total k a b :
  ordinary a = true -> ordinary b = true -> has_kind k a = true -> has_kind k b = true ->
  vlt a b \/ veq a b \/ vlt b a.
Proof.
  intros Oa Ob Ka Kb. destruct (ordinary_comparable k a b Oa Ob Ka Kb) as [[] [H N]].
  - (* OLt *) left. exact H.
  - (* OEq *) right; left. exact H.
  - (* OGt *) right; right. apply vlt_flip. exact H.
  - (* OUn *) destruct N. reflexivity.
Qed.

Definition good k (v : value) : Prop := ordinary v = true /\ has_kind k v = true.

Lemma good_refl k a : good k a -> veq a a.
Proof.
  intros [Ho Hk]. destruct (ordinary_total k a a Ho Ho Hk Hk) as [H|[H|H]]; auto; destruct (vlt_not_ge a a H (or_introl H)).
Qed.

Lemma not_lt_le k a b : good k a -> good k b -> py_lt b a <> Some true -> vle a b.
Proof.
  intros [Oa Ka] [Ob Kb] N. destruct (ordinary_total k a b Oa Ob Ka Kb) as [H|[H|H]].
  - left; auto.
  - right; auto.
  - destruct N. unfold py_lt. rewrite H. reflexivity.
Qed.

(* pc.min and pc.max are the same fold, for an order and for its reverse: `pick` returns the le-smaller of two values. *)
Section Pick.
  Variable k : kind.
  Variable le : value -> value -> Prop.
  Variable pick : value -> value -> value.
  Hypothesis le_trans : forall a b c, le a b -> le b c -> le a c.
  Hypothesis pick_spec : forall a b, good k a -> good k b ->
    le (pick a b) a /\ le (pick a b) b /\ (pick a b = a \/ pick a b = b).

  Lemma fold_pick_spec os : forall o, (forall v, In v (o :: os) -> good k v) ->
    let m := fold_left pick os o in (forall v, In v (o :: os) -> le m v) /\ In m (o :: os).
  Proof.
    induction os as [|x os IH]; intros o G; simpl.
    - assert (Go : good k o) by (apply G; left; reflexivity).
      split; [|left; reflexivity].
      intros v [<-|[]]. destruct (pick_spec o o Go Go) as [L [_ [E|E]]]; rewrite E in L; exact L.
    - assert (Go : good k o) by (apply G; left; reflexivity).
      assert (Gx : good k x) by (apply G; right; left; reflexivity).
      destruct (pick_spec o x Go Gx) as [Lo [Lx E]].
      destruct (IH (pick o x)) as [La Im].
      { intros v [<-|I]; [destruct E as [-> | ->]; assumption | apply G; right; right; exact I]. }
      pose proof (La _ (or_introl eq_refl)) as Lp. split.
      + intros v [<-|[<-|I]]; [exact (le_trans _ _ _ Lp Lo) | exact (le_trans _ _ _ Lp Lx) | apply La; right; exact I].
      + destruct Im as [<-|I]; [|right; right; exact I]. destruct E as [-> | ->]; [left|right; left]; reflexivity.
  Qed.
End Pick.

(* vmin and vmax both keep a unless a `<` test says that b comes first *)
Lemma pick_by_test (le : value -> value -> Prop) (t : option bool) a b :
  (t = Some true -> le b a) -> (t <> Some true -> le a b) -> le a a -> le b b ->
  let p := match t with Some true => b | _ => a end in le p a /\ le p b /\ (p = a \/ p = b).
Proof.
  intros Hlt Hnlt Ra Rb.
  destruct t as [[]|]; cbv zeta; [auto | split; [exact Ra|]; split; [apply Hnlt; discriminate|auto] ..].
Qed.

Lemma vmin_spec k a b : good k a -> good k b -> vle (vmin a b) a /\ vle (vmin a b) b /\ (vmin a b = a \/ vmin a b = b).
Proof.
  intros Ga Gb. apply (pick_by_test vle (py_lt b a)).
  - intro E. left. exact (py_lt_true b a E).
  - exact (not_lt_le k a b Ga Gb).
  - right. exact (good_refl k a Ga).
  - right. exact (good_refl k b Gb).
Qed.

Lemma vmax_spec k a b : good k a -> good k b -> vle a (vmax a b) /\ vle b (vmax a b) /\ (vmax a b = a \/ vmax a b = b).
Proof.
  intros Ga Gb. apply (pick_by_test (fun x y => vle y x) (py_lt a b)).
  - intro E. left. exact (py_lt_true a b E).
  - exact (not_lt_le k b a Gb Ga).
  - right. exact (good_refl k a Ga).
  - right. exact (good_refl k b Gb).
Qed.

(* C13_bounds_true *)
Lemma bounds_true vs lo hi :
  homogeneous vs -> bounds_of vs = Some (lo, hi) ->
  (forall v, In v vs -> ordinary v = true -> vle lo v /\ vle v hi)
  /\ ((In lo vs /\ In hi vs /\ ordinary lo = true /\ ordinary hi = true) \/ (lo = VFlt NaN /\ hi = VFlt NaN /\ forall v, In v vs -> ordinary v = false)).
Proof.
  intros [k Hk] B. unfold bounds_of in B.
  destruct (filter ordinary vs) as [|o os] eqn:F.
  - assert (N : forall v, In v vs -> ordinary v = false).
    { intros v Hv. destruct (ordinary v) eqn:Ov; auto.
      assert (I : In v (filter ordinary vs)) by (apply filter_In; auto). rewrite F in I. destruct I. }
    destruct (existsb is_nan vs); inversion B; subst. split; [|right; auto].
    intros v Hv Ov. rewrite (N v Hv) in Ov. discriminate.
  - inversion B; subst; clear B.
    assert (Sub : forall v, In v (o :: os) <-> In v vs /\ ordinary v = true) by (intro v; rewrite <- F; apply filter_In).
    assert (Gall : forall v, In v (o :: os) -> good k v).
    { intros v Hv. apply Sub in Hv. destruct Hv. split; auto. }
    destruct (fold_pick_spec k vle vmin vle_trans (vmin_spec k) os o Gall) as [La Lm].
    destruct (fold_pick_spec k (fun a b => vle b a) vmax (fun a b c H1 H2 => vle_trans c b a H2 H1) (vmax_spec k) os o Gall)
      as [Ua UM].
    apply Sub in Lm, UM. destruct Lm as [Il Ol]. destruct UM as [Ih Oh]. split.
    + intros v Hv Ov. split; [apply La | apply Ua]; apply Sub; auto.
    + left. exact (conj Il (conj Ih (conj Ol Oh))).
Qed.

Lemma p_or_true x y : p_or x y = Some true -> x = Some true \/ y tt = Some true.
Proof. destruct x as [[]|]; simpl; auto; discriminate. Qed.

Lemma p_or_false x y : p_or x y = Some false -> x = Some false /\ y tt = Some false.
Proof. destruct x as [[]|]; simpl; auto; discriminate. Qed.

Lemma p_and_true x y : p_and x y = Some true -> x = Some true /\ y tt = Some true.
Proof. destruct x as [[]|]; simpl; auto; discriminate. Qed.

Lemma p_any_false {A} (f : A -> option bool) l : p_any f l = Some false -> forall x, In x l -> f x = Some false.
Proof.
  induction l as [|a l IH]; simpl; intros H x []; subst.
  - destruct (f x) as [[]|]; try discriminate; auto.
  - destruct (f a) as [[]|]; try discriminate; auto.
Qed.

(* every branch of the try block ends `if <test>: return False`: the file is skipped exactly when the test is True *)
Lemma returns_false c : p_bind c (fun c_ : bool => if c_ then Some false else Some true) = Some false -> c = Some true.
Proof. destruct c as [[]|]; simpl; auto; discriminate. Qed.

Lemma not_true_reads_false (c : option bool) : (c = Some true -> False) -> match c with Some b => b | None => false end = false.
Proof. destruct c as [[]|]; auto. intro H. destruct (H eq_refl). Qed.

(* only comparisons and IN prune, and none of them selects a NULL cell *)
Lemma null_unselected X op fmin fmax sval lval v :
  is_null v = true -> gen_try_body op fmin fmax sval lval = Some false -> selected X op v sval lval = false.
Proof. intros N G. destruct op; simpl; rewrite ?N; auto; discriminate G. Qed.

Lemma gen_in_false fmin fmax sval lval :
  gen_try_body IN fmin fmax sval lval = Some false ->
  forall w, In w lval ->
    is_float w = false /\ is_float fmin = false /\ xorb (is_bool w) (is_bool fmin) = false
    /\ p_and (py_le fmin w) (fun _ => py_le w fmax) = Some false.
Proof.
  unfold gen_try_body. cbn [fop_eqb].
  destruct lval as [|w0 l0]; cbn [list_is_empty negb p_bind]; [discriminate|].
  intro G. destruct (p_any _ (w0 :: l0)) as [[]|] eqn:PA; cbn [p_bind p_not negb] in G; try discriminate.
  intros w Hw. pose proof (p_any_false _ _ PA w Hw) as F. cbv beta in F.
  apply p_or_false in F. destruct F as [[= Fw] F]. apply p_or_false in F. destruct F as [[= Ff] F].
  apply p_or_false in F. destruct F as [[= Fx] F]. auto.
Qed.

(* Bounds that ENCLOSE a cell of their own kind are sound for it, exact or not: whenever the try block returns False,
   the expression does not select the cell.  (A cell between two values is neither NULL nor NaN.) *)
Lemma enclosed_sound X op fmin fmax sval lval v :
  vle fmin v -> vle v fmax -> is_float v = is_float fmin -> is_bool v = is_bool fmin ->
  gen_try_body op fmin fmax sval lval = Some false -> selected X op v sval lval = false.
Proof.
  intros Lo Hi Kf Kb G.
  destruct (vle_nonnull _ _ Lo) as [Nmin Nv]. destruct (vle_nonnull _ _ Hi) as [_ Nmax].
  destruct op; try discriminate G; cbn [selected]; rewrite Nv.
  - (* EQ: pruned when sval < file_min or sval > file_max *)
    apply returns_false, p_or_true in G.
    destruct (is_null sval); [reflexivity|]. apply not_true_iff_false. intro E.
    apply py_eqb_true_nonnull in E; [|exact Nv].
    destruct G as [C|C].
    + apply py_lt_true in C. exact (vlt_cycle _ _ _ C Lo (veq_le _ _ E)).
    + apply py_gt_true in C. exact (vlt_cycle _ _ _ C (veq_le _ _ (veq_sym _ _ E)) Hi).
  - (* NE: pruned when file_min == file_max == sval (not on float bounds: they skip NaN) *)
    apply returns_false, p_and_true in G. destruct G as [_ G]. apply p_and_true in G. destruct G as [[= E1] [= E2]].
    apply py_eqb_true_nonnull in E1; [|exact Nmin]. apply py_eqb_true_nonnull in E2; [|exact Nmax].
    assert (E : veq v sval).
    { apply vle_antisym.
      - exact (vle_trans _ _ _ Hi (veq_le _ _ E2)).
      - apply veq_sym in E1, E2. exact (vle_trans _ _ _ (veq_le _ _ E2) (vle_trans _ _ _ (veq_le _ _ E1) Lo)). }
    rewrite (veq_py_eqb _ _ E). apply andb_false_r.
  - (* LT: pruned when file_min >= sval *)
    apply returns_false, py_ge_true in G. apply not_true_reads_false. intro S. apply py_lt_true in S.
    exact (vlt_cycle _ _ _ S G Lo).
  - (* LE: pruned when file_min > sval *)
    apply returns_false, py_gt_true in G. apply not_true_reads_false. intro S. apply py_le_true in S.
    exact (vlt_cycle _ _ _ G Lo S).
  - (* GT: pruned when file_max <= sval *)
    apply returns_false, py_le_true in G. apply not_true_reads_false. intro S. apply py_gt_true in S.
    exact (vlt_cycle _ _ _ S Hi G).
  - (* GE: pruned when file_max < sval *)
    apply returns_false, py_lt_true in G. apply not_true_reads_false. intro S. apply py_ge_true in S.
    exact (vlt_cycle _ _ _ G S Hi).
  - (* IN: pruned when no element can be in [file_min, file_max]; never on a float or bool / non-bool pair,
       where pyarrow's cast of the value set is lossy *)
    apply not_true_iff_false. intro Ex. apply existsb_exists in Ex. destruct Ex as [w [Hw Hw2]].
    destruct (gen_in_false _ _ _ _ G w Hw) as [Fw [Ff [Fx Fw2]]].
    apply andb_true_iff in Hw2. destruct Hw2 as [_ IE].
    unfold in_eq, cast_lossy in IE. rewrite Kf, Ff, Fw, Kb, xorb_comm, Fx in IE.
    apply py_eqb_true_nonnull in IE; [|exact Nv].
    rewrite (vle_py_le _ _ (vle_trans _ _ _ Lo (veq_le _ _ IE))) in Fw2.
    cbn [p_and] in Fw2. rewrite (vle_py_le _ _ (vle_trans _ _ _ (veq_le _ _ (veq_sym _ _ IE)) Hi)) in Fw2.
    discriminate Fw2.
Qed.

Lemma nan_unselected s :
  py_eqb (VFlt NaN) s = false
  /\ match py_lt (VFlt NaN) s with Some b => b | None => false end = false
  /\ match py_le (VFlt NaN) s with Some b => b | None => false end = false
  /\ match py_gt (VFlt NaN) s with Some b => b | None => false end = false
  /\ match py_ge (VFlt NaN) s with Some b => b | None => false end = false.
Proof.
  unfold py_eqb, py_lt, py_le, py_gt, py_ge, vcmp. cbn [num_of].
  destruct (num_of s) as [[]|]; simpl; repeat split; reflexivity.
Qed.

Lemma same_kind_tests k a b :
  has_kind k a = true -> has_kind k b = true -> is_null a = false -> is_null b = false ->
  is_float a = is_float b /\ is_bool a = is_bool b.
Proof.
  intros Ka Kb Na Nb.
  destruct k; destruct a; try discriminate Ka; try discriminate Na; destruct b; try discriminate Kb; try discriminate Nb; auto.
Qed.

Lemma ordinary_nonnull v : ordinary v = true -> is_null v = false.
Proof. unfold ordinary. destruct (is_null v); [discriminate|reflexivity]. Qed.

Lemma expr_sound X vs fmin fmax op sval lval :
  homogeneous vs -> bounds_of vs = Some (fmin, fmax) ->
  gen_try_body op fmin fmax sval lval = Some false ->
  forall v, In v vs -> selected X op v sval lval = false.
Proof.
  intros Hom B G v Hv.
  destruct (bounds_true vs fmin fmax Hom B) as [BT Shape]. destruct Hom as [k Hk].
  destruct (is_null v) eqn:Nv; [exact (null_unselected X op fmin fmax sval lval v Nv G)|].
  destruct (is_nan v) eqn:NaNv.
  - (* a NaN cell: the bounds are those of a float column, which prune neither != nor in; nothing else selects NaN *)
    destruct v as [| | |[]| | | |]; try discriminate. clear Nv NaNv.
    assert (Fl : is_float fmin = true).
    { destruct Shape as [[Imin [_ [Omin _]]]|[-> _]]; [|reflexivity].
      destruct (same_kind_tests k (VFlt NaN) fmin (Hk _ Hv) (Hk _ Imin) eq_refl (ordinary_nonnull _ Omin)) as [Kf _]. symmetry. exact Kf. }
    destruct op; try discriminate G; cbn [selected is_null]; try apply (nan_unselected sval).
    (* NOT_IN, IS_NULL, IS_NOT_NULL never return False (G); LT, LE, GT, GE are conjuncts of nan_unselected; left: *)
    + (* EQ *) destruct (nan_unselected sval) as [-> _]. apply andb_false_r.
    + (* NE *) unfold gen_try_body in G. cbn [fop_eqb] in G. rewrite Fl in G. discriminate G.
    + (* IN *)
      apply ListFacts.existsb_false. intros w Hw.
      destruct (gen_in_false _ _ _ _ G w Hw) as [_ [Ff _]]. congruence.
  - (* an ordinary cell lies within the bounds, which are cells of the column *)
    assert (Ov : ordinary v = true) by (unfold ordinary; rewrite Nv, NaNv; reflexivity).
    destruct (BT v Hv Ov) as [Lo Hi].
    destruct Shape as [[Imin [_ [Omin _]]]|[_ [_ N]]]; [|rewrite (N v Hv) in Ov; discriminate].
    destruct (same_kind_tests k v fmin (Hk v Hv) (Hk fmin Imin) Nv (ordinary_nonnull _ Omin)) as [Kf Kb].
    exact (enclosed_sound X op fmin fmax sval lval v Lo Hi Kf Kb G).
Qed.

Lemma file_bounds_absent schema rows id :
  ~ In id (map snd schema) ->
  lookup id (fst (file_bounds schema rows)) = None /\ lookup id (snd (file_bounds schema rows)) = None.
Proof.
  induction schema as [|[c i] sch IH]; cbn [file_bounds map snd In]; intro NI; [split; reflexivity|].
  destruct (IH (fun I => NI (or_intror I))) as [I1 I2].
  destruct (file_bounds sch rows) as [lo hi]. destruct (bounds_of (column rows c)) as [[mn mx]|]; [|split; assumption].
  cbn [fst snd lookup] in *. destruct (Z.eqb_spec id i) as [->|_]; [destruct NI; left; reflexivity|]. split; assumption.
Qed.

Lemma lookup_In {A} k (l : list (Z * A)) v : lookup k l = Some v -> In (k, v) l.
Proof.
  induction l as [|[k' v'] l IH]; simpl; intro H; [discriminate|].
  destruct (Z.eqb_spec k k') as [->|]; [injection H as ->; left; reflexivity | right; auto].
Qed.

Lemma lookup_file_bounds schema rows c id :
  NoDup (map snd schema) -> lookup c schema = Some id ->
  match bounds_of (column rows c) with
  | Some (mn, mx) => lookup id (fst (file_bounds schema rows)) = Some mn /\ lookup id (snd (file_bounds schema rows)) = Some mx
  | None => lookup id (fst (file_bounds schema rows)) = None /\ lookup id (snd (file_bounds schema rows)) = None
  end.
Proof.
  induction schema as [|[c' i] sch IH]; cbn [file_bounds map snd lookup]; intros ND L; [discriminate|].
  inversion ND as [|? ? NI ND']; subst.
  destruct (Z.eqb_spec c c') as [->|NE].
  - (* the column's own entry; the entries further down are those of other ids *)
    injection L as ->. destruct (file_bounds_absent sch rows id NI) as [A1 A2].
    destruct (file_bounds sch rows) as [lo hi]. destruct (bounds_of (column rows c')) as [[mn mx]|]; [|split; assumption].
    cbn [fst snd lookup]. rewrite Z.eqb_refl. split; reflexivity.
  - (* another column's entry, under another id *)
    specialize (IH ND' L).
    assert (id <> i) by (intro; subst; exact (NI (in_map snd _ _ (lookup_In c sch i L)))).
    destruct (file_bounds sch rows) as [lo hi]. destruct (bounds_of (column rows c')) as [[mn' mx']|]; [|exact IH].
    cbn [fst snd lookup] in *. destruct (Z.eqb_spec id i); [contradiction|]. exact IH.
Qed.

(* _file_may_match returns False because ONE expression, whose column has both bounds, does *)
Lemma may_match_sound X lo hi ids rows es :
  (forall e, In e es -> forall cid fmin fmax,
     lookup (fcol e) ids = Some cid -> lookup cid lo = Some fmin -> lookup cid hi = Some fmax ->
     gen_try_body (fop_ e) fmin fmax (fsval e) (flval e) = Some false ->
     forall r, In r rows -> selected X (fop_ e) (cell r (fcol e)) (fsval e) (flval e) = false) ->
  file_may_match lo hi ids es = false -> forall r, In r rows -> row_selected X es r = false.
Proof.
  intros OK F r Hr. unfold row_selected. induction es as [|e es IH]; simpl in *; [discriminate F|].
  apply andb_false_iff.
  assert (Next : file_may_match lo hi ids es = false ->
                 selected X (fop_ e) (cell r (fcol e)) (fsval e) (flval e) = false
                 \/ forallb (fun e0 => selected X (fop_ e0) (cell r (fcol e0)) (fsval e0) (flval e0)) es = false).
  { intro F'. right. apply IH; [|exact F']. intros e0 I. apply OK. right. exact I. }
  destruct (lookup (fcol e) ids) as [cid|] eqn:L; [|exact (Next F)].
  destruct (lookup cid lo) as [fmin|] eqn:L1; [|exact (Next F)].
  destruct (lookup cid hi) as [fmax|] eqn:L2; [|exact (Next F)].
  destruct (gen_try_body (fop_ e) fmin fmax (fsval e) (flval e)) as [[]|] eqn:G; try exact (Next F).
  left. exact (OK e (or_introl eq_refl) cid fmin fmax L L1 L2 G r Hr).
Qed.

(* one expression against the bounds stored for its column: they are the exact bounds of the column *)
Lemma stored_expr_sound X schema rows e cid fmin fmax :
  NoDup (map snd schema) -> (forall c, homogeneous (column rows c)) ->
  lookup (fcol e) schema = Some cid ->
  lookup cid (fst (file_bounds schema rows)) = Some fmin -> lookup cid (snd (file_bounds schema rows)) = Some fmax ->
  gen_try_body (fop_ e) fmin fmax (fsval e) (flval e) = Some false ->
  forall r, In r rows -> selected X (fop_ e) (cell r (fcol e)) (fsval e) (flval e) = false.
Proof.
  intros ND Hom L L1 L2 G r Hr.
  pose proof (lookup_file_bounds schema rows (fcol e) cid ND L) as LB.
  destruct (bounds_of (column rows (fcol e))) as [[mn mx]|] eqn:B; destruct LB as [E1 E2]; [|congruence].
  assert (mn = fmin) by congruence. assert (mx = fmax) by congruence. subst mn mx.
  exact (expr_sound X _ _ _ _ _ _ (Hom (fcol e)) B G _ (in_map (fun r0 => cell r0 (fcol e)) rows r Hr)).
Qed.

(* C13: a file is skipped only when no row in it can satisfy the predicate *)
Theorem prune_sound X schema rows es :
  NoDup (map snd schema) -> (forall c, homogeneous (column rows c)) ->
  file_may_match (fst (file_bounds schema rows)) (snd (file_bounds schema rows)) schema es = false ->
  forall r, In r rows -> row_selected X es r = false.
Proof.
  intros ND Hom. apply may_match_sound. intros e _ cid fmin fmax.
  exact (stored_expr_sound X schema rows e cid fmin fmax ND Hom).
Qed.

(* every column holds values of one kind: EVERY column number is meant, also those outside the schema -- the `schema`
   argument is ignored *)
Definition wf_file (schema : list (Z * Z)) (rows : list row) : Prop := forall c, homogeneous (column rows c).

(* For rows that are given, wf_file is decided by computing: each column some row has holds values of one kind; a column no
   row has is NULL throughout. *)
Definition one_kind (vs : list value) : bool :=
  existsb (fun k => forallb (has_kind k) vs) [KBool; KInt; KFlt; KStr; KTs; KDate; KTime].

Definition wf_rows (rows : list row) : bool :=
  forallb (fun c => one_kind (column rows c)) (flat_map (map fst) rows).

Lemma lookup_absent {A} c (r : list (Z * A)) : ~ In c (map fst r) -> lookup c r = None.
Proof.
  induction r as [|[a v] r IH]; simpl; intro NI; [reflexivity|].
  destruct (Z.eqb_spec c a) as [->|_]; [destruct NI; left; reflexivity | apply IH; tauto].
Qed.

Lemma wf_rows_wf_file schema rows : wf_rows rows = true -> wf_file schema rows.
Proof.
  intros H c. destruct (in_dec Z.eq_dec c (flat_map (map fst) rows)) as [I|NI].
  - apply (proj1 (forallb_forall _ _) H) in I. apply existsb_exists in I. destruct I as [k [_ Hk]].
    exists k. exact (proj1 (forallb_forall _ _) Hk).
  - exists KInt. intros v Hv. apply in_map_iff in Hv. destruct Hv as [r [<- Hr]].
    unfold cell. rewrite lookup_absent; [reflexivity|]. intro I. apply NI, in_flat_map. exists r. auto.
Qed.

(* every bound stored for such a file is a cell of its column, or NaN: never NULL *)
Lemma file_bounds_nonnull schema rows k v : wf_file schema rows ->
  In (k, v) (fst (file_bounds schema rows)) \/ In (k, v) (snd (file_bounds schema rows)) -> is_null v = false.
Proof.
  intro WF. unfold wf_file in WF. induction schema as [|[c i] sch IH]; cbn [file_bounds].
  - cbn. intros [[]|[]].
  - destruct (file_bounds sch rows) as [lo hi]. cbn [fst snd] in IH.
    destruct (bounds_of (column rows c)) as [[mn mx]|] eqn:B; cbn [fst snd]; [|exact IH].
    assert (N : is_null mn = false /\ is_null mx = false).
    { destruct (bounds_true _ _ _ (WF c) B) as [_ [(_ & _ & O1 & O2)|(-> & -> & _)]]; [|split; reflexivity].
      split; apply ordinary_nonnull; assumption. }
    destruct N as [N1 N2].
    intros [[[= _ <-]|I]|[[= _ <-]|I]]; [exact N1 | apply IH; left; exact I | exact N2 | apply IH; right; exact I].
Qed.

Definition scan (X : value -> value -> bool) (es : list fexpr) (files : list (list row)) : list row :=
  flat_map (filter (row_selected X es)) files.

Lemma skip_files_equal {F} (rows_of : F -> list row) (sel : row -> bool) (keep : F -> bool) files :
  (forall f, In f files -> keep f = false -> forall r, In r (rows_of f) -> sel r = false) ->
  flat_map (fun f => filter sel (rows_of f)) (filter keep files) = flat_map (fun f => filter sel (rows_of f)) files.
Proof.
  induction files as [|f fs IH]; simpl; intro H; auto.
  assert (H' := fun f0 I => H f0 (or_intror I)).
  destruct (keep f) eqn:K; simpl; rewrite (IH H'); auto.
  rewrite (proj1 (ListFacts.filter_all_false _ sel (rows_of f))); auto. exact (H f (or_introl eq_refl) K).
Qed.

(* prune_files_by_bounds is a filter (its two early exits return what the filter would) *)
Lemma prune_filter {F} (bounds : F -> list (Z * value) * list (Z * value)) ids es files :
  prune bounds ids es files = filter (fun f => file_may_match (fst (bounds f)) (snd (bounds f)) ids es) files.
Proof.
  unfold prune. destruct es as [|e es]; [|destruct files; reflexivity].
  symmetry. apply ListFacts.filter_all_true. reflexivity.
Qed.

Theorem scan_pruned_equal X schema es files :
  NoDup (map snd schema) -> (forall f, In f files -> wf_file schema f) ->
  scan X es (prune (file_bounds schema) schema es files) = scan X es files.
Proof.
  intros ND WF. rewrite prune_filter.
  apply (skip_files_equal (fun f => f)). intros f I M. exact (prune_sound X schema f _ ND (WF f I) M).
Qed.
