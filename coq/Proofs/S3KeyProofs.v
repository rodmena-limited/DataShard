(* Proofs/S3KeyProofs.v -- the object-store key mapping keeps every key under the table prefix (C17).
   Stated over Gen/GenS3.v, which translator/gen_s3.py regenerates from S3StorageBackend._get_s3_key and
   list_files on every run.  S3 keys are opaque strings: no segment of the path ('..', '.', '') is
   interpreted, the bytes of the path after its leading slashes are appended verbatim. *)
From Coq Require Import List String.
Require Import DS.Model.Str DS.Gen.GenS3 DS.Proofs.StrProofs.
Import ListNotations.

Lemma s3_key_verbatim : forall prefix path, nonempty prefix = true ->
  gen_get_s3_key prefix path = (prefix ++ lit "/") ++ lstrip_slash path.
Proof. intros prefix path H. unfold gen_get_s3_key. rewrite H. rewrite app_assoc. reflexivity. Qed.

Lemma s3_key_no_prefix : forall path, gen_get_s3_key [] path = lstrip_slash path.
Proof. reflexivity. Qed.

Lemma s3_key_under_prefix : forall prefix path, nonempty prefix = true ->
  starts_with (gen_get_s3_key prefix path) (prefix ++ lit "/") = true.
Proof. intros prefix path H. rewrite (s3_key_verbatim prefix path H). apply starts_with_app. Qed.

(* a fact about Str.starts_with, the twin of StrProofs.starts_with_weaken (extend the string, not shorten the prefix); used for
   the listing Prefix in Props/C17.v *)
Lemma starts_with_app_l : forall a b p, starts_with a p = true -> starts_with (a ++ b) p = true.
Proof.
  intros a b p H. apply starts_with_spec in H. destruct H as [t ->]. rewrite <- app_assoc. apply starts_with_app.
Qed.
