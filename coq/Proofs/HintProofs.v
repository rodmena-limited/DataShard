(* Proofs/HintProofs.v -- what the pointer parser and the file-name pattern compute on the names and numbers the library
   writes (C10), at the level of code points: the parser on written names and legacy numbers, the pattern on rendered
   names, a listed path split back into directory and name, and text classified as Python classifies it (a classified
   text with the codes of a rendered name is that name, so a pointer that names a file carries the file's version). *)
From Coq Require Import ZArith NArith Lia ZifyBool List Bool.
Require Import DS.Model.HintPrim DS.Gen.GenHint DS.Model.Hint.
Require DS.Proofs.ListFacts.
Import ListNotations.
Open Scope N_scope.

(* gen_parse_hint is regenerated from the source on every run: the proof walks whatever decision structure it has and
   finds a `PRet` at every leaf *)
Lemma parse_total : forall d, exists r, parse_hint d = PRet r.
Proof.
  intro d. unfold parse_hint, gen_parse_hint.
  repeat match goal with
         | |- exists r, PRet _ = PRet r => eexists; reflexivity
         | |- context [match ?x with _ => _ end] => destruct x
         end.
Qed.

(* the number whose decimal digits are those of acc followed by ds.  f units of fuel suffice below 2^f because a
   division by 10 at least halves: this is why digits_of may start from N.size n *)
Definition dval (acc : N) (ds : list N) : N := fold_left (fun a d => 10 * a + d) ds acc.

Lemma dig_fuel_val : forall f n acc, n < 2 ^ N.of_nat f -> dval 0 (dig_fuel f n acc) = dval n acc.
Proof.
  induction f as [|f IH]; intros n acc Hn.
  - change (2 ^ N.of_nat 0) with 1 in Hn. assert (n = 0) by lia. subst. reflexivity.
  - cbn [dig_fuel]. destruct (N.eqb_spec (n / 10) 0) as [E|E].
    + unfold dval; cbn [fold_left]. f_equal.
      pose proof (N.div_mod n 10). lia.
    + rewrite IH.
      * unfold dval; cbn [fold_left]. f_equal. pose proof (N.div_mod n 10). lia.
      * rewrite Nat2N.inj_succ, N.pow_succ_r' in Hn.
        apply N.div_lt_upper_bound; lia.
Qed.

Lemma digits_val : forall n, dval 0 (digits_of n) = n.
Proof.
  intro n. unfold digits_of. rewrite dig_fuel_val.
  - reflexivity.
  - rewrite N2Nat.id. apply N.size_gt.
Qed.

Lemma dig_fuel_lt10 : forall f n acc, Forall (fun d => d < 10) acc -> Forall (fun d => d < 10) (dig_fuel f n acc).
Proof.
  induction f as [|f IH]; intros n acc H; cbn [dig_fuel].
  - constructor; [apply N.mod_lt; lia|exact H].
  - destruct (n / 10 =? 0).
    + constructor; [apply N.mod_lt; lia|exact H].
    + apply IH. constructor; [apply N.mod_lt; lia|exact H].
Qed.

Lemma digits_lt10 : forall n, Forall (fun d => d < 10) (digits_of n).
Proof. intro n. apply dig_fuel_lt10. constructor. Qed.

Lemma dig_fuel_nonempty : forall f n acc, dig_fuel f n acc <> [].
Proof.
  induction f as [|f IH]; intros n acc; cbn [dig_fuel].
  - discriminate.
  - destruct (n / 10 =? 0); [discriminate|apply IH].
Qed.

Lemma digits_nonempty : forall n, digits_of n <> [].
Proof. intro n. apply dig_fuel_nonempty. Qed.

Lemma digits_forall : forall (P : cp -> Prop) v, (forall d, d < 10 -> P (digit_cp d)) -> Forall P (map digit_cp (digits_of v)).
Proof. intros P v H. apply Forall_map. eapply Forall_impl; [|apply digits_lt10]. exact H. Qed.

(* not used below: with digits_val, what makes digits_of a faithful rendering *)
Lemma digits_inj : forall a b, digits_of a = digits_of b -> a = b.
Proof. intros a b H. rewrite <- (digits_val a), <- (digits_val b), H. reflexivity. Qed.

Lemma digit_cp_dec : forall d, d < 10 -> dec (digit_cp d) = Some d.
Proof.
  intros d H. unfold digit_cp, acp, ascii_digit; cbn [dec].
  replace ((48 <=? 48 + d) && (48 + d <=? 57)) with true by lia.
  f_equal. lia.
Qed.

Lemma digit_cp_dig : forall d, d < 10 -> dig (digit_cp d) = true.
Proof. intros d H. unfold digit_cp, acp, ascii_digit; cbn [dig]. lia. Qed.

Lemma digit_cp_sp : forall d, d < 10 -> sp (digit_cp d) = false.
Proof. intros d H. unfold digit_cp, acp, ascii_space; cbn [sp]. lia. Qed.

(* not used below *)
Lemma digit_cp_code : forall d, code (digit_cp d) = 48 + d.
Proof. reflexivity. Qed.

Lemma hex_cp_hex : forall h, h < 16 -> is_hex (hex_cp h) = true.
Proof. intros h H. unfold is_hex, hex_cp, acp; cbn [code]. destruct (N.ltb_spec h 10); lia. Qed.

Lemma hex_cp_sp : forall h, h < 16 -> sp (hex_cp h) = false.
Proof. intros h H. unfold hex_cp, acp, ascii_space; cbn [sp]. destruct (N.ltb_spec h 10); lia. Qed.

Lemma dec_value_digits : forall ds acc, Forall (fun d => d < 10) ds ->
  dec_value acc (map digit_cp ds) = Some (dval acc ds).
Proof.
  induction ds as [|d ds IH]; intros acc H; [reflexivity|].
  inversion H as [|? ? Hd Hds]; subst. cbn [map dec_value]. rewrite digit_cp_dec by assumption.
  rewrite IH by assumption. reflexivity.
Qed.

Lemma map_digits_not_empty : forall v, is_empty (map digit_cp (digits_of v)) = false.
Proof.
  intro v. destruct (digits_of v) eqn:E; [exfalso; exact (digits_nonempty v E)|reflexivity].
Qed.

Lemma py_int_digits : forall v, printable v = true -> py_int (map digit_cp (digits_of v)) = Some v.
Proof.
  intros v Hp. unfold py_int. rewrite map_digits_not_empty, map_length.
  unfold printable in Hp. rewrite Hp.
  rewrite dec_value_digits by apply digits_lt10. rewrite digits_val. reflexivity.
Qed.

Lemma lstrip_nospace : forall l, Forall (fun c => sp c = false) l -> lstrip l = l.
Proof. intros l H. destruct H as [|c l Hc Hl]; [reflexivity|]. cbn [lstrip]. rewrite Hc. reflexivity. Qed.

Lemma strip_nospace : forall l, Forall (fun c => sp c = false) l -> strip l = l.
Proof.
  intros l H. unfold strip, rstrip. rewrite (lstrip_nospace l H).
  rewrite lstrip_nospace; [apply rev_involutive|apply Forall_rev; exact H].
Qed.

Lemma lstrip_in : forall l c, In c (lstrip l) -> In c l.
Proof.
  induction l as [|x l IH]; intros c H; [exact H|]. cbn [lstrip] in H.
  destruct (sp x); [right; apply IH; exact H|exact H].
Qed.

Lemma strip_in : forall l c, In c (strip l) -> In c l.
Proof.
  intros l c H. unfold strip, rstrip in H. rewrite <- in_rev in H. apply lstrip_in in H.
  rewrite <- in_rev in H. apply lstrip_in in H. exact H.
Qed.

Lemma wf_id_spec : forall id, wf_id id = true -> length id = 8%nat /\ Forall (fun h => h < 16) id.
Proof.
  intros id H. unfold wf_id in H. apply andb_prop in H. destruct H as [H1 H2].
  split; [apply Nat.eqb_eq; exact H1|].
  rewrite forallb_forall in H2. apply Forall_forall. intros x Hx. specialize (H2 x Hx). lia.
Qed.

(* a rendered name consists of classified ASCII characters out of [-.0-9a-z] *)
Definition name_code (n : N) : bool :=
  (n =? 45) || (n =? 46) || ((48 <=? n) && (n <=? 57)) || ((97 <=? n) && (n <=? 122)).

Lemma render_forall : forall (P : cp -> Prop) v id, wf_id id = true ->
  (forall n, name_code n = true -> P (acp n)) -> Forall P (render_name v id).
Proof.
  intros P v id Hid HP. destruct (wf_id_spec id Hid) as [_ Hh]. unfold render_name.
  (* 'v', the decimal digits, '-', the hex digits, ".metadata.json" *)
  constructor; [apply HP; reflexivity|]. apply Forall_app; split.
  - (* digits: 48..57 *)
    apply digits_forall. intros d Hd. apply HP. clear - Hd. unfold name_code. lia.
  - constructor; [apply HP; reflexivity|]. apply Forall_app; split.
    + (* hex digits: 48..57 or 97..102 *)
      apply Forall_map. eapply Forall_impl; [|exact Hh]. cbv beta. intros h Hlt. apply HP.
      clear - Hlt. unfold name_code. destruct (N.ltb_spec h 10); lia.
    + (* the suffix: checked character by character *)
      apply Forall_forall. intros c Hc. apply in_map_iff in Hc. destruct Hc as [n [<- Hn]]. apply HP.
      assert (S : forallb name_code suffix_codes = true) by reflexivity.
      rewrite forallb_forall in S. exact (S n Hn).
Qed.

Lemma render_nospace : forall v id, wf_id id = true -> Forall (fun c => sp c = false) (render_name v id).
Proof.
  intros v id Hid. apply render_forall; [exact Hid|].
  intros n Hn. unfold name_code in Hn. unfold acp, ascii_space; cbn [sp]. lia.
Qed.

Lemma span_dec_digits : forall ds c rest, Forall (fun d => d < 10) ds -> is_dec c = false ->
  span_dec (map digit_cp ds ++ c :: rest) = (map digit_cp ds, c :: rest).
Proof.
  induction ds as [|d ds IH]; intros c rest H Hc; cbn [map app span_dec].
  - rewrite Hc. reflexivity.
  - inversion H; subst. unfold is_dec at 1. rewrite digit_cp_dec by assumption.
    rewrite IH by assumption. reflexivity.
Qed.

Lemma take_hex_render : forall id rest, Forall (fun h => h < 16) id ->
  take_hex (length id) (map hex_cp id ++ rest) = Some rest.
Proof.
  induction id as [|h id IH]; intros rest H; [reflexivity|].
  inversion H; subst. cbn [length map app take_hex]. rewrite hex_cp_hex by assumption. apply IH; assumption.
Qed.

Lemma re_match_render : forall v id, wf_id id = true ->
  re_match (render_name v id) = Some (map digit_cp (digits_of v)).
Proof.
  intros v id Hid. destruct (wf_id_spec id Hid) as [Hlen Hh].
  unfold render_name, re_match. cbn [code acp]. rewrite N.eqb_refl.
  rewrite span_dec_digits; [|apply digits_lt10|reflexivity].
  rewrite map_digits_not_empty. cbn [code acp]. rewrite N.eqb_refl. rewrite <- Hlen.
  rewrite take_hex_render by assumption. reflexivity.
Qed.

Lemma isdigit_render : forall v id, py_isdigit (render_name v id) = false.
Proof. intros. reflexivity. (* the leading `v` is no digit *) Qed.

Lemma parse_write : forall v id, printable v = true -> wf_id id = true ->
  parse_hint (Some (render_name v id)) = PRet (Some (v, render_name v id)).
Proof.
  intros v id Hp Hid. unfold parse_hint, gen_parse_hint.
  rewrite (strip_nospace _ (render_nospace v id Hid)).
  rewrite isdigit_render, (re_match_render v id Hid), (py_int_digits v Hp).
  reflexivity.
Qed.

Lemma parse_legacy : forall v, printable v = true ->
  parse_hint (Some (map digit_cp (digits_of v)))
  = PRet (Some (v, lit [118] ++ map digit_cp (digits_of v) ++ lit suffix_codes)).
Proof.
  intros v Hp. unfold parse_hint, gen_parse_hint.
  rewrite strip_nospace by (apply digits_forall, digit_cp_sp).
  assert (Hd : py_isdigit (map digit_cp (digits_of v)) = true).
  { unfold py_isdigit. rewrite map_digits_not_empty. cbn [negb andb].
    apply forallb_forall, Forall_forall, digits_forall, digit_cp_dig. }
  rewrite map_digits_not_empty, Hd, (py_int_digits v Hp). reflexivity.
Qed.

Lemma codes_eqb_eq : forall a b, codes_eqb a b = true <-> a = b.
Proof. exact (ListFacts.eqbl_eq N.eqb N.eqb_eq). (* codes_eqb and ListFacts.eqbl N.eqb are one fixpoint up to conversion *) Qed.

Lemma codes_eqb_refl : forall a, codes_eqb a a = true.
Proof. intro a. apply codes_eqb_eq. reflexivity. Qed.

Lemma codes_eqb_app_l : forall p a b, codes_eqb (p ++ a) (p ++ b) = codes_eqb a b.
Proof. induction p as [|x p IH]; intros a b; [reflexivity|]. cbn [app codes_eqb]. rewrite N.eqb_refl. apply IH. Qed.

Lemma codes_lit : forall l, codes (lit l) = l.
Proof. induction l as [|x l IH]; [reflexivity|]. cbn. f_equal. exact IH. Qed.

Lemma codes_app : forall a b, codes (a ++ b) = codes a ++ codes b.
Proof. intros. unfold codes. apply map_app. Qed.

Lemma in_codes : forall T n, In n (codes T) -> exists c, In c T /\ code c = n.
Proof. intros T n H. unfold codes in H. apply in_map_iff in H. destruct H as [c [E Hc]]. eauto. Qed.

Lemma acp_list : forall T, (forall c, In c T -> c = acp (code c)) -> T = map acp (codes T).
Proof.
  induction T as [|x T IH]; intro H; [reflexivity|]. cbn [codes map]. f_equal.
  - apply H. left. reflexivity.
  - apply IH. intros c Hc. apply H. right. exact Hc.
Qed.

(* so equal codes give equal characters *)
Lemma render_acp : forall v id, render_name v id = map acp (codes (render_name v id)).
Proof.
  intros v id. unfold codes, render_name, lit, digit_cp, hex_cp.
  cbn [map]. rewrite !map_app. cbn [map]. rewrite !map_app, !map_map. reflexivity.
Qed.

Lemma render_ascii : forall v id, wf_id id = true -> Forall (fun c => code c < 128) (render_name v id).
Proof.
  intros v id Hid. apply render_forall; [exact Hid|].
  intros n Hn. unfold name_code in Hn. cbn [code acp]. lia.
Qed.

Definition plain (c : cp) : Prop := code c <> 47 /\ code c <> 92.

Lemma render_plain : forall v id, wf_id id = true -> Forall plain (render_name v id).
Proof.
  intros v id Hid. apply render_forall; [exact Hid|].
  intros n Hn. unfold name_code in Hn. unfold plain; cbn [code acp]. lia.
Qed.

Lemma unbackslash_plain : forall l, Forall (fun c => code c <> 92) l -> unbackslash l = l.
Proof.
  intros l H. unfold unbackslash. induction H as [|c l Hc Hl IH]; [reflexivity|].
  cbn [map]. destruct (N.eqb_spec (code c) 92); [contradiction|]. f_equal. exact IH.
Qed.

Lemma span_not_slash_app : forall a s r, Forall (fun c => code c <> 47) a -> code s = 47 ->
  span_not_slash (a ++ s :: r) = (a, s :: r).
Proof.
  induction a as [|c a IH]; intros s r H Hs; cbn [app span_not_slash].
  - unfold not_slash. rewrite Hs. reflexivity.
  - inversion H; subst. unfold not_slash at 1. destruct (N.eqb_spec (code c) 47); [contradiction|].
    cbn [negb]. rewrite IH by assumption. reflexivity.
Qed.

(* _recover_version_from_files splits "metadata/<name>" back into the two *)
Lemma rsplit_plain : forall d name, Forall (fun c => code c <> 92) d -> Forall plain name ->
  rsplit_slash (unbackslash (d ++ acp 47 :: name)) = (Some d, name).
Proof.
  intros d name Hd Hn. rewrite unbackslash_plain.
  - (* reversed, the path is the reversed name, the slash, the reversed directory: the first slash met ends the name *)
    unfold rsplit_slash. rewrite rev_app_distr. cbn [rev]. rewrite <- app_assoc. cbn [app].
    rewrite span_not_slash_app; [rewrite !rev_involutive; reflexivity| |reflexivity].
    apply Forall_rev. eapply Forall_impl; [|exact Hn]. intros c [H _]; exact H.
  - apply Forall_app; split; [exact Hd|]. constructor; [discriminate|].
    eapply Forall_impl; [|exact Hn]. intros c [_ H]; exact H.
Qed.

Lemma metadata_path_no_backslash : Forall (fun c => code c <> 92) (lit gen_metadata_path).
Proof. repeat constructor; discriminate. Qed.

Lemma rsplit_render_path : forall v id, wf_id id = true ->
  rsplit_slash (unbackslash (render_path v id)) = (Some (lit gen_metadata_path), render_name v id).
Proof. intros v id Hid. exact (rsplit_plain _ _ metadata_path_no_backslash (render_plain v id Hid)). Qed.

Lemma parent_ok_metadata : parent_ok (Some (lit gen_metadata_path)) = true.
Proof. reflexivity. Qed.

(* the body of Model/HintStore.v ascii_classified: every ASCII character is `acp` of its code; nothing is said of the
   others *)
Definition classified (T : list cp) : Prop := forall c, In c T -> code c < 128 -> c = acp (code c).

Lemma classified_lit : forall l, classified (lit l).
Proof. intros l c Hc _. unfold lit in Hc. apply in_map_iff in Hc. destruct Hc as [n [<- _]]. reflexivity. Qed.

Lemma classified_app : forall a b, classified a -> classified b -> classified (a ++ b).
Proof. intros a b Ha Hb c Hc. apply in_app_or in Hc. destruct Hc; auto. Qed.

Lemma render_classified : forall v id, classified (render_name v id).
Proof. intros v id. rewrite render_acp. apply classified_lit. Qed.

(* the codes are ASCII, and an ASCII code leaves no choice of character *)
Lemma classified_rendered : forall T v id, wf_id id = true -> classified T ->
  codes (render_name v id) = codes T -> T = render_name v id.
Proof.
  intros T v id Hid Hcl E. rewrite (render_acp v id), E. apply acp_list.
  intros c Hc. apply (Hcl c Hc). pose proof (render_ascii v id Hid) as A. rewrite Forall_forall in A.
  destruct (in_codes (render_name v id) (code c)) as [c' [Hc' <-]]; [rewrite E; apply in_map; exact Hc|exact (A c' Hc')].
Qed.

(* the name is matched and its number read back *)
Lemma render_codes_version : forall v id v' id',
  wf_id id = true -> printable v = true -> wf_id id' = true -> printable v' = true ->
  codes (render_name v id) = codes (render_name v' id') -> v = v'.
Proof.
  intros v id v' id' Hid Hp Hid' Hp' H.
  pose proof (re_match_render v' id' Hid') as M.
  rewrite (classified_rendered _ v id Hid (render_classified v' id') H), (re_match_render v id Hid) in M. injection M as Hd.
  pose proof (py_int_digits v Hp) as I. rewrite Hd, (py_int_digits v' Hp') in I. injection I as I. symmetry. exact I.
Qed.

Lemma version_of_hinted : forall text v name v' id,
  classified text -> wf_id id = true -> printable v' = true ->
  parse_hint (Some text) = PRet (Some (v, name)) -> codes (render_name v' id) = codes name -> v = v'.
Proof.
  intros text v name v' id Hcl Hid Hpr Hp Hn.
  unfold parse_hint, gen_parse_hint in Hp. set (T := strip text) in *.
  assert (HT : classified T) by (intros c Hc; apply Hcl, strip_in, Hc).
  destruct (is_empty T); [discriminate Hp|].
  destruct (py_isdigit T) eqn:D.
  - (* legacy form: v<T>.metadata.json would be the rendered name, whose '-' can only lie inside T; but T.isdigit() *)
    exfalso. destruct (py_int T); [|discriminate Hp]. injection Hp as _ <-.
    apply (classified_rendered _ _ _ Hid) in Hn;
      [|exact (classified_app (lit [118]) (T ++ lit suffix_codes) (classified_lit _)
                 (classified_app T (lit suffix_codes) HT (classified_lit _)))].
    injection Hn as Hn.
    assert (E : T = map digit_cp (digits_of v') ++ acp 45 :: map hex_cp id)
      by (apply (app_inv_tail (lit suffix_codes)); rewrite <- app_assoc; exact Hn).
    unfold py_isdigit in D. apply andb_prop in D. destruct D as [_ D]. rewrite forallb_forall in D.
    discriminate (D (acp 45)). rewrite E. apply in_elt.
  - (* current form: the stripped text IS the rendered name *)
    cbv zeta in Hp. destruct (re_match T) as [g|] eqn:M; [|discriminate Hp].
    destruct (py_int g) as [n|] eqn:Ei; [|discriminate Hp]. injection Hp as <- <-.
    rewrite (classified_rendered _ _ _ Hid HT Hn), (re_match_render _ _ Hid) in M. injection M as <-.
    rewrite (py_int_digits _ Hpr) in Ei. injection Ei as <-. reflexivity.
Qed.
