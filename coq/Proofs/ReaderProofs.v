(* Proofs/ReaderProofs.v -- readers observe only whole committed snapshots (C02).  RInv, rstep_inv, reach_rinv and what is read
   off them are for a resolution budget of 1; rrun_refines and hist_monotone hold for any budget. *)
From Coq Require Import ZArith List Lia.
Require Import DS.Model.Commit DS.Model.Fault DS.Model.Reader DS.Proofs.ListFacts DS.Proofs.CommitProofs DS.Proofs.FaultProofs.
Import ListNotations.

Definition hist (z : rworld) := w_hist (fw (rx z)).

(* What is known of one read call that resolves the pointer ONCE (budget 1), in a world x: it resolved at an instant i
   between its start and now, the version it holds is the one current after i flips, and what it has read and has yet
   to read is that version's file list. *)
Record Resolved (x : fworld) (s : rstate) (v : vid) (i st : nat) : Prop := {
  RV_idx : r_idx s = Some i;
  RV_start : r_start s = Some st;
  RV_when : (st <= i <= length (w_hist (fw x)))%nat;
  RV_ver : v = version_at (w_hist (fw x)) i;
  RV_comm : In v (committed (fw x));
  RV_files : r_got s ++ r_todo s = refs x v;
  RV_nres : (1 <= r_nres s)%nat }.

Record RdInv (x : fworld) (s : rstate) : Prop := {
  RD_start : forall st, r_start s = Some st -> (st <= length (w_hist (fw x)))%nat;
  RD_vid : forall v, r_vid s = Some v -> exists i st, Resolved x s v i st;
  RD_novid : r_vid s = None -> r_idx s = None /\ r_got s = [];
  RD_ok : r_ok s = true;
  RD_end : forall e, r_end s = Some e ->
             exists i, r_idx s = Some i /\ (i <= e <= length (w_hist (fw x)))%nat /\ r_todo s = [] }.

Record RInv (c : cfg) (z : rworld) : Prop := {
  RI_f : FInv c (rx z);
  RI_r : forall r, RdInv (rx z) (r_readers z r) }.

Lemma version_at_stable h t i : (i <= length h)%nat -> version_at (h ++ t) i = version_at h i.
Proof. intro L. unfold version_at. rewrite firstn_app. replace (i - length h)%nat with 0%nat by lia. simpl. rewrite app_nil_r. reflexivity. Qed.

Lemma version_at_full h : version_at h (length h) = lastv 0%nat h.
Proof. unfold version_at, lastv. rewrite firstn_all. reflexivity. Qed.

Lemma rd_grows c x x' s : FInv c x -> grows x x' -> RdInv x s -> RdInv x' s.
Proof.
  intros I G [Dstart Dvid Dnovid Dok Dend]. destruct (G_hist x x' G) as [t Ht].
  constructor; auto.
  - (* RD_start *) intros st Hs. specialize (Dstart st Hs). rewrite Ht, app_length. lia.
  - (* RD_vid *) intros v Hv. destruct (Dvid v Hv) as [i [st [Idx Start When Ver Comm Files Nres]]]. exists i, st.
    constructor; auto.
    + rewrite Ht, app_length. lia.
    + rewrite Ht, version_at_stable by lia. exact Ver.
    + unfold committed. rewrite Ht. apply (comm_extends _ _ v (ex_intro _ t eq_refl) Comm).
    + rewrite (grows_refs x x' v G) by (eapply finv_committed_valid; eauto). exact Files.
  - (* RD_end *) intros e He. destruct (Dend e He) as [i [E1 [E2 E3]]]. exists i. rewrite Ht, app_length. repeat split; auto; lia.
Qed.

Lemma rinv_upd c z r s' : RInv c z -> RdInv (rx z) s' -> RInv c {| rx := rx z; r_readers := updr r s' (r_readers z) |}.
Proof.
  intros I R. constructor; simpl; [apply I|]. intro q. unfold updr. destruct (Nat.eqb q r); [exact R | apply I].
Qed.

Lemma rstep_inv c z e z' : sound c -> RInv c z -> rstep c 1 z e = Some z' -> RInv c z'.
Proof.
  intros Snd I H. destruct e as [fe|r|r|r|r]; simpl in H; try pose proof (RI_r c z I r) as [Dstart Dvid Dnovid Dok Dend].
  - destruct (fstep c (rx z) fe) as [x'|] eqn:St; [|discriminate]. injection H as <-.
    constructor; simpl; [eapply fstep_inv; eauto; apply I|].
    intro r. apply (rd_grows c (rx z)); [apply I | eapply fstep_grows; eauto | apply I].
  - (* RStart *)
    destruct (r_start (r_readers z r)) eqn:S0; [discriminate|]. injection H as <-.
    apply rinv_upd; [exact I|]. constructor; simpl; auto; try discriminate.
    intros st E0. injection E0 as <-. unfold nflips. lia.
  - (* RPtr: the budget makes this the first resolution, so nothing has been read yet *)
    destruct (r_start (r_readers z r)) as [st|] eqn:S0; [|discriminate].
    destruct (r_end (r_readers z r)) eqn:E0; [discriminate|].
    destruct (Nat.ltb (r_nres (r_readers z r)) 1) eqn:Bud; [|discriminate]. injection H as <-.
    apply Nat.ltb_lt in Bud.
    assert (V0 : r_vid (r_readers z r) = None).
    { destruct (r_vid (r_readers z r)) as [v|] eqn:V; [|reflexivity].
      destruct (Dvid v eq_refl) as [i [st0 RV]]. pose proof (RV_nres _ _ _ _ _ RV). lia. }
    destruct (Dnovid V0) as [_ G0].
    apply rinv_upd; [exact I|]. constructor; simpl; auto; try discriminate.
    intros v Hv. injection Hv as <-. exists (nflips z), st. specialize (Dstart st eq_refl). unfold nflips in *.
    constructor; simpl; auto; try lia.
    + (* RV_ver *) rewrite version_at_full. apply (I_ptr c _ (FI_inv c _ (RI_f c z I))).
    + (* RV_comm *) apply (ptr_committed c _ (FI_inv c _ (RI_f c z I))).
    + (* RV_files *) rewrite G0. reflexivity.
  - (* RFile: the file is there, by the writers' invariant *)
    destruct (r_vid (r_readers z r)) as [v|] eqn:V0; [|discriminate].
    destruct (r_end (r_readers z r)) eqn:E0; [discriminate|].
    destruct (r_todo (r_readers z r)) as [|f tl] eqn:T0; [discriminate|]. injection H as <-.
    destruct (Dvid v eq_refl) as [i [st [Idx Start When Ver Comm Files Nres]]]. rewrite T0 in Files.
    assert (Pf : existsb (Nat.eqb f) (f_present (rx z)) = true).
    { apply (existsb_eqb_In _ Nat.eqb Nat.eqb_eq).
      apply (finv_present c _ (RI_f c z I) v Comm). rewrite <- Files. apply in_or_app. right. left. reflexivity. }
    apply rinv_upd; [exact I|]. rewrite Pf. constructor; simpl; auto; try discriminate; [|rewrite Dok; reflexivity].
    intros v' Hv'. injection Hv' as <-. exists i, st. constructor; simpl; auto; try lia. rewrite <- app_assoc. exact Files.
  - (* REnd *)
    destruct (r_vid (r_readers z r)) as [v|] eqn:V0; [|discriminate].
    destruct (r_end (r_readers z r)) eqn:E0; [discriminate|].
    destruct (r_todo (r_readers z r)) as [|f tl] eqn:T0; [|discriminate]. injection H as <-.
    apply rinv_upd; [exact I|]. constructor; simpl; auto; try discriminate.
    + (* RD_vid: the end of the call changes nothing a resolved read speaks of *)
      intros v' Hv'. destruct (Dvid v' Hv') as [i [st [Idx Start When Ver Comm Files Nres]]]. exists i, st. rewrite T0 in Files. constructor; simpl; assumption.
    + (* RD_end *)
      intros e0 He. injection He as <-. destruct (Dvid v eq_refl) as [i [st [Idx _ When _ _ _ _]]].
      exists i. unfold nflips.  repeat split; auto; lia.
Qed.

Lemma reach_rinv c m0 kind mr r0 next evs :
  sound c -> (forall f, In f r0 -> (f < next)%nat) -> RInv c (rrun c 1 (rinit (finit m0 kind mr r0 next)) evs).
Proof.
  intros Snd A. apply (run_skip_preserves _ _ (rstep c 1) (RInv c)); [intros y e y' I E; apply (rstep_inv c y e y' Snd I E)|].
  constructor; [apply finit_inv; exact A|]. intro r. constructor; simpl; auto; discriminate.
Qed.

Lemma rinv_snapshot c z : RInv c z ->
  forall r e, r_end (r_readers z r) = Some e ->
    exists i st, r_idx (r_readers z r) = Some i /\ r_start (r_readers z r) = Some st
      /\ (st <= i <= e)%nat /\ (e <= length (hist z))%nat
      /\ r_ok (r_readers z r) = true
      /\ r_got (r_readers z r) = refs (rx z) (version_at (hist z) i)
      /\ (forall f, In f (r_got (r_readers z r)) -> In f (f_present (rx z)))
      /\ (forall (row : Type) (content : fid -> list row),
            result_rows content (r_readers z r) = snapshot_rows content (rx z) (version_at (hist z) i)).
Proof.
  intros I r e He. destruct (RI_r c z I r) as [_ Dvid Dnovid Dok Dend]. destruct (Dend e He) as [i [E1 [E2 E3]]].
  destruct (r_vid (r_readers z r)) as [v|] eqn:V; [|destruct (Dnovid eq_refl) as [C1 _]; congruence].
  destruct (Dvid v eq_refl) as [i' [st [Idx Start When Ver Comm Files Nres]]].
  rewrite Idx in E1. injection E1 as ->. rewrite E3, app_nil_r in Files.
  exists i, st. unfold hist. rewrite <- Ver. repeat split; auto; try lia.
  - intros f Hf. apply (finv_present c _ (RI_f c z I) v Comm). rewrite <- Files. exact Hf.
  - intros row content. unfold result_rows, snapshot_rows. rewrite Files. reflexivity.
Qed.

Lemma rinv_monotone c z : RInv c z ->
  forall r1 r2 e1 s2 i2,
    r_end (r_readers z r1) = Some e1 -> r_start (r_readers z r2) = Some s2 -> (e1 <= s2)%nat ->
    r_idx (r_readers z r2) = Some i2 ->
    exists i1, r_idx (r_readers z r1) = Some i1 /\ (i1 <= i2)%nat
      /\ firstn i1 (hist z) = firstn i1 (firstn i2 (hist z)).      (* the flips r1 had seen are a prefix of those r2 saw *)
Proof.
  intros I r1 r2 e1 s2 i2 H1 H2 L H3.
  destruct (RD_end _ _ (RI_r c z I r1) e1 H1) as [i1 [E1 [E2 _]]].
  destruct (RI_r c z I r2) as [_ Dvid Dnovid _ _].
  destruct (r_vid (r_readers z r2)) as [v|] eqn:V; [|destruct (Dnovid eq_refl) as [C1 _]; congruence].
  destruct (Dvid v eq_refl) as [i' [st [Idx Start When _ _ _ _]]]. rewrite H3 in Idx. injection Idx as <-. rewrite H2 in Start. injection Start as <-.
  exists i1. split; [exact E1|]. split; [lia|].
  rewrite firstn_firstn. replace (Nat.min i1 i2) with i1 by lia. reflexivity.
Qed.

Lemma rrun_refines c b z evs : exists l, rx (rrun c b z evs) = frun c (rx z) l.
Proof.
  apply (run_skip_projects _ _ _ _ (rstep c b) (fstep c) rx). intros y e y' H.
  destruct e as [fe|r|r|r|r]; simpl in H.
  - right. exists fe. unfold skip. destruct (fstep c (rx y) fe); [|discriminate]. injection H as <-. reflexivity.
  - left. destruct (r_start _); [discriminate|]. injection H as <-. reflexivity.
  - left. destruct (r_start _); [|discriminate]. destruct (r_end _); [discriminate|]. destruct (Nat.ltb _ _); [|discriminate].
    injection H as <-. reflexivity.
  - left. destruct (r_vid _); [|discriminate]. destruct (r_end _); [discriminate|]. destruct (r_todo _); [discriminate|].
    injection H as <-. reflexivity.
  - left. destruct (r_vid _); [|discriminate]. destruct (r_end _); [discriminate|]. destruct (r_todo _); [|discriminate].
    injection H as <-. reflexivity.
Qed.

Theorem hist_monotone c b z evs : exists t, hist (rrun c b z evs) = hist z ++ t.
Proof. unfold hist. destruct (rrun_refines c b z evs) as [l ->]. apply (G_hist _ _ (frun_grows c (rx z) l)). Qed.

(* A multi-operation transaction is ONE operation identifier with ONE pointer flip (that the code does this is
   Proofs/ReadResProofs.v txn_one_commit_per_attempt + GenCommit's single flip per MetadataManager.commit). *)
Theorem txn_visible_whole c m0 kind mr r0 next evs :
  sound c ->
  let w := fw (frun c (finit m0 kind mr r0 next) evs) in
  NoDup (map snd (w_hist w))
  /\ forall i, m_ops (nthf (w_files w) (version_at (w_hist w) i)) = m_ops (nthf (w_files w) 0%nat) ++ map snd (firstn i (w_hist w)).
Proof.
  intros Snd w.
  assert (I : Inv c w) by (apply (Lin_inv c m0), frun_linear; exact Snd). split; [apply I|].
  intro i. unfold version_at. change (last (map fst (firstn i (w_hist w))) 0%nat) with (lastv 0%nat (firstn i (w_hist w))).
  apply chain_ops. apply chain_ok_firstn. apply I.
Qed.

(* The single resolution is what the property rests on.  The same statement for read calls that may resolve the
   pointer TWICE (what Table._get_all_data_files did on a table without current snapshot, and the filtered scans did
   for the schema) is false: the call below reads file 0 of version 0, resolves again after a commit and reads the
   files of version 1 -- what it returns is the file list of no version. *)
Definition snapshot_read_full (budget : nat) : Prop :=
  forall c m0 kind mr r0 next evs,
  sound c -> (forall f, In f r0 -> (f < next)%nat) ->
  let z := rrun c budget (rinit (finit m0 kind mr r0 next)) evs in
  forall r e, r_end (r_readers z r) = Some e ->
    exists i, r_got (r_readers z r) = refs (rx z) (version_at (hist z) i).

Definition two_res_cfg := {| cas := false; lockkind := Excl |}.
Definition two_res_events : list revent :=
  ([RStart 0; RPtr 0; RFile 0; RSys (FWrite 0)] ++ map (fun e => RSys (FProto e)) (commit_script 0 0 100)
   ++ [RPtr 0; RFile 0; RFile 0; REnd 0])%nat.

Theorem snapshot_read_refuted_for_two_resolutions : ~ snapshot_read_full 2.
Proof.
  intro H.
  specialize (H two_res_cfg {| m_ops := []; m_cur := 1; m_lu := 50 |} (fun _ => KFresh) (fun _ => 50%nat) [0%nat] 1%nat two_res_events).
  assert (Snd : sound two_res_cfg) by (right; reflexivity).
  assert (A : forall f, In f [0%nat] -> (f < 1)%nat) by (intros f [<-|[]]; lia).
  specialize (H Snd A 0%nat 1%nat eq_refl). destruct H as [i H].
  destruct i as [|[|i]]; vm_compute in H; discriminate.
Qed.

Theorem snapshot_read_holds_for_one_resolution : snapshot_read_full 1.
Proof.
  intros c m0 kind mr r0 next evs Snd A z r e He.
  destruct (rinv_snapshot c z (reach_rinv c m0 kind mr r0 next evs Snd A) r e He) as [i [st [_ [_ [_ [_ [_ [G _]]]]]]]].
  exists i. exact G.
Qed.
