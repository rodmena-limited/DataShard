(* Proofs/CurEmptyProofs.v -- "the current snapshot is among the retained snapshots OR THE TABLE IS EMPTY": after any history,
   a table without a current snapshot (null or the -1 sentinel) has no snapshots at all.
   (MetaSpec.cur_ok alone allows "no current snapshot" on a non-empty table.) *)
From Coq Require Import ZArith List Lia Permutation.
Require Import DS.Model.MetaBase DS.Model.Meta DS.Model.MetaSpec.
Require Import DS.Proofs.MetaProofs.
Import ListNotations.
Open Scope Z_scope.

Definition cur_nil_empty (m : meta) : Prop := nil_link (cur m) -> snaps m = [].

Lemma repoint_all_nil all : repoint_all all [] = []. Proof. reflexivity. Qed.

Check apply_retention_cases.
Check delete_snapshot_cases.
Check gstep_inv.

Lemma retention_cne m : cur_nil_empty m -> cur_nil_empty (apply_retention m).
Proof.
  intros E Hnil. rewrite apply_retention_cur in Hnil.
  destruct (apply_retention_cases m) as [->|[n ->]]; [exact (E Hnil)|].
  unfold prune_with. simpl. rewrite (E Hnil). reflexivity.
Qed.

Lemma cne_ext m m' : same_tables m m' -> cur_nil_empty m -> cur_nil_empty m'.
Proof. intros [Hc [Hs _]] E Hnil. rewrite <- Hs. apply E. rewrite Hc. exact Hnil. Qed.

Lemma add_cne m id t ml : 0 < id -> cur_nil_empty (add_snapshot m (new_snap m id t ml)).
Proof. intros Hpos Hnil. exfalso. exact (not_nil_pos id Hpos Hnil). Qed.

Lemma most_recent_nil_empty m : (forall s, In s (snaps m) -> 0 < sid s) -> nil_link (most_recent m) -> snaps m = [].
Proof.
  intros Hpos Hnil. destruct (most_recent_ok m) as [Hn|[x [Hx Hin]]].
  - unfold most_recent in Hn. destruct (snaps m); [reflexivity|]. destruct (find _ _); discriminate.
  - exfalso. rewrite Hx in Hnil. apply sids_In_snap in Hin. destruct Hin as [s [Hs <-]]. exact (not_nil_pos _ (Hpos s Hs) Hnil).
Qed.

Lemma cne_pruned H m m' : Inv H m -> cur_nil_empty m -> pruned m m' -> cur_nil_empty m'.
Proof.
  intros HI E [|l Q [Hl _] _|l Q [Hl _]] Hnil.
  - (* nothing changed *) exact (E Hnil).
  - (* cur is kept: the table was empty, and nothing is left to keep *)
    cbn [prune_with with_snaps cur snaps] in *. rewrite (E Hnil) in Hl. apply Permutation_sym, Permutation_nil in Hl.
    rewrite Hl. reflexivity.
  - (* the current snapshot was dropped: the most recent survivor, a positive id, is current unless there is none *)
    apply (most_recent_nil_empty (prune_with m (cur m) l Q)); [|exact Hnil].
    apply (core_sids_pos H). apply core_prune; [apply (i_core _ _ HI)|exact Hl].
Qed.
