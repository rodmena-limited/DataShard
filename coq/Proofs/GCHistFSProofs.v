(* Proofs/GCHistFSProofs.v -- the history invariant over a backend with several spellings of a key (Model/GCHistFS.v).

   Under the law `normpath s = s -> canon s = s`, every step of the fs machine is a step of the literal machine of
   Model/GCHist.v or a refused commit: the REGENERATED acceptance guard of append_files demands normpath rel = rel (lemma
   accepts_canonical -- it does not compile on a source tree without that conjunct), hence canon rel = rel, hence the backend's
   existence check is the literal one.  Without the law (normpath := id, the guard's canonical-spelling half erased) the
   invariant is FALSE: Props/C05.v C05_alias_spelling_refuted, over alias_ops below. *)
From Coq Require Import ZArith String Ascii List Bool.
Require Import DS.Model.PyStr DS.Gen.GenNorm DS.Model.GC DS.Model.GCHist DS.Model.GCHistFS.
Require Import DS.Proofs.GCHistProofs.
Import ListNotations.
Open Scope string_scope.
Open Scope Z_scope.

Lemma accepts_canonical : forall (normpath : string -> string) (e : string),
  append_accepts_path normpath e = true -> normpath (resolve e) = resolve e.
Proof.
  intros np e H. destruct (String.eqb (np (resolve e)) (resolve e)) eqn:E; [apply String.eqb_eq in E; exact E|]. exfalso.
  unfold append_accepts_path in H. cbv zeta in H. change (lstrip_c "/"%char e) with (resolve e) in H.
  rewrite E in H. cbn [negb orb] in H. rewrite orb_true_r in H. cbn [negb andb] in H. discriminate.
Qed.

Lemma accepts_literal : forall (normpath : string -> string) (e : string),
  append_accepts_path normpath e = true -> accepts e = true.
Proof.
  intros np e H. pose proof (accepts_canonical np e H) as C. apply String.eqb_eq in C.
  unfold accepts, literal_normpath. unfold append_accepts_path in *. cbv zeta in *.
  change (lstrip_c "/"%char e) with (resolve e) in *. rewrite C in H. rewrite String.eqb_refl. exact H.
Qed.

Section FS.
  Variables normpath canon : string -> string.
  Hypothesis canon_law : forall s, normpath s = s -> canon s = s.

  Lemma accepted_is_stored_key : forall e, accepts_fs normpath e = true -> canon (resolve e) = resolve e.
  Proof. intros e H. apply canon_law. apply accepts_canonical. exact H. Qed.

  Lemma valid_commit_fs_literal : forall h newdata newmans kept lname lmt,
    valid_commit_fs normpath canon h newdata newmans kept lname lmt = true -> valid_commit h newdata newmans kept lname lmt = true.
  Proof.
    (* the two machines' side conditions differ in the third conjunct only (V3: acceptance and existence of each entry) *)
    intros h newdata newmans kept lname lmt V. unfold valid_commit_fs in V. unfold valid_commit. cbv zeta in *.
    apply andb_true_iff in V. destruct V as [V V4]. apply andb_true_iff in V. destruct V as [V V3].
    rewrite V, V4, andb_true_r. cbn [andb]. apply forallb_forall. intros p Hp. apply forallb_forall. intros e He.
    rewrite forallb_forall in V3. specialize (V3 p Hp). rewrite forallb_forall in V3. specialize (V3 e He).
    apply andb_true_iff in V3. destruct V3 as [A X]. rewrite (accepts_literal _ _ A). cbn [andb].
    unfold exists_fs in X. rewrite (accepted_is_stored_key e A) in X. exact X.
  Qed.

  (* a step of the fs machine is the literal machine's step, or a refused commit *)
  Lemma hstep_fs_refines : forall h op, hstep_fs normpath canon h op = hstep h op \/ hstep_fs normpath canon h op = h.
  Proof.
    intros h op. destruct op as [sid newdata newmans kept lname lmt expire|keep|sid|name mt mmt|k garbage mt|k mt|tp grace now timeout o];
      try (left; reflexivity).
    cbn [hstep_fs hstep]. destruct (valid_commit_fs normpath canon h newdata newmans kept lname lmt) eqn:V; [|right; reflexivity].
    left. rewrite (valid_commit_fs_literal _ _ _ _ _ _ V). reflexivity.
  Qed.

  Lemma hinv_step_fs : forall h op, hinv h -> hinv (hstep_fs normpath canon h op).
  Proof. intros h op Hi. destruct (hstep_fs_refines h op) as [-> | ->]; [apply hinv_step; exact Hi|exact Hi]. Qed.

End FS.

Lemma snapshot_present_fsb_complete : forall canon st l, snapshot_present_fs canon st l -> snapshot_present_fsb canon st l = true.
Proof.
  intros canon st l P. unfold snapshot_present_fsb. destruct (nonempty l) eqn:N; [|reflexivity]. cbn [negb orb].
  destruct (P N) as [ms [[ob [L B]] Q]]. rewrite L, B. apply forallb_forall. intros m Hm.
  destruct (nonempty m) eqn:Nm; [|reflexivity]. cbn [negb orb].
  destruct (Q m Hm Nm) as [es [[ob2 [L2 B2]] R]]. rewrite L2, B2. apply forallb_forall. intros e He.
  apply has_key_true. specialize (R e He). unfold present in R.
  destruct (lookup (canon (resolve e)) st) as [ob3|]; [eauto|contradiction].
Qed.

(* the guard's canonical-spelling half erased: FALSE.
   Location "tbl", a local filesystem (canon := squeeze).  Commit 1 writes data/a (entry "/data/a").  Commit 2 replaces the
   manifest by one naming the same file as "data//a": normpath := id accepts it, the filesystem finds the file.  Snapshot 1
   is dropped, then a grace-1000 collection compares strings: the listed key "data/a" is not the reference "data//a", so it
   is deleted -- and the retained snapshot 2 names a file the backend no longer has. *)
Definition alias_ops : list hop := [
  HCommit 1 [("a", 1000)] [("m1", ["/data/a"], 1000)] [] "l1" 1000 None;
  HCommit 2 [] [("m2", ["data//a"], 1000)] [] "l2" 1000 None;
  HDeleteSnapshot 1;
  HCollect "tbl" 1000 1000000 86400000 no_faults ].
